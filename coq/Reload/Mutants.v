(** C14 — mutants of the model: the code before commit 0510794 and six further defect classes, each with the schedule
    on which model and mutant differ.  They are refuted in Props.v (c14_mutant_*_refuted).

    reload_config used to run [ConnectionPool::from_config(..).await?] after parse() had stored the new
    CONFIG: an Err from a build left CONFIG new and POOLS old, and every later reload of the same file
    compared it with the stored copy and answered Ok(false) (finding F12, confirmed on the
    implementation before the repair).  [reload_store_first] differs from [reload] in the FcErr
    branch only. *)
From Coq Require Import Arith Bool List.
From PV Require Import Reload.Model Reload.Proofs.
Import ListNotations.

Definition reload_store_first (hashf : pdef -> hash) (s : store) (fo : file_outcome) (next : pool_id)
  : store * result * pool_id * objs_t :=
  match fo with
  | Unreadable | TomlError | Invalid _ => (s, RErr, next, [])
  | Valid c bo =>
      let s1 := {| config := c; pools := pools s |} in
      if cfg_eqb (config s) c then (s1, ROk false, next, [])
      else
        let a := from_config hashf (pools s) c bo next in
        match a_st a with
        | FcOk => ({| config := c; pools := a_np a |}, ROk true, a_next a, a_new a)
        | FcErr => (s1, RErr, next, [])           (* the mutation: CONFIG is not restored *)
        | FcPanic => (s1, RPanic, next, [])
        end
  end.

(** The mutant from this store: the build of the redefined pool fails -> Err with CONFIG = new file, POOLS = old pools;
    the retry with every build succeeding -> Ok(false), nothing built: CONFIG and POOLS disagree for good. *)
Definition mut_s0 : store := {| config := f12_old; pools := [((0, 0), (10, 0))] |}.
Definition mut_objs : objs_t := [(0, ((0, 0), 10))].

(** The model of the repaired code on the same input: the failed reload is a no-op, the retry rebuilds. *)
Lemma repaired_on_the_same_input :
  exists s2 new,
    reload idh mut_s0 (Valid f12_new (bo_of [(0, 0)] [])) 1 = (mut_s0, RErr, 1, []) /\
    reload idh mut_s0 (Valid f12_new (bo_of [] [])) 1 = (s2, ROk true, 2, new) /\
    config s2 = f12_new /\ pools s2 = [((0, 0), (11, 1))] /\ new = [(1, ((0, 0), 11))].
Proof. eexists. eexists. split; [vm_compute; reflexivity|]. split; [vm_compute; reflexivity|]. auto. Qed.


(** ---------------------------------------------------------------------------------------------------------
    Mutant 2: the idle-in-transaction timeout is looked up in CONFIG at every wait of the transaction loop
    instead of once per checkout.  [idle_live] is [OIdle]'s decision with the live value. *)
Definition idle_live (w : world) (c : cid) (ms : nat) : obs :=
  match cl_lookup c (clients w) with
  | Some x => match cheld x with
              | Some _ => let t := cidle (config (st w)) in
                          if negb (t =? 0) && (t <=? ms) then ObTimedOut else ObIdled
              | None => ObNop
              end
  | None => ObNop
  end.

Definition idle_new : cfg := {| cgen := 1; cidle := 150; cpools := [(0, (10, [0]))] |}.   (* f12_old + a 150 ms timeout *)
(** start without a timeout; the client opens a transaction; a valid reload sets the timeout to 150 ms.  Then the open
    transaction is silent for 400 ms: the model (snapshot) lets it go on, the mutant breaks it; the NEXT transaction
    times out in both *)
Definition idle_ops : list op :=
  [OReload (Valid f12_old (bo_of [] [])); OConnect 0 0 0; OBegin 0; OReload (Valid idle_new (bo_of [] []))].

(** ---------------------------------------------------------------------------------------------------------
    Mutant 3: a reload keeps a paused pool registered although the new file no longer has it. *)
Definition keep_paused (paused : list key) (old new : pools_t) : pools_t :=
  new ++ filter (fun e => existsb (key_eqb (fst e)) paused && match plookup (fst e) new with Some _ => false | None => true end) old.

Definition two_pools : cfg := {| cgen := 1; cidle := 0; cpools := [(0, (10, [0])); (1, (20, [0]))] |}.
Definition one_pool : cfg := {| cgen := 1; cidle := 0; cpools := [(1, (20, [0]))] |}.               (* pool 0 removed *)
(** the model: the paused pool is removed and resumed, its client is told "No pool configured" (not blocked,
    not served), a new login is refused; under the mutant POOLS still resolves (0,0) *)
Definition pause_ops : list op :=
  [OReload (Valid two_pools (bo_of [] [])); OConnect 0 0 0; OPause (0, 0); OReload (Valid one_pool (bo_of [] [])); OBegin 0; OConnect 1 0 0].

(** ---------------------------------------------------------------------------------------------------------
    Mutant 4: the lookup AFTER wait_paused() is dropped: a transaction that was held by PAUSE runs on the pool
    object its client looked up BEFORE waiting ([cclone] at the time it parked). *)
Definition held_new : cfg := {| cgen := 1; cidle := 0; cpools := [(0, (11, [0])); (1, (20, [0]))] |}.   (* pool 0 redefined *)
(** the first statement is held; the reload rebuilds the pool (object 2) while the client waits with a clone of
    object 0; after RESUME the model starts the transaction on object 2 — the mutant would use object 0 *)
Definition held_ops : list op :=
  [OReload (Valid two_pools (bo_of [] [])); OConnect 0 0 0; OPause (0, 0); OBegin 0;
   OReload (Valid held_new (bo_of [] [])); OResume (0, 0)].

(** ---------------------------------------------------------------------------------------------------------
    Mutant 5: a rebuilt pool inherits the ban list of its predecessor (by analogy with the pause flag).  In the code
    the list has one map per shard of the definition it was built for: with an inherited list a transaction routed to
    an ADDED shard indexes past its end (panic).  In the model: bans are keyed by object, a new object has none. *)
Definition inherit_bans (old new : pools_t) (b : list (pool_id * nat)) : list (pool_id * nat) :=
  b ++ flat_map (fun e => match plookup (fst e) old with
                          | Some (_, p0) => map (fun x => (snd (snd e), snd x)) (filter (fun x => fst x =? p0) b)
                          | None => []
                          end) new.

(** pool 0 is rebuilt (object 2), pool 1 is kept (object 1): the model has the ban of object 1 still there, none for
    object 2; the mutant would carry (0,1) over to (2,1) *)
Definition ban_ops : list op :=
  [OReload (Valid two_pools (bo_of [] [])); OBan (0, 0) 1; OBan (1, 0) 1; OReload (Valid held_new (bo_of [] []))].

(** ---------------------------------------------------------------------------------------------------------
    Mutant 6: [query_router.update_pool_settings] dropped from the refresh block (or done only when the hash differs
    from a re-read made a moment earlier): a session that was connected before the reload runs its next transaction
    on the NEW pool object with the router settings (plugins, parser flags, shard count, default role) of the OLD one. *)
Definition session_ops : list op :=
  [OReload (Valid two_pools (bo_of [] [])); OConnect 0 0 0; OReload (Valid held_new (bo_of [] [])); OBegin 0].

(** ---------------------------------------------------------------------------------------------------------
    Mutant 7: the pools that the NEW file drops are resumed at the TOP of from_config, before anything is built: when
    the build then fails the reload is refused, the pool is still registered — and no longer paused. *)
Definition drop_and_fail : cfg := {| cgen := 1; cidle := 0; cpools := [(1, (21, [0]))] |}.      (* pool 0 dropped, pool 1 redefined *)
Definition early_resume (c : cfg) (paused : list key) : list key :=
  filter (fun k => match clookup (fst k) (cpools c) with Some (_, us) => mem (snd k) us | None => false end) paused.
Definition refuse_ops : list op :=
  [OReload (Valid two_pools (bo_of [] [])); OPause (0, 0); OReload (Valid drop_and_fail (bo_of [(1, 0)] []))].

