(** C14 — [from_config] is a fold: one fact per step ([fc_step_ok]), the invariant [fc_inv], and what the POOLS it ends
    with holds ([serves]); [reload] by cases ([reload_cases]).  A step is a reload ([reload_step]) or [gc] after an op
    that leaves the store alone ([step_cases]; [client_frame] / [admin_frame] say what else it leaves alone); the
    invariants [winv], [agree], [pinv], [binv] are carried over a run by [run_invariant]. *)
From Coq Require Import Arith Bool List Lia.
From PV Require Import Reload.Model.
Import ListNotations.

Lemma key_eqb_eq : forall a b, key_eqb a b = true <-> a = b.
Proof.
  intros [a1 a2] [b1 b2]. unfold key_eqb. cbn [fst snd].
  destruct (Nat.eqb_spec a1 b1) as [->|]; [destruct (Nat.eqb_spec a2 b2) as [->|]|]; cbn; split; congruence.
Qed.

Lemma key_eqb_spec : forall a b, reflect (a = b) (key_eqb a b).
Proof. intros. apply iff_reflect. symmetry. apply key_eqb_eq. Qed.

Lemma key_eqb_refl : forall a, key_eqb a a = true.
Proof. intros. apply key_eqb_eq. reflexivity. Qed.

Lemma key_eqb_neq : forall a b, key_eqb a b = false <-> a <> b.
Proof. intros. rewrite <- key_eqb_eq. symmetry. apply not_true_iff_false. Qed.

Lemma plookup_pupsert : forall k k' v l,
  plookup k (pupsert k' v l) = if key_eqb k k' then Some v else plookup k l.
Proof.
  induction l as [|[k0 v0] t IH]; cbn; [reflexivity|].
  destruct (key_eqb_spec k' k0) as [<-|N]; cbn; [destruct (key_eqb k k'); reflexivity|].
  rewrite IH. destruct (key_eqb_spec k k0) as [->|]; [|reflexivity].
  destruct (key_eqb_spec k0 k') as [->|]; [contradiction|reflexivity].
Qed.

Lemma plookup_In : forall k v l, plookup k l = Some v -> In (k, v) l.
Proof.
  induction l as [|[k0 v0] t IH]; cbn; intros H; [discriminate|].
  destruct (key_eqb_spec k k0) as [->|]; [injection H as ->|]; auto.
Qed.

Lemma clookup_In : forall d v l, clookup d l = Some v -> In (d, v) l.
Proof.
  induction l as [|[d0 v0] t IH]; cbn; intros H; [discriminate|].
  destruct (Nat.eqb_spec d d0) as [->|]; [injection H as ->|]; auto.
Qed.

Lemma clookup_None : forall d l, clookup d l = None -> forall v, ~ In (d, v) l.
Proof.
  induction l as [|[d0 v0] t IH]; cbn; intros H v; [tauto|].
  destruct (Nat.eqb_spec d d0) as [|N]; [discriminate|].
  intros [X|X]; [injection X as -> _; contradiction | eapply IH; eauto].
Qed.

Lemma clookup_NoDup : forall d v l, NoDup (map fst l) -> In (d, v) l -> clookup d l = Some v.
Proof.
  induction l as [|[d0 v0] t IH]; cbn; intros ND H; [tauto|].
  inversion ND as [|? ? Hn ND']; subst.
  destruct H as [H|H]; [injection H as -> ->; rewrite Nat.eqb_refl; reflexivity|].
  destruct (Nat.eqb_spec d d0) as [->|]; [|auto].
  contradiction Hn. apply (in_map fst _ _ H).
Qed.

Lemma users_eqb_eq : forall a b, users_eqb a b = true <-> a = b.
Proof.
  induction a as [|x a IH]; intros [|y b]; cbn; [tauto | split; discriminate | split; discriminate |].
  rewrite andb_true_iff, Nat.eqb_eq, IH. split; [intros [-> ->]; reflexivity|intros H; inversion H; auto].
Qed.

Lemma entry_eqb_eq : forall a b, entry_eqb a b = true <-> a = b.
Proof.
  intros [a1 a2] [b1 b2]. unfold entry_eqb. cbn [fst snd]. rewrite andb_true_iff, Nat.eqb_eq, users_eqb_eq.
  split; [intros [-> ->]; reflexivity | intros H; inversion H; auto].
Qed.

Lemma mem_In : forall u us, mem u us = true <-> In u us.
Proof.
  intros. unfold mem. rewrite existsb_exists. split.
  - intros [x [H1 H2]]. apply Nat.eqb_eq in H2. subst. assumption.
  - intros H. exists u. split; auto. apply Nat.eqb_refl.
Qed.

Lemma mem_false : forall u us, mem u us = false <-> ~ In u us.
Proof. intros. rewrite <- mem_In. symmetry. apply not_true_iff_false. Qed.

Lemma in_flat : forall c d pd u,
  In (d, pd, u) (flat c) <-> exists us, In (d, (pd, us)) (cpools c) /\ In u us.
Proof.
  intros. unfold flat. rewrite in_flat_map. split.
  - intros [[d0 [pd0 us0]] [H1 H2]]. cbn [fst snd] in H2. apply in_map_iff in H2.
    destruct H2 as [u0 [E H2]]. inversion E; subst. exists us0. auto.
  - intros [us [H1 H2]]. exists (d, (pd, us)). split; auto. cbn [fst snd]. apply in_map_iff. exists u. auto.
Qed.

Lemma cl_lookup_remove : forall c d l, cl_lookup c (cl_remove d l) = if c =? d then None else cl_lookup c l.
Proof.
  unfold cl_remove. induction l as [|[c0 x] t IH]; cbn; [destruct (c =? d); reflexivity|].
  destruct (Nat.eqb_spec c0 d) as [->|N]; cbn; rewrite IH; [destruct (c =? d); reflexivity|].
  destruct (Nat.eqb_spec c c0) as [->|]; [|reflexivity]. destruct (Nat.eqb_spec c0 d); [contradiction|reflexivity].
Qed.

Lemma cl_lookup_set : forall c d x l, cl_lookup c (cl_set d x l) = if c =? d then Some x else cl_lookup c l.
Proof. intros. unfold cl_set. cbn. rewrite cl_lookup_remove. destruct (c =? d); reflexivity. Qed.

Lemma cl_lookup_In : forall c x l, cl_lookup c l = Some x -> In (c, x) l.
Proof.
  induction l as [|[c0 y] t IH]; cbn; intros H; [discriminate|].
  destruct (Nat.eqb_spec c c0) as [->|]; [injection H as ->|]; auto.
Qed.

Lemma sub_cfg_lookup : forall a b d v,
  sub_cfg a b = true -> clookup d a = Some v -> clookup d b = Some v.
Proof.
  intros a b d v H L. unfold sub_cfg in H. rewrite forallb_forall in H.
  specialize (H (d, v) (clookup_In _ _ _ L)). cbn [fst snd] in H.
  destruct (clookup d b) as [v'|]; [|discriminate]. apply entry_eqb_eq in H. subst. reflexivity.
Qed.

Lemma cfg_eqb_lookup : forall a b d, cfg_eqb a b = true -> clookup d (cpools a) = clookup d (cpools b).
Proof.
  intros a b d H. unfold cfg_eqb in H. rewrite !andb_true_iff in H. destruct H as [[_ H1] H2].
  destruct (clookup d (cpools a)) as [v|] eqn:La.
  - symmetry. eapply sub_cfg_lookup; eauto.
  - destruct (clookup d (cpools b)) as [v|] eqn:Lb; auto.
    pose proof (sub_cfg_lookup _ _ _ _ H2 Lb) as X. congruence.
Qed.

Lemma sub_cfg_refl : forall l, NoDup (map fst l) -> sub_cfg l l = true.
Proof.
  intros l ND. unfold sub_cfg. apply forallb_forall. intros [d v] H. cbn [fst snd].
  rewrite (clookup_NoDup d v l ND H). apply entry_eqb_eq. reflexivity.
Qed.

Lemma cfg_eqb_refl : forall c, wf_cfg c -> cfg_eqb c c = true.
Proof.
  intros c W. unfold cfg_eqb. rewrite !Nat.eqb_refl, (sub_cfg_refl _ W). reflexivity.
Qed.

Section WithHash.
Variable hashf : pdef -> hash.

Lemma fc_step_stuck : forall old bo a x, a_st a <> FcOk -> fc_step hashf old bo a x = a.
Proof.
  intros old bo a [[d pd] u] H. unfold fc_step. destruct (a_st a); congruence.
Qed.

Lemma fc_step_ok_inv : forall old bo a x, a_st (fc_step hashf old bo a x) = FcOk -> a_st a = FcOk.
Proof.
  intros old bo a x H. destruct (a_st a) eqn:E; auto; rewrite fc_step_stuck in H by congruence; congruence.
Qed.

Definition fc_init (n0 : pool_id) : fcacc := {| a_np := []; a_next := n0; a_new := []; a_st := FcOk |}.

(** the reuse decision of pool.rs:326-337 failed for key [k] and definition [pd] *)
Definition no_reuse (old : pools_t) (k : key) (pd : pdef) : Prop :=
  match plookup k old with Some (h0, _) => h0 <> hashf pd | None => True end.

Lemma fc_step_ok : forall old bo a d pd u, let a' := fc_step hashf old bo a (d, pd, u) in
  a_st a' = FcOk ->
  exists pid, a_np a' = pupsert (d, u) (hashf pd, pid) (a_np a) /\
    (plookup (d, u) old = Some (hashf pd, pid) /\ a_next a' = a_next a /\ a_new a' = a_new a \/
     no_reuse old (d, u) pd /\ pid = a_next a /\ a_next a' = S pid /\ a_new a' = (pid, ((d, u), pd)) :: a_new a).
Proof.
  intros old bo a d pd u a' H. pose proof (fc_step_ok_inv _ _ _ _ H) as Ha.
  subst a'. unfold fc_step, no_reuse in *. rewrite Ha in *.
  destruct (plookup (d, u) old) as [[h0 p0]|]; [destruct (Nat.eqb_spec h0 (hashf pd)) as [->|N]; [exists p0; auto|]|];
    (destruct (bo d u); [exists (a_next a); auto 6 | discriminate H | discriminate H]).
Qed.

Record fc_inv (old : pools_t) (n0 : pool_id) (pre : list (db * pdef * user)) (a : fcacc) : Prop := {
  fi_next : n0 <= a_next a;
  fi_np : forall k h pid, plookup k (a_np a) = Some (h, pid) ->
          exists pd, In (fst k, pd, snd k) pre /\ h = hashf pd /\
                     (plookup k old = Some (h, pid) \/
                      (no_reuse old k pd /\ In (pid, (k, pd)) (a_new a)));
  fi_all : forall d pd u, In (d, pd, u) pre -> exists v, plookup (d, u) (a_np a) = Some v;
  fi_new : forall pid x, In (pid, x) (a_new a) -> n0 <= pid < a_next a;
  fi_nodup : NoDup (map fst (a_new a))
}.

Lemma fc_inv_step : forall old bo n0 pre a x,
  fc_inv old n0 pre a -> a_st (fc_step hashf old bo a x) = FcOk -> fc_inv old n0 (pre ++ [x]) (fc_step hashf old bo a x).
Proof.
  intros old bo n0 pre a [[d pd] u] [I1 I2 I3 I4 I5] Hok.
  destruct (fc_step_ok _ _ _ _ _ _ Hok) as (p & Enp & C). set (a' := fc_step hashf old bo a (d, pd, u)) in *.
  (* the ids of the objects built so far are the range from [n0] up to the next id, each given once *)
  assert (J : a_next a <= a_next a' /\ (forall pid y, In (pid, y) (a_new a') -> n0 <= pid < a_next a') /\ NoDup (map fst (a_new a'))).
  { destruct C as [(_ & -> & ->)|(_ & -> & -> & ->)]; [auto|]. split; [lia|]. split.
    - intros pid y [E|Hin]; [injection E as <- _; lia|apply I4 in Hin; lia].
    - cbn. constructor; [|exact I5]. intros Hin. apply in_map_iff in Hin. destruct Hin as ([q y] & E & Hin).
      cbn in E. subst q. apply I4 in Hin. lia. }
  destruct J as (Hn & J4 & J5). constructor; [lia| | |exact J4|exact J5].
  - intros k h pid L. rewrite Enp, plookup_pupsert in L. destruct (key_eqb_spec k (d, u)) as [->|N].
    + injection L as <- <-. exists pd. split; [apply in_or_app; right; left; reflexivity|]. split; [reflexivity|].
      destruct C as [(C & _)|(C & -> & _ & E)]; [left; exact C|right]. split; [exact C|rewrite E; left; reflexivity].
    + destruct (I2 _ _ _ L) as (pd' & A & B & D). exists pd'. split; [apply in_or_app; left; exact A|]. split; [exact B|].
      destruct D as [D|(D0 & D2)]; [left; exact D|right]. split; [exact D0|].
      destruct C as [(_ & _ & ->)|(_ & _ & _ & ->)]; [|right]; exact D2.
  - intros d' pd' u' Hin. rewrite Enp, plookup_pupsert. destruct (key_eqb_spec (d', u') (d, u)) as [|N]; [eauto|].
    apply in_app_or in Hin. destruct Hin as [Hin|[Hin|[]]]; [eauto|]. injection Hin as -> _ ->. contradiction.
Qed.

Lemma fc_inv_fold : forall old bo n0 l,
  let a := fold_left (fc_step hashf old bo) l (fc_init n0) in
  a_st a = FcOk -> fc_inv old n0 l a.
Proof.
  intros old bo n0 l. induction l as [|x l IH] using rev_ind; cbn zeta in *.
  - intros _. constructor; cbn; [apply le_n|discriminate|intros ? ? ? []|intros ? ? []|constructor].
  - rewrite fold_left_app. cbn [fold_left]. intros Hok. apply fc_inv_step; [apply IH; eapply fc_step_ok_inv|]; exact Hok.
Qed.

Lemma from_config_inv : forall old c bo n0,
  a_st (from_config hashf old c bo n0) = FcOk -> fc_inv old n0 (flat c) (from_config hashf old c bo n0).
Proof. intros old c bo n0. apply (fc_inv_fold old bo n0 (flat c)). Qed.

(** the status [from_config] ends with is that of a build: Ok unless some (pool, user) of the file failed or panicked *)
Definition status_of (b : build_outcome) : fc_status :=
  match b with Built => FcOk | BuildFails => FcErr | BuildPanics => FcPanic end.

Lemma from_config_status : forall old c bo n0, let s := a_st (from_config hashf old c bo n0) in
  s = FcOk \/ exists d pd u, In (d, pd, u) (flat c) /\ s = status_of (bo d u).
Proof.
  intros old c bo n0. unfold from_config.
  enough (G : forall l a, let s := a_st (fold_left (fc_step hashf old bo) l a) in
              s = a_st a \/ exists d pd u, In (d, pd, u) l /\ s = status_of (bo d u)) by apply G.
  induction l as [|[[d pd] u] l IH]; intros a; cbn [fold_left]; [left; reflexivity|].
  destruct (IH (fc_step hashf old bo a (d, pd, u))) as [E|(d' & pd' & u' & Hin & E)];
    [|right; exists d', pd', u'; split; [right; exact Hin|exact E]].
  rewrite E. unfold fc_step. destruct (a_st a) eqn:Ea; auto.
  destruct (plookup (d, u) old) as [[h0 p0]|]; [destruct (h0 =? hashf pd); auto|];
    right; exists d, pd, u; (split; [left; reflexivity|]); destruct (bo d u); reflexivity.
Qed.

Lemma all_built_ok : forall old c bo n0, all_built c bo = true -> a_st (from_config hashf old c bo n0) = FcOk.
Proof.
  intros old c bo n0 H. destruct (from_config_status old c bo n0) as [E|(d & pd & u & Hin & E)]; [exact E|]. rewrite E.
  unfold all_built in H. rewrite forallb_forall in H. specialize (H _ Hin). cbn in H. destruct (bo d u); [reflexivity|discriminate..].
Qed.

Lemma no_panic_status : forall old c bo n0, no_panic c bo = true -> a_st (from_config hashf old c bo n0) <> FcPanic.
Proof.
  intros old c bo n0 H. destruct (from_config_status old c bo n0) as [E|(d & pd & u & Hin & E)]; rewrite E; [discriminate|].
  unfold no_panic in H. rewrite forallb_forall in H. specialize (H _ Hin). cbn in H. destruct (bo d u); discriminate.
Qed.

(** What POOLS [p], made from [old] for the configuration [c], holds: exactly the (pool, user) pairs of [c], each with the
    old object where that has the hash of the configured definition, else with one of the objects [new] (ids [n] up to
    [n']) built from exactly that definition. *)
Definition serves (old : pools_t) (n n' : pool_id) (new : objs_t) (c : cfg) (p : pools_t) : Prop :=
  forall d u,
    match clookup d (cpools c) with
    | Some (pd, us) =>
        if mem u us
        then exists pid, plookup (d, u) p = Some (hashf pd, pid) /\
               (plookup (d, u) old = Some (hashf pd, pid) \/
                (no_reuse old (d, u) pd /\ n <= pid < n' /\ In (pid, ((d, u), pd)) new))
        else plookup (d, u) p = None
    | None => plookup (d, u) p = None
    end.

Lemma from_config_spec : forall old c bo n0,
  wf_cfg c -> let a := from_config hashf old c bo n0 in a_st a = FcOk -> serves old n0 (a_next a) (a_new a) c (a_np a).
Proof.
  intros old c bo n0 W a Hok d u. pose proof (from_config_inv _ _ _ _ Hok) as [_ I2 I3 I4 _]. fold a in I2, I3, I4.
  destruct (plookup (d, u) (a_np a)) as [[h pid]|] eqn:Lk.
  - destruct (I2 _ _ _ Lk) as (pd & A & -> & C). cbn [fst snd] in A. apply in_flat in A. destruct A as (us & A & Hu).
    rewrite (clookup_NoDup _ _ _ W A). apply mem_In in Hu. rewrite Hu. exists pid. split; [reflexivity|].
    destruct C as [C|(C & Hin)]; [left; exact C|right; exact (conj C (conj (I4 _ _ Hin) Hin))].
  - destruct (clookup d (cpools c)) as [[pd us]|] eqn:L; [|reflexivity]. destruct (mem u us) eqn:M; [|reflexivity].
    apply mem_In in M. destruct (I3 d pd u) as [v X]; [apply in_flat; exists us; split; [apply clookup_In; exact L|exact M]|].
    congruence.
Qed.

Definition invalid (fo : file_outcome) : Prop :=
  match fo with Valid _ _ => False | _ => True end.

Lemma invalid_noop : forall s fo n, invalid fo -> reload hashf s fo n = (s, RErr, n, []).
Proof. intros s [| |w|c bo] n H; cbn in *; tauto. Qed.

(** repaired F12: a build that FAILS leaves CONFIG, POOLS, the id supply and the objects as they were *)
Lemma failed_build_noop : forall s c bo n,
  cfg_eqb (config s) c = false -> a_st (from_config hashf (pools s) c bo n) = FcErr ->
  reload hashf s (Valid c bo) n = (s, RErr, n, []).
Proof. intros s c bo n NE Hst. cbn [reload]. rewrite NE, Hst. reflexivity. Qed.

Lemma reload_cases : forall s fo n s' r n' new, reload hashf s fo n = (s', r, n', new) ->
  (r <> ROk true /\ pools s' = pools s /\ n' = n /\ new = [] /\
     (config s' = config s \/ cfg_eqb (config s) (config s') = true \/
      exists c bo, fo = Valid c bo /\ a_st (from_config hashf (pools s) c bo n) = FcPanic)) \/
  (exists c bo, fo = Valid c bo /\ cfg_eqb (config s) c = false /\
     let a := from_config hashf (pools s) c bo n in
     a_st a = FcOk /\ s' = {| config := c; pools := a_np a |} /\ r = ROk true /\ n' = a_next a /\ new = a_new a).
Proof.
  intros s fo n s' r n' new R.
  destruct fo as [| |y|c bo]; cbn [reload] in R;
    [| | |destruct (cfg_eqb (config s) c) eqn:NE; [|destruct (a_st (from_config hashf (pools s) c bo n)) eqn:Hst]];
    injection R as <- <- <- <-;
    [left; split; [discriminate|auto 6]..|right; exists c, bo; auto 8| |].
  - left. split; [discriminate|auto 6].
  - left. split; [discriminate|]. repeat split. right. right. exists c, bo. auto.
Qed.

Lemma reload_keeps_pools : forall s fo n s' r n' new, reload hashf s fo n = (s', r, n', new) -> r <> ROk true -> pools s' = pools s.
Proof.
  intros s fo n s' r n' new R NR. destruct (reload_cases _ _ _ _ _ _ _ R) as [(_ & E & _)|(c & bo & _ & _ & _ & _ & E & _)];
    [exact E|contradiction].
Qed.

Lemma reload_result : forall s c bo n s' r n' new,
  cfg_eqb (config s) c = false -> reload hashf s (Valid c bo) n = (s', r, n', new) ->
  match a_st (from_config hashf (pools s) c bo n) with
  | FcOk => r = ROk true
  | FcErr => r = RErr /\ s' = s /\ n' = n /\ new = []
  | FcPanic => r = RPanic /\ s' = {| config := c; pools := pools s |} /\ n' = n /\ new = []
  end.
Proof.
  intros s c bo n s' r n' new NE R. cbn [reload] in R. rewrite NE in R.
  destruct (a_st (from_config hashf (pools s) c bo n)); inversion R; subst; auto.
Qed.

Lemma reload_ok : forall s c bo n s' n' new,
  wf_cfg c -> reload hashf s (Valid c bo) n = (s', ROk true, n', new) ->
  config s' = c /\ serves (pools s) n n' new c (pools s').
Proof.
  intros s c bo n s' n' new W R.
  destruct (reload_cases _ _ _ _ _ _ _ R) as [(NR & _)|(c0 & bo0 & [= <- <-] & _ & Hst & -> & _ & -> & ->)]; [congruence|].
  split; [reflexivity|]. apply from_config_spec; assumption.
Qed.

Lemma unchanged_kept : forall s c bo n s' r n' new d u h pid pd us,
  wf_cfg c ->
  reload hashf s (Valid c bo) n = (s', r, n', new) ->
  plookup (d, u) (pools s) = Some (h, pid) ->
  clookup d (cpools c) = Some (pd, us) -> In u us -> hashf pd = h ->
  plookup (d, u) (pools s') = Some (h, pid).
Proof.
  intros s c bo n s' r n' new d u h pid pd us W R Lo Lc Hu <-.
  destruct (reload_cases _ _ _ _ _ _ _ R) as [(_ & -> & _)|(c0 & bo0 & [= <- <-] & _ & Hst & -> & _)]; [exact Lo|].
  pose proof (from_config_spec _ _ _ _ W Hst d u) as S. rewrite Lc, (proj2 (mem_In _ _) Hu) in S. cbn [pools].
  destruct S as (pid' & A & [B|(B & _)]); [congruence|]. unfold no_reuse in B. rewrite Lo in B. congruence.
Qed.

Lemma reload_fresh : forall s fo n s' r n' new, reload hashf s fo n = (s', r, n', new) ->
  n <= n' /\ (forall pid x, In (pid, x) new -> n <= pid < n') /\ NoDup (map fst new) /\
  (forall k h pid, plookup k (pools s') = Some (h, pid) ->
     plookup k (pools s) = Some (h, pid) \/ exists pd, h = hashf pd /\ In (pid, (k, pd)) new).
Proof.
  intros s fo n s' r n' new R.
  destruct (reload_cases _ _ _ _ _ _ _ R) as [(_ & -> & -> & -> & _)|(c & bo & _ & _ & Hst & -> & _ & -> & ->)].
  - split; [auto|]. split; [intros ? ? []|]. split; [constructor|auto].
  - destruct (from_config_inv _ _ _ _ Hst) as [I1 I2 _ I4 I5]. split; [exact I1|]. split; [exact I4|]. split; [exact I5|].
    intros k h pid L. destruct (I2 _ _ _ L) as (pd & _ & E & [C|(_ & C)]); [left; exact C|right; exists pd; auto].
Qed.

Definition store_ok (ob : objs_t) (p : pools_t) : Prop :=
  forall k h pid, plookup k p = Some (h, pid) -> exists pd, In (pid, (k, pd)) ob /\ h = hashf pd.

Lemma in_effect_objs_mono : forall ob ob' c p, (forall x, In x ob -> In x ob') -> in_effect hashf ob c p -> in_effect hashf ob' c p.
Proof.
  intros ob ob' c p Hsub H d u. specialize (H d u). destruct (clookup d (cpools c)) as [[pd us]|]; auto.
  destruct (mem u us); auto. destruct H as [pid [pd' [A [B C]]]]. exists pid, pd'. auto.
Qed.

Lemma in_effect_cfg_eq : forall ob a b p, cfg_eqb a b = true -> in_effect hashf ob a p -> in_effect hashf ob b p.
Proof.
  intros ob a b p E H d u. specialize (H d u). rewrite <- (cfg_eqb_lookup a b d E). assumption.
Qed.

Lemma serves_in_effect : forall ob old n n' new c p,
  store_ok ob old -> serves old n n' new c p -> in_effect hashf (new ++ ob) c p.
Proof.
  intros ob old n n' new c p SO S d u. specialize (S d u). destruct (clookup d (cpools c)) as [[pd us]|]; auto.
  destruct (mem u us); auto. destruct S as (pid & A & [B|(_ & _ & B)]).
  - destruct (SO _ _ _ B) as (pd' & X & Y). exists pid, pd'. auto using in_or_app.
  - exists pid, pd. auto using in_or_app.
Qed.

Lemma reload_agree : forall ob s fo n s' r n' new,
  store_ok ob (pools s) -> fo_wf fo -> known_panic fo = false ->
  reload hashf s fo n = (s', r, n', new) ->
  in_effect hashf ob (config s) (pools s) -> in_effect hashf (new ++ ob) (config s') (pools s').
Proof.
  intros ob s fo n s' r n' new SO W K R A.
  destruct (reload_cases _ _ _ _ _ _ _ R) as [(_ & -> & _ & -> & C)|(c & bo & -> & _ & Hst & -> & _ & _ & ->)].
  - destruct C as [->|[E|(c & bo & -> & P)]]; [exact A|exact (in_effect_cfg_eq _ _ _ _ E A)|].
    cbn in K. apply negb_false_iff in K. contradiction (no_panic_status _ _ _ _ K P).
  - exact (serves_in_effect _ _ _ _ _ _ _ SO (from_config_spec _ _ _ _ W Hst)).
Qed.

Lemma gc_idem : forall w, gc (gc w) = gc w.
Proof.
  intros w. unfold gc. cbn. f_equal.
  induction (servers w) as [|x l IH]; cbn; auto.
  destruct (alive (st w) (clients w) (spool x) || is_held x) eqn:E; cbn; [rewrite E|]; congruence.
Qed.

Definition settled (w : world) : Prop := gc w = w.

Lemma step_settled : forall w o, settled (fst (step hashf w o)).
Proof. intros. unfold step, settled. destruct (step0 hashf w o) as [w' ob]. cbn. apply gc_idem. Qed.

Lemma gc_st : forall w, st (gc w) = st w. Proof. reflexivity. Qed.
Lemma gc_clients : forall w, clients (gc w) = clients w. Proof. reflexivity. Qed.
Lemma gc_objs : forall w, objs (gc w) = objs w. Proof. reflexivity. Qed.

Lemma alive_registered : forall s cl k h p, plookup k (pools s) = Some (h, p) -> alive s cl p = true.
Proof.
  intros s cl k h p L. unfold alive. apply orb_true_iff. left. apply existsb_exists.
  exists (k, (h, p)). split; [exact (plookup_In _ _ _ L)|]. cbn. apply Nat.eqb_refl.
Qed.

Lemma alive_cloned : forall s cl c x p, cl_lookup c cl = Some x -> cclone x = p -> alive s cl p = true.
Proof.
  intros s cl c x p L <-. unfold alive. apply orb_true_iff. right. apply existsb_exists.
  exists (c, x). split; [exact (cl_lookup_In _ _ _ L)|]. cbn. apply Nat.eqb_refl.
Qed.

Lemma gc_servers : forall w x,
  In x (servers (gc w)) <-> In x (servers w) /\ alive (st w) (clients w) (spool x) || is_held x = true.
Proof. intros. apply filter_In. Qed.

Lemma gc_keeps_held : forall w x, In x (servers w) -> is_held x = true -> In x (servers (gc w)).
Proof. intros w x Hin Hh. apply gc_servers. rewrite Hh. auto using orb_true_r. Qed.

Lemma gc_keeps_store_pool : forall w x k h, In x (servers w) -> plookup k (pools (st w)) = Some (h, spool x) -> In x (servers (gc w)).
Proof. intros w x k h Hin L. apply gc_servers. rewrite (alive_registered _ _ _ _ _ L). auto. Qed.

Lemma gc_sub : forall w x, In x (servers (gc w)) -> In x (servers w).
Proof. intros w x H. apply gc_servers in H. tauto. Qed.

Lemma take_idle_keeps_held : forall p c l s l' x,
  take_idle p c l = Some (s, l') -> In x l -> is_held x = true -> In x l'.
Proof.
  induction l as [|y t IH]; cbn; intros s l' x H Hin Hh; [discriminate|].
  destruct (idle_of p y) eqn:E.
  - injection H as <- <-. destruct Hin as [->|Hin]; [|right; assumption].
    unfold idle_of in E. apply andb_true_iff in E. rewrite Hh in E. destruct E as [_ E]. discriminate.
  - destruct (take_idle p c t) as [[s0 t0]|]; [|discriminate]. injection H as <- <-.
    destruct Hin as [->|Hin]; [left; reflexivity|right; exact (IH _ _ _ eq_refl Hin Hh)].
Qed.

Lemma take_idle_result : forall p c l s l',
  take_idle p c l = Some (s, l') -> In {| sid := s; spool := p; sholder := Some c |} l'.
Proof.
  induction l as [|y t IH]; cbn; intros s l' H; [discriminate|].
  destruct (idle_of p y) eqn:E.
  - injection H as <- <-. left. unfold idle_of in E. apply andb_true_iff in E. destruct E as [E _].
    apply Nat.eqb_eq in E. rewrite E. reflexivity.
  - destruct (take_idle p c t) as [[s0 t0]|]; [|discriminate]. injection H as <- <-. right. exact (IH _ _ eq_refl).
Qed.

Lemma release_keeps_other : forall c l x, In x l -> held_by c x = false -> In x (release c l).
Proof.
  intros c l x Hin Hh. unfold release. apply in_or_app. left. apply filter_In. rewrite Hh. auto.
Qed.

Lemma release_returns : forall c l x,
  In x l -> held_by c x = true -> In {| sid := sid x; spool := spool x; sholder := None |} (release c l).
Proof.
  intros c l x Hin Hh. unfold release. apply in_or_app. right.
  apply (in_map (fun x => {| sid := sid x; spool := spool x; sholder := None |})). apply filter_In. auto.
Qed.

Definition is_reload (o : op) : bool := match o with OReload _ => true | _ => false end.

Lemma op_cases : forall o,
  (exists fo, o = OReload fo) \/ is_reload o = false /\ ((exists c, actor o = Some c) \/ actor o = None).
Proof. intros []; cbn; eauto. Qed.

Lemma reload_step : forall w fo w' ob, step hashf w (OReload fo) = (w', ob) ->
  exists s' r n' new, reload hashf (st w) fo (next_pool w) = (s', r, n', new) /\ ob = ObReload r /\
    w' = gc {| st := s'; objs := new ++ objs w; next_pool := n'; clients := clients w; servers := servers w;
               next_srv := next_srv w; validated := validated w; bans := bans w; waiting := waiting w;
               paused := match r with ROk true => filter (has_pool s') (paused w) | _ => paused w end |}.
Proof.
  intros w fo w' ob S. unfold step in S. cbn [step0] in S.
  destruct (reload hashf (st w) fo (next_pool w)) as [[[s' r] n'] new]. injection S as <- <-. exists s', r, n', new. auto.
Qed.

(** The client table [cl'] after an op of client [c] on [cl], with POOLS = [pl]: only the entry of [c] may differ; it is
    dropped, or set to a client whose clone is the object registered for its (database, user), or keeps all three. *)
Inductive clients_upd (pl : pools_t) (cl : list (cid * client)) (c : cid) : list (cid * client) -> Prop :=
| cu_same : clients_upd pl cl c cl
| cu_remove : clients_upd pl cl c (cl_remove c cl)
| cu_resolved : forall x h, plookup (cdb x, cuser x) pl = Some (h, cclone x) -> clients_upd pl cl c (cl_set c x cl)
| cu_kept : forall x0 x, cl_lookup c cl = Some x0 -> (cdb x, cuser x, cclone x) = (cdb x0, cuser x0, cclone x0) ->
    clients_upd pl cl c (cl_set c x cl).

Lemma clients_upd_others : forall pl cl c cl' c', clients_upd pl cl c cl' -> c' <> c -> cl_lookup c' cl' = cl_lookup c' cl.
Proof.
  intros pl cl c cl' c' U N. apply Nat.eqb_neq in N. destruct U; rewrite ?cl_lookup_remove, ?cl_lookup_set, ?N; reflexivity.
Qed.

Inductive servers_upd (sv : list server) (c : cid) : list server -> Prop :=
| su_same : servers_upd sv c sv
| su_open : forall x, servers_upd sv c (x :: sv)
| su_take : forall p s l', take_idle p c sv = Some (s, l') -> servers_upd sv c l'
| su_release : servers_upd sv c (release c sv).

Lemma servers_upd_others : forall sv c sv' x c',
  servers_upd sv c sv' -> In x sv -> sholder x = Some c' -> c' <> c -> In x sv'.
Proof.
  intros sv c sv' x c' U Hin Hh N. destruct U as [|y|p s l' T|].
  - exact Hin.
  - right. exact Hin.
  - apply (take_idle_keeps_held _ _ _ _ _ _ T Hin). unfold is_held. rewrite Hh. reflexivity.
  - apply release_keeps_other; [exact Hin|]. unfold held_by. rewrite Hh. apply Nat.eqb_neq. exact N.
Qed.

Definition client_frame (w : world) (c : cid) (w1 : world) : Prop :=
  st w1 = st w /\ objs w1 = objs w /\ next_pool w1 = next_pool w /\ paused w1 = paused w /\ bans w1 = bans w /\
  clients_upd (pools (st w)) (clients w) c (clients w1) /\ servers_upd (servers w) c (servers w1).

Lemma client_frame_intro : forall w c cl sv ns va wt,
  clients_upd (pools (st w)) (clients w) c cl -> servers_upd (servers w) c sv ->
  client_frame w c {| st := st w; objs := objs w; next_pool := next_pool w; clients := cl; servers := sv; next_srv := ns;
                      validated := va; bans := bans w; waiting := wt; paused := paused w |}.
Proof. repeat split; assumption. Qed.

Lemma do_begin_frame : forall w c x w1 ob, do_begin w c x = (w1, ob) -> client_frame w c w1.
Proof.
  intros w c x w1 ob D. unfold do_begin in D. destruct (plookup (cdb x, cuser x) (pools (st w))) as [[h p]|] eqn:Lp.
  - destruct (take_idle p c (servers w)) as [[s l']|] eqn:T; injection D as <- _;
      (apply client_frame_intro; [eapply cu_resolved; exact Lp|]); [eapply su_take; exact T|apply su_open].
  - injection D as <- _. apply client_frame_intro; [apply cu_remove|apply su_same].
Qed.

Lemma client_step0 : forall w o c w1 ob, actor o = Some c -> step0 hashf w o = (w1, ob) -> client_frame w c w1.
Proof.
  intros w o c w1 ob A S.
  assert (Same : forall ob0, (w, ob0) = (w1, ob) -> client_frame w c w1) by (intros ob0 [= <- _]; repeat split; constructor).
  destruct o as [fo|c0 d u|c0|c0|c0|c0 ms|k|k|c0|k i]; try discriminate A; injection A as ->; cbn [step0] in S.
  - destruct (cl_lookup c (clients w)); [exact (Same _ S)|].
    destruct (plookup (d, u) (pools (st w))) as [[h p]|] eqn:Lp; [|exact (Same _ S)].
    destruct (existsb (Nat.eqb p) (validated w)); injection S as <- _;
      (apply client_frame_intro; [eapply cu_resolved; exact Lp|]); [apply su_same|apply su_open].
  - destruct (cl_lookup c (clients w)) as [x|]; [|exact (Same _ S)].
    destruct (cheld x); [exact (Same _ S)|].
    destruct (existsb (Nat.eqb c) (waiting w)); [exact (Same _ S)|].
    destruct (existsb (key_eqb (cdb x, cuser x)) (paused w)); [|exact (do_begin_frame _ _ _ _ _ S)].
    injection S as <- _. apply client_frame_intro; [|apply su_same].
    destruct (plookup (cdb x, cuser x) (pools (st w))) as [[h p]|] eqn:Lp; [eapply cu_resolved; exact Lp|apply cu_same].
  - destruct (cl_lookup c (clients w)) as [x|] eqn:L; [|exact (Same _ S)].
    destruct (cheld x); [|exact (Same _ S)]. injection S as <- _.
    apply client_frame_intro; [eapply cu_kept; [exact L|reflexivity]|apply su_release].
  - destruct (cl_lookup c (clients w)); [|exact (Same _ S)]. injection S as <- _.
    apply client_frame_intro; [apply cu_remove|apply su_release].
  - destruct (cl_lookup c (clients w)) as [x|] eqn:L; [|exact (Same _ S)].
    destruct (cheld x); [|exact (Same _ S)].
    destruct (negb (ctmo x =? 0) && (ctmo x <=? ms)); [|exact (Same _ S)]. injection S as <- _.
    apply client_frame_intro; [eapply cu_kept; [exact L|reflexivity]|apply su_release].
  - destruct (cl_lookup c (clients w)) as [x|]; [|exact (Same _ S)].
    destruct (negb (existsb (Nat.eqb c) (waiting w))); [exact (Same _ S)|].
    destruct (existsb (key_eqb (cdb x, cuser x)) (paused w)); [exact (Same _ S)|].
    exact (do_begin_frame _ _ _ _ _ S).
Qed.

(** PAUSE and RESUME touch the pause flags only, and pause registered pools only; BAN adds to the list of a registered object *)
Definition admin_frame (w w1 : world) : Prop :=
  st w1 = st w /\ objs w1 = objs w /\ next_pool w1 = next_pool w /\ clients w1 = clients w /\ servers w1 = servers w /\
  (forall k, In k (paused w1) -> In k (paused w) \/ has_pool (st w) k = true) /\
  (forall p i, In (p, i) (bans w1) -> In (p, i) (bans w) \/ exists k h, plookup k (pools (st w)) = Some (h, p)).

Lemma admin_step0 : forall w o w1 ob, actor o = None -> is_reload o = false -> step0 hashf w o = (w1, ob) -> admin_frame w w1.
Proof.
  intros w o w1 ob A Q S. unfold admin_frame. destruct o as [fo| | | | | |k|k| |k i]; try discriminate; cbn [step0] in S.
  - destruct (has_pool (st w) k) eqn:Hk; injection S as <- _; cbn; repeat split; auto. intros k' [<-|Hin]; auto.
  - destruct (has_pool (st w) k); injection S as <- _; cbn; repeat split; auto. intros k' Hin. apply filter_In in Hin. tauto.
  - destruct (plookup k (pools (st w))) as [[h p]|] eqn:L; injection S as <- _; cbn; repeat split; auto.
    intros p' i' [[= <- <-]|Hin]; eauto.
Qed.

(** One step by the kind of its op: a reload ([reload_step]), or [gc] after what a client or an admin command did. *)
Lemma step_cases : forall w o w' ob, step hashf w o = (w', ob) ->
  (exists fo, o = OReload fo) \/
  is_reload o = false /\ exists w1, w' = gc w1 /\
    ((exists c, actor o = Some c /\ client_frame w c w1) \/ actor o = None /\ admin_frame w w1).
Proof.
  intros w o w' ob S. destruct (op_cases o) as [R|(Q & A)]; [left; exact R|right; split; [exact Q|]].
  unfold step in S. destruct (step0 hashf w o) as [w1 ob1] eqn:S0. injection S as <- <-. exists w1. split; [reflexivity|].
  destruct A as [(c & A)|A]; [left; exists c|right]; split;
    [exact A|exact (client_step0 _ _ _ _ _ A S0)|exact A|exact (admin_step0 _ _ _ _ A Q S0)].
Qed.

Lemma run_invariant : forall (Q : op -> Prop) (P : world -> Prop),
  (forall w o w' ob, Q o -> P w -> step hashf w o = (w', ob) -> P w') ->
  forall l w w' obs, Forall Q l -> P w -> run hashf w l = (w', obs) -> P w'.
Proof.
  intros Q P H. induction l as [|o t IH]; intros w w' obs F I R; cbn in R.
  - injection R as <- _. exact I.
  - destruct (step hashf w o) as [w1 ob] eqn:S. destruct (run hashf w1 t) as [w2 obs2] eqn:R2. injection R as <- _.
    inversion F; subst. eauto.
Qed.

Lemma run_inv : forall P : world -> Prop,
  (forall w o w' ob, P w -> step hashf w o = (w', ob) -> P w') ->
  forall l w w' obs, P w -> run hashf w l = (w', obs) -> P w'.
Proof.
  intros P H l w w' obs. apply (run_invariant (fun _ => True)); [eauto|]. apply Forall_forall. auto.
Qed.

Lemma run_settled : forall l w w' obs, settled w -> run hashf w l = (w', obs) -> settled w'.
Proof.
  apply (run_inv settled). intros w o w' ob _ S. pose proof (step_settled w o) as X. rewrite S in X. exact X.
Qed.

Lemma settled_empty : settled empty_world.
Proof. reflexivity. Qed.

Lemma client_step_store : forall w o w' ob, step hashf w o = (w', ob) -> actor o <> None ->
  st w' = st w /\ objs w' = objs w /\ next_pool w' = next_pool w /\ paused w' = paused w.
Proof.
  intros w o w' ob S A.
  destruct (step_cases _ _ _ _ S) as [(fo & ->)|(_ & w1 & -> & [(c & _ & E1 & E2 & E3 & E4 & _)|(N & _)])];
    [contradiction A; reflexivity|auto|contradiction].
Qed.

Lemma client_run_store : forall l w w' obs, run hashf w l = (w', obs) -> Forall (fun o => actor o <> None) l ->
  st w' = st w /\ objs w' = objs w /\ next_pool w' = next_pool w /\ paused w' = paused w.
Proof.
  intros l w w' obs R F.
  apply (run_invariant _ (fun w' => st w' = st w /\ objs w' = objs w /\ next_pool w' = next_pool w /\ paused w' = paused w))
    with (2 := F) (4 := R); [|auto].
  intros w0 o w1 ob Q (A & B & C & D) S. destruct (client_step_store _ _ _ _ S Q) as (A' & B' & C' & D'). repeat split; congruence.
Qed.

Lemma quiet_step_store : forall w o w' ob, step hashf w o = (w', ob) -> is_reload o = false ->
  st w' = st w /\ objs w' = objs w /\ next_pool w' = next_pool w.
Proof.
  intros w o w' ob S Q.
  destruct (step_cases _ _ _ _ S) as [(fo & ->)|(_ & w1 & -> & [(c & _ & E1 & E2 & E3 & _)|(_ & E1 & E2 & E3 & _)])];
    [discriminate|auto|auto].
Qed.

Lemma quiet_run_store : forall l w w' obs, run hashf w l = (w', obs) -> Forall (fun o => is_reload o = false) l ->
  st w' = st w /\ objs w' = objs w /\ next_pool w' = next_pool w.
Proof.
  intros l w w' obs R F.
  apply (run_invariant _ (fun w' => st w' = st w /\ objs w' = objs w /\ next_pool w' = next_pool w)) with (2 := F) (4 := R); [|auto].
  intros w0 o w1 ob Q (A & B & C) S. destruct (quiet_step_store _ _ _ _ S Q) as (A' & B' & C'). repeat split; congruence.
Qed.

Lemma inflight_step : forall w o w' ob c x srv,
  step hashf w o = (w', ob) -> actor o <> Some c ->
  cl_lookup c (clients w) = Some x -> In srv (servers w) -> sholder srv = Some c ->
  cl_lookup c (clients w') = Some x /\ In srv (servers w').
Proof.
  intros w o w' ob c x srv S A L Hin Hh.
  assert (K : forall w1, In srv (servers w1) -> In srv (servers (gc w1))).
  { intros w1 G. apply gc_keeps_held; [exact G|]. unfold is_held. rewrite Hh. reflexivity. }
  destruct (step_cases _ _ _ _ S) as [(fo & ->)|(_ & w1 & -> & [(c0 & Ac & _ & _ & _ & _ & _ & Uc & Us)|(_ & _ & _ & _ & Ec & Ev & _)])].
  - destruct (reload_step _ _ _ _ S) as (s' & r & n' & new & _ & _ & ->). split; [exact L|apply K; exact Hin].
  - assert (N : c <> c0) by congruence. rewrite gc_clients, (clients_upd_others _ _ _ _ _ Uc N).
    split; [exact L|]. apply K. exact (servers_upd_others _ _ _ _ _ Us Hin Hh N).
  - rewrite gc_clients, Ec. split; [exact L|]. apply K. rewrite Ev. exact Hin.
Qed.

Lemma inflight_run : forall l w w' obs c x srv,
  run hashf w l = (w', obs) -> Forall (fun o => actor o <> Some c) l ->
  cl_lookup c (clients w) = Some x -> In srv (servers w) -> sholder srv = Some c ->
  cl_lookup c (clients w') = Some x /\ In srv (servers w').
Proof.
  intros l w w' obs c x srv R F L Hin Hh.
  apply (run_invariant _ (fun w' => cl_lookup c (clients w') = Some x /\ In srv (servers w'))) with (2 := F) (4 := R); [|auto].
  intros w0 o w1 ob A (L0 & Hin0) S. exact (inflight_step _ _ _ _ _ _ _ S A L0 Hin0 Hh).
Qed.

Definition is_waiting (w : world) (c : cid) : bool := existsb (Nat.eqb c) (waiting w).
(** how the next transaction of a client starts: a client parked in wait_paused() goes on, any other begins *)
Definition start_op (w : world) (c : cid) : op := if is_waiting w c then OWake c else OBegin c.

(** Op [o] starts a transaction of client [c] = [x] as POOLS and CONFIG of [w] say: on a server of the object registered
    for its (database, user), with that object's settings and the idle timeout in force; if none is registered, with
    "No pool configured", the end of the task, and no server opened or handed over. *)
Definition txn_starts (w : world) (o : op) (c : cid) (x : client) : Prop :=
  match begin_txn (st w) (cdb x) (cuser x) with
  | Some p => exists w' s f, step hashf w o = (w', ObBegun p s f) /\
                cl_lookup c (clients w') = Some {| cdb := cdb x; cuser := cuser x; cclone := p; cheld := Some s; ctmo := cidle (config (st w)); cset := p |} /\
                In {| sid := s; spool := p; sholder := Some c |} (servers w')
  | None => exists w', step hashf w o = (w', ObNoPool) /\ cl_lookup c (clients w') = None /\
                st w' = st w /\ (forall y, In y (servers w') -> In y (servers w))
  end.

(** the part behind the pause gate, shared by [OBegin] and [OWake] ([w0] = [w] with the client taken off the waiters) *)
Lemma do_begin_starts : forall w o c x w0,
  step0 hashf w o = do_begin w0 c x -> st w0 = st w -> servers w0 = servers w -> txn_starts w o c x.
Proof.
  intros w o c x w0 E Es Ev. unfold txn_starts, begin_txn, step. rewrite E. unfold do_begin. rewrite Es, Ev.
  destruct (plookup (cdb x, cuser x) (pools (st w))) as [[h p]|].
  - destruct (take_idle p c (servers w)) as [[s l']|] eqn:T; [eexists _, s, false|eexists _, (next_srv w0), true];
      (split; [reflexivity|]); rewrite gc_clients; cbn [clients]; rewrite cl_lookup_set, Nat.eqb_refl; (split; [reflexivity|]);
      (apply gc_keeps_held; [cbn [servers]|reflexivity]); [eapply take_idle_result; exact T|left; reflexivity].
  - eexists. split; [reflexivity|]. rewrite gc_clients, gc_st. cbn [clients st with_clients]. rewrite cl_lookup_remove, Nat.eqb_refl.
    repeat split; auto. intros y Hy. apply gc_sub in Hy. cbn [servers with_clients] in Hy. rewrite <- Ev. exact Hy.
Qed.

Lemma begin_resolves : forall w c x,
  cl_lookup c (clients w) = Some x -> cheld x = None ->
  existsb (key_eqb (cdb x, cuser x)) (paused w) = false -> existsb (Nat.eqb c) (waiting w) = false ->
  txn_starts w (OBegin c) c x.
Proof.
  intros w c x L Hh Np Nw. apply do_begin_starts with (w0 := w); [|reflexivity..]. cbn [step0]. rewrite L, Hh, Nw, Np. reflexivity.
Qed.

Lemma wake_resolves : forall w c x,
  cl_lookup c (clients w) = Some x -> is_waiting w c = true ->
  existsb (key_eqb (cdb x, cuser x)) (paused w) = false ->
  txn_starts w (OWake c) c x.
Proof.
  intros w c x L Wt Np. apply do_begin_starts with (w0 := unwait w c); [|reflexivity..].
  cbn [step0]. unfold is_waiting in Wt. rewrite L, Wt, Np. reflexivity.
Qed.

Lemma start_resolves : forall w c x,
  cl_lookup c (clients w) = Some x -> cheld x = None ->
  existsb (key_eqb (cdb x, cuser x)) (paused w) = false ->
  txn_starts w (start_op w c) c x.
Proof.
  intros w c x L Hh Np. unfold start_op. destruct (is_waiting w c) eqn:Wt.
  - apply wake_resolves; assumption.
  - apply begin_resolves; assumption.
Qed.

Lemma begun_resolved : forall w c x w' p s f,
  cl_lookup c (clients w) = Some x -> step hashf w (OBegin c) = (w', ObBegun p s f) ->
  begin_txn (st w) (cdb x) (cuser x) = Some p /\
  cl_lookup c (clients w') = Some {| cdb := cdb x; cuser := cuser x; cclone := p; cheld := Some s; ctmo := cidle (config (st w)); cset := p |} /\
  In {| sid := s; spool := p; sholder := Some c |} (servers w').
Proof.
  intros w c x w' p s f L S.
  assert (B : txn_starts w (OBegin c) c x).
  { unfold step in S. cbn [step0] in S. rewrite L in S. destruct (cheld x) eqn:Hh; [discriminate|].
    destruct (existsb (Nat.eqb c) (waiting w)) eqn:Nw; [discriminate|].
    destruct (existsb (key_eqb (cdb x, cuser x)) (paused w)) eqn:Np; [discriminate|]. exact (begin_resolves w c x L Hh Np Nw). }
  unfold txn_starts in B. destruct (begin_txn (st w) (cdb x) (cuser x));
    [destruct B as (w2 & s2 & f2 & B1 & B2)|destruct B as (w2 & B1 & _)]; rewrite S in B1; [|discriminate].
  injection B1 as <- <- <- <-. auto.
Qed.

Definition objs_ok (ob : objs_t) (n : pool_id) : Prop :=
  (forall p x, In (p, x) ob -> p < n) /\ NoDup (map fst ob).

Definition clients_ok (ob : objs_t) (cl : list (cid * client)) : Prop :=
  forall c x, cl_lookup c cl = Some x -> exists pd, In (cclone x, ((cdb x, cuser x), pd)) ob.

Definition winv (w : world) : Prop :=
  store_ok (objs w) (pools (st w)) /\ objs_ok (objs w) (next_pool w) /\ clients_ok (objs w) (clients w).

Lemma nodup_app : forall (a b : list nat), NoDup a -> NoDup b -> (forall x, In x a -> In x b -> False) -> NoDup (a ++ b).
Proof.
  induction a as [|x a IH]; intros b Ha Hb H; cbn; auto.
  inversion Ha; subst. constructor.
  - intros X. apply in_app_or in X. destruct X as [X|X]; [contradiction|]. apply (H x); [left; reflexivity|assumption].
  - apply IH; auto. intros y Y1 Y2. apply (H y); [right; assumption|assumption].
Qed.

(** each conjunct of [winv] when the registry grows by the objects [new] with fresh ids (a reload) *)
Lemma store_ok_app : forall ob p new p',
  store_ok ob p ->
  (forall k h pid, plookup k p' = Some (h, pid) -> plookup k p = Some (h, pid) \/ exists pd, h = hashf pd /\ In (pid, (k, pd)) new) ->
  store_ok (new ++ ob) p'.
Proof.
  intros ob p new p' SO F k h pid L. destruct (F _ _ _ L) as [X|(pd & -> & Y)]; [destruct (SO _ _ _ X) as (pd & A & ->)|];
    exists pd; auto using in_or_app.
Qed.

Lemma objs_ok_app : forall ob n new n',
  objs_ok ob n -> n <= n' -> (forall p x, In (p, x) new -> n <= p < n') -> NoDup (map fst new) -> objs_ok (new ++ ob) n'.
Proof.
  intros ob n new n' [O1 O2] Hn F ND. split.
  - intros p x Hin. apply in_app_or in Hin. destruct Hin as [Hin|Hin]; [apply F in Hin|apply O1 in Hin]; lia.
  - rewrite map_app. apply nodup_app; auto. intros p H1 H2. apply in_map_iff in H1. apply in_map_iff in H2.
    destruct H1 as ([p1 x1] & <- & H1). destruct H2 as ([p2 x2] & E2 & H2). cbn in E2. subst p2.
    apply F in H1. apply O1 in H2. cbn in H2. lia.
Qed.

Lemma clients_ok_app : forall ob cl new, clients_ok ob cl -> clients_ok (new ++ ob) cl.
Proof. intros ob cl new CO c x L. destruct (CO _ _ L) as [pd A]. exists pd. auto using in_or_app. Qed.

Lemma clients_upd_ok : forall ob pl cl c cl',
  store_ok ob pl -> clients_ok ob cl -> clients_upd pl cl c cl' -> clients_ok ob cl'.
Proof.
  intros ob pl cl c cl' SO CO U c' x L. destruct U as [| |y h Lp|y0 y L0 E]; [eauto|..];
    rewrite ?cl_lookup_remove, ?cl_lookup_set in L; destruct (c' =? c); eauto; try discriminate; injection L as <-.
  - destruct (SO _ _ _ Lp) as (pd & A & _). eauto.
  - injection E as -> -> ->. eauto.
Qed.

Lemma winv_step : forall w o w' ob, winv w -> step hashf w o = (w', ob) -> winv w'.
Proof.
  intros w o w' ob (SO & OK & CO) S. destruct (step_cases _ _ _ _ S) as [(fo & ->)|(Q & w1 & E & F)].
  - destruct (reload_step _ _ _ _ S) as (s' & r & n' & new & R & _ & ->).
    destruct (reload_fresh _ _ _ _ _ _ _ R) as (F1 & F2 & F3 & F4).
    exact (conj (store_ok_app _ _ _ _ SO F4) (conj (objs_ok_app _ _ _ _ OK F1 F2 F3) (clients_ok_app _ _ _ CO))).
  - destruct (quiet_step_store _ _ _ _ S Q) as (E1 & E2 & E3). unfold winv. rewrite E1, E2, E3.
    split; [exact SO|]. split; [exact OK|]. rewrite E, gc_clients.
    destruct F as [(c & _ & _ & _ & _ & _ & _ & Uc & _)|(_ & _ & _ & _ & -> & _)]; [exact (clients_upd_ok _ _ _ _ _ SO CO Uc)|exact CO].
Qed.

Lemma winv_empty : winv empty_world.
Proof.
  unfold winv, store_ok, objs_ok, clients_ok. cbn. split; [discriminate|]. split; [split; [intros ? ? []|constructor]|discriminate].
Qed.

Lemma winv_run : forall l w w' obs, winv w -> run hashf w l = (w', obs) -> winv w'.
Proof. exact (run_inv winv winv_step). Qed.

Lemma winv_every_run : forall ops w obs, run hashf empty_world ops = (w, obs) -> winv w.
Proof. intros ops w obs. apply winv_run. apply winv_empty. Qed.

Lemma objs_functional : forall (l : objs_t) p a b, NoDup (map fst l) -> In (p, a) l -> In (p, b) l -> a = b.
Proof.
  induction l as [|[q v] t IH]; intros p a b ND Ha Hb; [destruct Ha|].
  cbn in ND. inversion ND as [|? ? Hn ND']; subst. destruct Ha as [Ha|Ha]; destruct Hb as [Hb|Hb].
  - congruence.
  - injection Ha as -> _. contradiction Hn. exact (in_map fst _ _ Hb).
  - injection Hb as -> _. contradiction Hn. exact (in_map fst _ _ Ha).
  - eapply IH; eauto.
Qed.

Lemma no_foreign_pool : forall w c x w' p s f,
  winv w -> cl_lookup c (clients w) = Some x -> step hashf w (OBegin c) = (w', ObBegun p s f) ->
  (exists pd, In (p, ((cdb x, cuser x), pd)) (objs w)) /\
  (forall k pd, In (p, (k, pd)) (objs w) -> k = (cdb x, cuser x)) /\
  In {| sid := s; spool := p; sholder := Some c |} (servers w').
Proof.
  intros w c x w' p s f (SO & (_ & ND) & _) L S. destruct (begun_resolved _ _ _ _ _ _ _ L S) as (B & _ & B3).
  unfold begin_txn in B. destruct (plookup (cdb x, cuser x) (pools (st w))) as [[h p0]|] eqn:Lp; [injection B as ->|discriminate].
  destruct (SO _ _ _ Lp) as (pd & A & _). split; [eauto|]. split; [|exact B3].
  intros k pd' Hin. pose proof (objs_functional _ _ _ _ ND Hin A) as E. congruence.
Qed.

Definition agree (w : world) : Prop := in_effect hashf (objs w) (config (st w)) (pools (st w)).

Lemma agree_step : forall w o w' ob, winv w -> agree w -> op_wf o -> op_known_panic o = false ->
  step hashf w o = (w', ob) -> agree w'.
Proof.
  intros w o w' ob (SO & _) A W K S. unfold agree. destruct (op_cases o) as [(fo & ->)|(Q & _)].
  - destruct (reload_step _ _ _ _ S) as (s' & r & n' & new & R & _ & ->). exact (reload_agree _ _ _ _ _ _ _ _ SO W K R A).
  - destruct (quiet_step_store _ _ _ _ S Q) as (-> & -> & _). exact A.
Qed.

Lemma agree_empty : agree empty_world.
Proof. intros d u. cbn. reflexivity. Qed.

Lemma agree_run : forall l w w' obs, winv w -> agree w -> Forall op_wf l -> existsb op_known_panic l = false ->
  run hashf w l = (w', obs) -> agree w'.
Proof.
  intros l w w' obs I A W K R.
  assert (F : Forall (fun o => op_wf o /\ op_known_panic o = false) l).
  { apply Forall_and; [exact W|]. apply Forall_forall. intros o Hin.
    destruct (op_known_panic o) eqn:E; [|reflexivity]. rewrite <- K. symmetry. apply existsb_exists. eauto. }
  apply (run_invariant _ (fun w => winv w /\ agree w)) with (2 := F) (4 := R); [|auto].
  intros w0 o w1 ob (Wo & Ko) (I0 & A0) S. split; [exact (winv_step _ _ _ _ I0 S)|exact (agree_step _ _ _ _ I0 A0 Wo Ko S)].
Qed.

Lemma world_eta : forall w, {| st := st w; objs := objs w; next_pool := next_pool w; clients := clients w;
                               servers := servers w; next_srv := next_srv w; validated := validated w; bans := bans w; waiting := waiting w; paused := paused w |} = w.
Proof. destruct w; reflexivity. Qed.

Lemma refused_reload_keeps_flags : forall w fo w' r, step hashf w (OReload fo) = (w', ObReload r) -> r <> ROk true ->
  pools (st w') = pools (st w) /\ paused w' = paused w /\ bans w' = bans w /\ clients w' = clients w /\ waiting w' = waiting w.
Proof.
  intros w fo w' r S NR. destruct (reload_step _ _ _ _ S) as (s' & r0 & n' & new & R & [= <-] & ->). cbn.
  split; [exact (reload_keeps_pools _ _ _ _ _ _ _ R NR)|]. destruct r as [|[|]|]; try congruence; auto.
Qed.

(** only registered pools are paused: PAUSE needs the pool, a reload that removes a pool resumes it *)
Definition pinv (w : world) : Prop := forall k, In k (paused w) -> has_pool (st w) k = true.

Lemma pinv_step : forall w o w' ob, pinv w -> step hashf w o = (w', ob) -> pinv w'.
Proof.
  intros w o w' ob P S k Hk. destruct (step_cases _ _ _ _ S) as [(fo & ->)|(Q & w1 & -> & F)].
  - destruct (reload_step _ _ _ _ S) as (s' & r & n' & new & R & -> & E).
    destruct (reload_cases _ _ _ _ _ _ _ R) as [(NR & _)|(_ & _ & _ & _ & _ & _ & -> & _)].
    + destruct (refused_reload_keeps_flags _ _ _ _ S NR) as (Ep & Ef & _). unfold has_pool. rewrite Ep. apply P. rewrite <- Ef. exact Hk.
    + rewrite E in *. cbn in *. apply filter_In in Hk. tauto.
  - destruct (quiet_step_store _ _ _ _ S Q) as (E & _). rewrite E.
    destruct F as [(c & _ & _ & _ & _ & Ef & _)|(_ & _ & _ & _ & _ & _ & F & _)].
    + apply P. rewrite <- Ef. exact Hk.
    + destruct (F k Hk) as [X|X]; [exact (P _ X)|exact X].
Qed.

Lemma pinv_run : forall l w w' obs, pinv w -> run hashf w l = (w', obs) -> pinv w'.
Proof. exact (run_inv pinv pinv_step). Qed.

Lemma pinv_empty : pinv empty_world.
Proof. intros k []. Qed.

Lemma pinv_not_paused : forall w k, pinv w -> has_pool (st w) k = false -> existsb (key_eqb k) (paused w) = false.
Proof.
  intros w k P H. destruct (existsb (key_eqb k) (paused w)) eqn:E; auto.
  apply existsb_exists in E. destruct E as [k' [Hin Hk]]. apply key_eqb_eq in Hk. subst k'.
  rewrite (P _ Hin) in H. discriminate.
Qed.

(** ban lists belong to pool objects: every ban is on an object that exists *)
Definition binv (w : world) : Prop := forall p i, In (p, i) (bans w) -> p < next_pool w.

Lemma binv_step : forall w o w' ob, winv w -> binv w -> step hashf w o = (w', ob) -> binv w'.
Proof.
  intros w o w' ob (SO & (OK & _) & _) B S p i Hin. destruct (step_cases _ _ _ _ S) as [(fo & ->)|(Q & w1 & -> & F)].
  - destruct (reload_step _ _ _ _ S) as (s' & r & n' & new & R & _ & ->). cbn in *.
    destruct (reload_fresh _ _ _ _ _ _ _ R) as (F1 & _). apply B in Hin. lia.
  - destruct (quiet_step_store _ _ _ _ S Q) as (_ & _ & ->).
    destruct F as [(c & _ & _ & _ & _ & _ & E & _)|(_ & _ & _ & _ & _ & _ & _ & F)].
    + apply (B p i). rewrite <- E. exact Hin.
    + destruct (F _ _ Hin) as [X|(k & h & L)]; [exact (B _ _ X)|]. destruct (SO _ _ _ L) as (pd & X & _). exact (OK _ _ X).
Qed.

Lemma binv_run : forall l w w' obs, winv w -> binv w -> run hashf w l = (w', obs) -> binv w'.
Proof.
  intros l w w' obs I B R. apply (run_inv (fun w => winv w /\ binv w)) with (3 := R); [|auto].
  intros w0 o w1 ob (I0 & B0) S. split; [exact (winv_step _ _ _ _ I0 S)|exact (binv_step _ _ _ _ I0 B0 S)].
Qed.

Lemma begin_txn_None : forall s d u, begin_txn s d u = None <-> has_pool s (d, u) = false.
Proof. intros. unfold begin_txn, has_pool. destruct (plookup (d, u) (pools s)) as [[h p]|]; split; congruence. Qed.

(** After a reload that answered Ok(true), and for as long as no other reload happens, per (pool, user): what [get_pool]
    resolves to. *)
Lemma changed_in_effect : forall w c bo w1 ops w2 obs,
  winv w -> wf_cfg c ->
  step hashf w (OReload (Valid c bo)) = (w1, ObReload (ROk true)) ->
  Forall (fun o => is_reload o = false) ops -> run hashf w1 ops = (w2, obs) ->
  config (st w2) = c /\
  forall d u,
    match clookup d (cpools c) with
    | Some (pd, us) =>
        if mem u us
        then exists p pd', begin_txn (st w2) d u = Some p /\ In (p, ((d, u), pd')) (objs w2) /\ hashf pd' = hashf pd /\
               (no_reuse (pools (st w)) (d, u) pd -> next_pool w <= p /\ pd' = pd)
        else begin_txn (st w2) d u = None
    | None => begin_txn (st w2) d u = None
    end.
Proof.
  intros w c bo w1 ops w2 obs (SO & _) W S F Rn. destruct (quiet_run_store _ _ _ _ Rn F) as (-> & -> & _).
  destruct (reload_step _ _ _ _ S) as (s' & r & n' & new & R & [= <-] & ->).
  destruct (reload_ok _ _ _ _ _ _ _ W R) as (Ec & SV). split; [exact Ec|]. intros d u. specialize (SV d u).
  unfold begin_txn. cbn [gc st objs].
  destruct (clookup d (cpools c)) as [[pd us]|]; [destruct (mem u us)|]; try (rewrite SV; reflexivity).
  destruct SV as (pid & -> & [B|(NR & Rg & Hin)]).
  - destruct (SO _ _ _ B) as (pd' & X & Y). exists pid, pd'. split; [reflexivity|]. split; [apply in_or_app; right; exact X|].
    split; [symmetry; exact Y|]. intros NR. unfold no_reuse in NR. rewrite B in NR. congruence.
  - exists pid, pd. repeat split; auto using in_or_app. lia.
Qed.

(** Whether an open transaction times out after [ms] of silence is decided by the value its client read when the
    server was checked out ([ctmo]) — not by CONFIG at the time of the silence. *)
Lemma idle_outcome : forall w c x s ms,
  cl_lookup c (clients w) = Some x -> cheld x = Some s ->
  snd (step hashf w (OIdle c ms)) = if negb (ctmo x =? 0) && (ctmo x <=? ms) then ObTimedOut else ObIdled.
Proof.
  intros w c x s ms L Hh. unfold step. cbn [step0]. rewrite L, Hh.
  destruct (negb (ctmo x =? 0) && (ctmo x <=? ms)); reflexivity.
Qed.

End WithHash.

Definition f12_old : cfg := {| cgen := 1; cidle := 0; cpools := [(0, (10, [0]))] |}.
Definition f12_new : cfg := {| cgen := 1; cidle := 0; cpools := [(0, (11, [0]))] |}.
(** start with f12_old; a client of (0,0) connects; the file becomes f12_new while the build of pool (0,0)
    fails; the same file is reloaded once more, now with every build succeeding; the client begins. *)
Definition f12_ops : list op :=
  [OReload (Valid f12_old (bo_of [] [])); OConnect 0 0 0;
   OReload (Valid f12_new (bo_of [(0, 0)] [])); OReload (Valid f12_new (bo_of [] [])); OBegin 0].
(** the same with a build that panics *)
Definition panic_ops : list op :=
  [OReload (Valid f12_old (bo_of [] [])); OConnect 0 0 0;
   OReload (Valid f12_new (bo_of [] [(0, 0)])); OReload (Valid f12_new (bo_of [] [])); OBegin 0].
