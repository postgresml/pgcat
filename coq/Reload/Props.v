(** C14 — the property theorems.  Each is a lemma of Proofs.v or follows from those in a few lines; the witnesses and the
    refutations of the mutants (Mutants.v) are by evaluation.  Each is audited with [Print Assumptions]; the [Example]s show
    non-vacuity and pin the model's behaviour on the situations the property text talks about.  [hashf] (Pool::hash_value) is
    universally quantified; theorems that need collision-freedom carry [hash_inj hashf] as an explicit premise. *)
From Coq Require Import Arith Bool List.
From PV Require Import Reload.Model Reload.Proofs Reload.Mutants.
Import ListNotations.

(** "A RELOAD or SIGHUP with an invalid file leaves configuration, pools and server connections as
    they were": an unreadable file, a TOML error and every validate() failure return Err with the
    store (CONFIG, POOLS), the id supply and the set of pool objects untouched ... *)
Theorem c14_invalid_noop : forall hashf s fo n, invalid fo -> reload hashf s fo n = (s, RErr, n, []).
Proof. exact invalid_noop. Qed.
Print Assumptions c14_invalid_noop.

(** ... and the whole world (clients, their clones, every open server connection) is identical. *)
Theorem c14_invalid_noop_world : forall hashf w fo, settled w -> invalid fo ->
  step hashf w (OReload fo) = (w, ObReload RErr).
Proof.
  intros hashf w fo Hs Hi. unfold step. cbn [step0]. rewrite (invalid_noop _ _ _ _ Hi). cbn [app]. rewrite world_eta, Hs. reflexivity.
Qed.
Print Assumptions c14_invalid_noop_world.

Theorem c14_every_run_settled : forall hashf l w obs, run hashf empty_world l = (w, obs) -> settled w.
Proof.
  intros hashf l w obs. apply run_settled. exact settled_empty.
Qed.
Print Assumptions c14_every_run_settled.

(** "pools whose definition did not change keep their server connections": for EVERY outcome of a
    reload with a valid file (unchanged / rebuilt / build failed / build panicked), a (pool, user)
    whose new definition has the hash of the existing pool object keeps that very object ... *)
Theorem c14_unchanged_kept : forall hashf s c bo n s' r n' new d u h pid pd us,
  wf_cfg c ->
  reload hashf s (Valid c bo) n = (s', r, n', new) ->
  plookup (d, u) (pools s) = Some (h, pid) ->
  clookup d (cpools c) = Some (pd, us) -> In u us -> hashf pd = h ->
  plookup (d, u) (pools s') = Some (h, pid).
Proof. exact unchanged_kept. Qed.
Print Assumptions c14_unchanged_kept.

(** ... and every server connection of that object, idle or checked out, is still open with the same
    holder; no client is touched. *)
Theorem c14_unchanged_kept_world : forall hashf w c bo w' ob d u h pid pd us,
  wf_cfg c -> step hashf w (OReload (Valid c bo)) = (w', ob) ->
  plookup (d, u) (pools (st w)) = Some (h, pid) ->
  clookup d (cpools c) = Some (pd, us) -> In u us -> hashf pd = h ->
  plookup (d, u) (pools (st w')) = Some (h, pid) /\
  clients w' = clients w /\
  (forall x, In x (servers w) -> spool x = pid -> In x (servers w')).
Proof.
  intros hashf w c bo w' ob d u h pid pd us W S Lo Lc Hu Hh.
  destruct (reload_step _ _ _ _ _ S) as (s' & r & n' & new & R & _ & ->).
  pose proof (unchanged_kept _ _ _ _ _ _ _ _ _ _ _ _ _ _ _ W R Lo Lc Hu Hh) as K.
  split; [exact K|]. split; [reflexivity|]. intros x Hin <-. eapply gc_keeps_store_pool; [exact Hin|exact K].
Qed.
Print Assumptions c14_unchanged_kept_world.

(** A file that is valid but whose pools cannot be built (bb8 build() returns an error: validate_config,
    min_pool_size >= 1, server unreachable) behaves like an invalid one since commit 0510794: Err, and
    CONFIG, POOLS, the id supply and the pool objects are as they were ... *)
Theorem c14_failed_build_noop : forall hashf s c bo n,
  cfg_eqb (config s) c = false -> a_st (from_config hashf (pools s) c bo n) = FcErr ->
  reload hashf s (Valid c bo) n = (s, RErr, n, []).
Proof. exact failed_build_noop. Qed.
Print Assumptions c14_failed_build_noop.

(** ... hence the next reload of the same file is NOT "unchanged": once every build succeeds it answers
    Ok(true) and the file is in effect. *)
Theorem c14_retry_rebuilds : forall hashf ob s c bo bo' n,
  wf_cfg c -> store_ok hashf ob (pools s) -> cfg_eqb (config s) c = false ->
  a_st (from_config hashf (pools s) c bo n) = FcErr -> all_built c bo' = true ->
  exists s1 r1 n1 new1 s2 n2 new2,
    reload hashf s (Valid c bo) n = (s1, r1, n1, new1) /\ r1 = RErr /\
    reload hashf s1 (Valid c bo') n1 = (s2, ROk true, n2, new2) /\
    config s2 = c /\ in_effect hashf (new2 ++ ob) c (pools s2).
Proof.
  intros hashf ob s c bo bo' n W SO NE Hst AB.
  destruct (reload hashf s (Valid c bo') n) as [[[s2 r2] n2] new2] eqn:R2.
  pose proof (reload_result _ _ _ _ _ _ _ _ _ NE R2) as X. rewrite (all_built_ok hashf (pools s) c bo' n AB) in X. subst r2.
  destruct (reload_ok _ _ _ _ _ _ _ _ W R2) as (A & S).
  exists s, RErr, n, [], s2, n2, new2. rewrite (failed_build_noop _ _ _ _ _ NE Hst).
  repeat split; auto. exact (serves_in_effect _ _ _ _ _ _ _ _ SO S).
Qed.
Print Assumptions c14_retry_rebuilds.

(** The only results of a reload with a valid, changed file. *)
Theorem c14_reload_result : forall hashf s c bo n s' r n' new,
  cfg_eqb (config s) c = false -> reload hashf s (Valid c bo) n = (s', r, n', new) ->
  match a_st (from_config hashf (pools s) c bo n) with
  | FcOk => r = ROk true
  | FcErr => r = RErr /\ s' = s /\ n' = n /\ new = []
  | FcPanic => r = RPanic /\ s' = {| config := c; pools := pools s |} /\ n' = n /\ new = []
  end.
Proof. exact reload_result. Qed.
Print Assumptions c14_reload_result.

(** "changed, added or removed pools are in effect for every transaction that starts afterwards":
    WHENEVER a reload answers Ok(true) — no hypothesis on the builds.
    Store form: right after the reload, [get_pool] of every (pool, user)
    - of the new configuration resolves to an object whose definition has the configured hash
      (with [hash_inj]: IS the configured definition, see c14_in_effect_exact); if the old POOLS had
      no object with that hash (changed or added) it is an object built by this reload
      ([next_pool w <= p]) from exactly the configured definition;
    - not in the new configuration (pool or user removed) resolves to nothing. *)
Theorem c14_changed_in_effect : forall hashf w c bo w1,
  winv hashf w -> wf_cfg c ->
  step hashf w (OReload (Valid c bo)) = (w1, ObReload (ROk true)) ->
  config (st w1) = c /\
  forall d u,
    match clookup d (cpools c) with
    | Some (pd, us) =>
        if mem u us
        then exists p pd', begin_txn (st w1) d u = Some p /\ In (p, ((d, u), pd')) (objs w1) /\ hashf pd' = hashf pd /\
               (no_reuse hashf (pools (st w)) (d, u) pd -> next_pool w <= p /\ pd' = pd)
        else begin_txn (st w1) d u = None
    | None => begin_txn (st w1) d u = None
    end.
Proof.
  intros hashf w c bo w1 I W S. exact (changed_in_effect hashf w c bo w1 [] w1 [] I W S (Forall_nil _) eq_refl).
Qed.
Print Assumptions c14_changed_in_effect.

(** Transaction form: after the reload let anything happen that is not another reload (clients connect, begin,
    end, idle, leave; PAUSE, RESUME; held clients go on); the next transaction of a client whose (pool, user) is
    in the new configuration — whether it begins then ([OBegin]) or was HELD by PAUSE since before the reload and
    goes on now ([OWake]; [start_op] picks the one that applies) — runs on a server of such an object, with the
    client's clone AND its query router's settings ([cset]: plugins, parser flags, sharding function and shard
    count, default role) being those of that object, and the idle timeout of the new file. *)
Theorem c14_changed_in_effect_txn : forall hashf w c bo w1 ops w2 obs cl x pd us,
  winv hashf w -> wf_cfg c ->
  step hashf w (OReload (Valid c bo)) = (w1, ObReload (ROk true)) ->
  Forall (fun o => is_reload o = false) ops -> run hashf w1 ops = (w2, obs) ->
  cl_lookup cl (clients w2) = Some x -> cheld x = None ->
  existsb (key_eqb (cdb x, cuser x)) (paused w2) = false ->
  clookup (cdb x) (cpools c) = Some (pd, us) -> In (cuser x) us ->
  exists w3 p s f pd' y, step hashf w2 (start_op w2 cl) = (w3, ObBegun p s f) /\
    In {| sid := s; spool := p; sholder := Some cl |} (servers w3) /\
    In (p, ((cdb x, cuser x), pd')) (objs w2) /\ hashf pd' = hashf pd /\
    (no_reuse hashf (pools (st w)) (cdb x, cuser x) pd -> next_pool w <= p /\ pd' = pd) /\
    cl_lookup cl (clients w3) = Some y /\ cclone y = p /\ cset y = p /\ ctmo y = cidle c.
Proof.
  intros hashf w c bo w1 ops w2 obs cl x pd us I W S F R L Hh Np Lc Hu.
  destruct (changed_in_effect _ _ _ _ _ _ _ _ I W S F R) as [Ec CE]. specialize (CE (cdb x) (cuser x)).
  rewrite Lc, (proj2 (mem_In _ _) Hu) in CE. destruct CE as (p & pd' & A & B & C & D).
  pose proof (start_resolves hashf w2 cl x L Hh Np) as LB. unfold txn_starts in LB. rewrite A, Ec in LB.
  destruct LB as (w3 & s & f & X & Y & Z). eexists w3, p, s, f, pd', _. repeat split; eauto; apply D; assumption.
Qed.
Print Assumptions c14_changed_in_effect_txn.

(** The invariant behind it, over every run from start-up in which no build PANICKED (builds may fail):
    CONFIG and POOLS agree ([in_effect]: POOLS holds exactly the (pool, user) pairs of CONFIG, each with an object
    built from a definition with the configured hash). *)
Theorem c14_config_pools_agree : forall hashf ops w obs,
  Forall op_wf ops -> existsb op_known_panic ops = false ->
  run hashf empty_world ops = (w, obs) -> agree hashf w.
Proof.
  intros hashf ops w obs. apply agree_run; [apply winv_empty|apply agree_empty].
Qed.
Print Assumptions c14_config_pools_agree.

Theorem c14_in_effect_exact : forall hashf ob c p, hash_inj hashf -> in_effect hashf ob c p ->
  forall d u pd us, clookup d (cpools c) = Some (pd, us) -> In u us ->
  exists pid, plookup (d, u) p = Some (hashf pd, pid) /\ In (pid, ((d, u), pd)) ob.
Proof.
  intros hashf ob c p Inj H d u pd us L Hu. specialize (H d u). rewrite L in H.
  apply mem_In in Hu. rewrite Hu in H. destruct H as [pid [pd' [A [B C]]]]. apply Inj in C. subst. eauto.
Qed.
Print Assumptions c14_in_effect_exact.

(** "No transaction in progress is broken by a reload": whatever happens that is not the client's own
    step — any reload outcome (invalid, unchanged, rebuilt, failed, panicked), other clients
    connecting, beginning, ending, leaving, in any number and order — the client still holds the
    clone of its pool object and the very server connection it checked out ... *)
Theorem c14_inflight_unbroken : forall hashf l w w' obs c x srv,
  run hashf w l = (w', obs) -> Forall (fun o => actor o <> Some c) l ->
  cl_lookup c (clients w) = Some x -> In srv (servers w) -> sholder srv = Some c ->
  cl_lookup c (clients w') = Some x /\ In srv (servers w').
Proof. exact inflight_run. Qed.
Print Assumptions c14_inflight_unbroken.

(** ... and its transaction then ends normally: the connection goes back, idle and open, to the
    (possibly replaced) pool object it was taken from, which lives on through the client's clone. *)
Theorem c14_inflight_ends : forall hashf w c x s srv,
  cl_lookup c (clients w) = Some x -> cheld x = Some s -> In srv (servers w) -> sholder srv = Some c ->
  exists w', step hashf w (OEnd c) = (w', ObEnded) /\
             cl_lookup c (clients w') = Some {| cdb := cdb x; cuser := cuser x; cclone := cclone x; cheld := None; ctmo := ctmo x; cset := cset x |} /\
             (spool srv = cclone x -> In {| sid := sid srv; spool := spool srv; sholder := None |} (servers w')).
Proof.
  intros hashf w c x s srv L Hh Hin Hs. unfold step. cbn [step0]. rewrite L, Hh. eexists. split; [reflexivity|].
  rewrite gc_clients. cbn [clients]. rewrite cl_lookup_set, Nat.eqb_refl. split; [reflexivity|].
  intros Hp. apply gc_servers. cbn [servers st clients spool]. split.
  - apply (release_returns c _ srv Hin). unfold held_by. rewrite Hs. apply Nat.eqb_refl.
  - apply orb_true_iff. left. eapply alive_cloned; [rewrite cl_lookup_set, Nat.eqb_refl; reflexivity|symmetry; exact Hp].
Qed.
Print Assumptions c14_inflight_ends.

(** "clients of a removed pool get an error rather than another pool's servers": the next
    transaction of a client whose pool (or user) is not in the new configuration is answered
    "No pool configured", its task ends, and no server connection is opened or changes hands. *)
Theorem c14_removed_pool_error : forall hashf w c bo w1 ops w2 obs cl x,
  winv hashf w -> pinv w -> wf_cfg c ->
  step hashf w (OReload (Valid c bo)) = (w1, ObReload (ROk true)) ->
  Forall (fun o => is_reload o = false) ops -> run hashf w1 ops = (w2, obs) ->
  cl_lookup cl (clients w2) = Some x -> cheld x = None ->
  (match clookup (cdb x) (cpools c) with Some (_, us) => ~ In (cuser x) us | None => True end) ->
  exists w3, step hashf w2 (start_op w2 cl) = (w3, ObNoPool) /\ cl_lookup cl (clients w3) = None /\
             st w3 = st w2 /\ (forall y, In y (servers w3) -> In y (servers w2)).
Proof.
  intros hashf w c bo w1 ops w2 obs cl x I P W S F R L Hh Rm.
  destruct (changed_in_effect _ _ _ _ _ _ _ _ I W S F R) as [_ CE]. specialize (CE (cdb x) (cuser x)).
  assert (N : begin_txn (st w2) (cdb x) (cuser x) = None).
  { destruct (clookup (cdb x) (cpools c)) as [[pd us]|]; [apply mem_false in Rm; rewrite Rm in CE|]; exact CE. }
  pose proof (start_resolves hashf w2 cl x L Hh) as LB. unfold txn_starts in LB. rewrite N in LB. apply LB.
  apply pinv_not_paused; [exact (pinv_run _ _ _ _ _ (pinv_step _ _ _ _ _ P S) R)|apply begin_txn_None; exact N].
Qed.
Print Assumptions c14_removed_pool_error.

(** Never another pool's servers, in EVERY run (failed builds included): a transaction that starts
    runs on an object that was built for the client's own (database, user) and for no other key. *)
Theorem c14_no_foreign_pool : forall hashf ops w obs c x w' p s f,
  run hashf empty_world ops = (w, obs) ->
  cl_lookup c (clients w) = Some x -> step hashf w (OBegin c) = (w', ObBegun p s f) ->
  (exists pd, In (p, ((cdb x, cuser x), pd)) (objs w)) /\
  (forall k pd, In (p, (k, pd)) (objs w) -> k = (cdb x, cuser x)) /\
  In {| sid := s; spool := p; sholder := Some c |} (servers w').
Proof.
  intros hashf ops w obs c x w' p s f R. apply no_foreign_pool. exact (winv_every_run _ _ _ _ R).
Qed.
Print Assumptions c14_no_foreign_pool.

Theorem c14_winv_every_run : forall hashf ops w obs, run hashf empty_world ops = (w, obs) -> winv hashf w.
Proof. exact winv_every_run. Qed.
Print Assumptions c14_winv_every_run.

(** What is left of F12: parse() still stores CONFIG before from_config runs, and only an Err is
    followed by the restore.  If a build PANICS (no such input is known: Config::validate rejects what
    the bb8 assertions and unwraps would trip on, C15) the unwinding skips the restore: POOLS keeps the old
    map, CONFIG is the new file, and reloading the same file answers Ok(false) from then on. *)
Theorem c14_partial_state : forall hashf s c bo n,
  wf_cfg c -> cfg_eqb (config s) c = false -> a_st (from_config hashf (pools s) c bo n) = FcPanic ->
  let s1 := {| config := c; pools := pools s |} in
  reload hashf s (Valid c bo) n = (s1, RPanic, n, []) /\
  forall bo' n', reload hashf s1 (Valid c bo') n' = (s1, ROk false, n', []).
Proof.
  intros hashf s c bo n W NE Hst s1. split.
  - cbn [reload]. rewrite NE, Hst. reflexivity.
  - intros bo' n'. cbn [reload]. subst s1. cbn [config pools]. rewrite (cfg_eqb_refl c W). reflexivity.
Qed.
Print Assumptions c14_partial_state.

Theorem c14_panic_partial_refuted :
  Forall op_wf panic_ops /\
  exists w, run idh empty_world panic_ops =
              (w, [ObReload (ROk true); ObConnected 0; ObReload RPanic; ObReload (ROk false); ObBegun 0 0 false]) /\
            config (st w) = f12_new /\ pools (st w) = [((0, 0), (10, 0))] /\ objs w = [(0, ((0, 0), 10))] /\
            ~ agree idh w.
Proof.
  split.
  - unfold panic_ops. repeat constructor; cbn; intros []; contradiction.
  - eexists. split; [vm_compute; reflexivity|]. cbn. repeat split; auto.
    intros A. specialize (A 0 0). vm_compute in A. destruct A as [pid [pd' [E _]]]. discriminate.
Qed.
Print Assumptions c14_panic_partial_refuted.

(** F12 regression (the scenario props/c14.py replays on the implementation): pool (0,0) is redefined
    (10 -> 11) while its build fails: Err and nothing changes (the world after 3 steps is the world after
    2); the retry with all builds succeeding answers Ok(true); the client's next transaction runs on the
    object built from definition 11. *)
Theorem c14_f12_regression :
  exists w, run idh empty_world f12_ops =
              (w, [ObReload (ROk true); ObConnected 0; ObReload RErr; ObReload (ROk true); ObBegun 1 1 true]) /\
            config (st w) = f12_new /\ pools (st w) = [((0, 0), (11, 1))] /\ agree idh w /\
            fst (run idh empty_world (firstn 3 f12_ops)) = fst (run idh empty_world (firstn 2 f12_ops)).
Proof.
  eexists. split; [vm_compute; reflexivity|]. cbn [st config pools]. split; [reflexivity|]. split; [reflexivity|].
  split; [|vm_compute; reflexivity]. intros [|d] [|u]; vm_compute; eauto. exists 1, 11. auto.
Qed.
Print Assumptions c14_f12_regression.

(** The code before the repair (Mutants.v: [reload_store_first], CONFIG not restored on Err) is refuted:
    from a store where CONFIG and POOLS agree, a failed build followed by a successful retry of the same
    file ends with Ok(false), CONFIG = new file, POOLS = old pools. *)
Theorem c14_mutant_store_first_refuted :
  in_effect idh mut_objs (config mut_s0) (pools mut_s0) /\
  exists s1 s2,
    reload_store_first idh mut_s0 (Valid f12_new (bo_of [(0, 0)] [])) 1 = (s1, RErr, 1, []) /\
    reload_store_first idh s1 (Valid f12_new (bo_of [] [])) 1 = (s2, ROk false, 1, []) /\
    config s2 = f12_new /\ pools s2 = pools mut_s0 /\
    ~ in_effect idh mut_objs (config s2) (pools s2).
Proof.
  split.
  - intros d u. destruct d as [|d]; destruct u as [|u]; vm_compute; eauto. exists 0, 10. auto.
  - eexists. eexists. split; [vm_compute; reflexivity|]. split; [vm_compute; reflexivity|].
    cbn. repeat split; auto. intros A. specialize (A 0 0). vm_compute in A.
    destruct A as [pid [pd' [E _]]]. discriminate.
Qed.
Print Assumptions c14_mutant_store_first_refuted.

(** "No transaction in progress is broken by a reload", settings included: the idle-in-transaction timeout of an
    open transaction is the value read when its server was checked out.  Whatever reloads (and other clients'
    steps) happen meanwhile, a silence of [ms] has the outcome it would have had before them ... *)
Theorem c14_inflight_timeout_fixed : forall hashf l w w' obs c x s srv ms,
  run hashf w l = (w', obs) -> Forall (fun o => actor o <> Some c) l ->
  cl_lookup c (clients w) = Some x -> cheld x = Some s -> In srv (servers w) -> sholder srv = Some c ->
  snd (step hashf w' (OIdle c ms)) = snd (step hashf w (OIdle c ms)).
Proof.
  intros hashf l w w' obs c x s srv ms R F L Hh Hin Hs.
  destruct (inflight_run _ _ _ _ _ _ _ _ R F L Hin Hs) as [L' _].
  rewrite (idle_outcome hashf w' c x s ms L' Hh), (idle_outcome hashf w c x s ms L Hh). reflexivity.
Qed.
Print Assumptions c14_inflight_timeout_fixed.

Theorem c14_idle_outcome : forall hashf w c x s ms,
  cl_lookup c (clients w) = Some x -> cheld x = Some s ->
  snd (step hashf w (OIdle c ms)) = if negb (ctmo x =? 0) && (ctmo x <=? ms) then ObTimedOut else ObIdled.
Proof. exact idle_outcome. Qed.
Print Assumptions c14_idle_outcome.

(** ... in particular a transaction that started without a timeout, or stays below the one it started with,
    is untouched by any silence, however low the timeout of the file loaded meanwhile. *)
Theorem c14_idle_within_is_noop : forall hashf w c x s ms, settled w ->
  cl_lookup c (clients w) = Some x -> cheld x = Some s -> (ctmo x = 0 \/ ms < ctmo x) ->
  step hashf w (OIdle c ms) = (w, ObIdled).
Proof.
  intros hashf w c x s ms Hs L Hh H. unfold step. cbn [step0]. rewrite L, Hh.
  assert (E : negb (ctmo x =? 0) && (ctmo x <=? ms) = false).
  { destruct H as [H|H]; [rewrite H; reflexivity|]. apply andb_false_iff. right. apply Nat.leb_gt. assumption. }
  rewrite E, Hs. reflexivity.
Qed.
Print Assumptions c14_idle_within_is_noop.

(** New transactions get the new value: the one of the configuration in force when they start. *)
Theorem c14_begin_reads_timeout : forall hashf w c x w' p s f,
  cl_lookup c (clients w) = Some x -> step hashf w (OBegin c) = (w', ObBegun p s f) ->
  exists y, cl_lookup c (clients w') = Some y /\ ctmo y = cidle (config (st w)) /\ cheld y = Some s.
Proof.
  intros hashf w c x w' p s f L S. destruct (begun_resolved _ _ _ _ _ _ _ _ L S) as (_ & E & _).
  eexists. split; [exact E|]. split; reflexivity.
Qed.
Print Assumptions c14_begin_reads_timeout.

(** Removal does not depend on the pause flag: a reload step reads and writes the store and the id supply only;
    after Ok(true) every pool that is not registered any more is resumed (so its waiting clients go on to
    "No pool configured": c14_removed_pool_error, whose [pinv] premise holds in every run). *)
Theorem c14_reload_step_store : forall hashf w fo w' ob, step hashf w (OReload fo) = (w', ob) ->
  exists s' r n' new, reload hashf (st w) fo (next_pool w) = (s', r, n', new) /\ st w' = s' /\ ob = ObReload r /\ next_pool w' = n'.
Proof.
  intros hashf w fo w' ob S. destruct (reload_step _ _ _ _ _ S) as (s' & r & n' & new & R & -> & ->).
  exists s', r, n', new. auto.
Qed.
Print Assumptions c14_reload_step_store.

Theorem c14_removed_are_resumed : forall hashf w fo w1, step hashf w (OReload fo) = (w1, ObReload (ROk true)) ->
  forall k, has_pool (st w1) k = false -> ~ In k (paused w1).
Proof.
  intros hashf w fo w1 S k H Hin. destruct (reload_step _ _ _ _ _ S) as (s' & r & n' & new & _ & [= <-] & ->).
  cbn in *. apply filter_In in Hin. destruct Hin as [_ Hin]. congruence.
Qed.
Print Assumptions c14_removed_are_resumed.

Theorem c14_pinv_every_run : forall hashf ops w obs, run hashf empty_world ops = (w, obs) -> pinv w.
Proof.
  intros hashf ops w obs. apply pinv_run. exact pinv_empty.
Qed.
Print Assumptions c14_pinv_every_run.

(** Mutants 2 and 3 (Mutants.v) refuted: the timeout looked up at every wait breaks the open transaction; a paused
    pool kept registered across its removal still resolves. *)
Theorem c14_mutant_idle_live_refuted :
  exists w, fst (run idh empty_world idle_ops) = w /\
            snd (run idh empty_world idle_ops) = [ObReload (ROk true); ObConnected 0; ObBegun 0 0 false; ObReload (ROk true)] /\
            snd (step idh w (OIdle 0 400)) = ObIdled /\ idle_live w 0 400 = ObTimedOut /\
            snd (run idh w [OEnd 0; OBegin 0; OIdle 0 400]) = [ObEnded; ObBegun 0 0 false; ObTimedOut].
Proof. eexists. split; [reflexivity|]. vm_compute. auto. Qed.
Print Assumptions c14_mutant_idle_live_refuted.

Theorem c14_mutant_keep_paused_refuted :
  exists w, run idh empty_world pause_ops =
              (w, [ObReload (ROk true); ObConnected 0; ObAdmin true; ObReload (ROk true); ObNoPool; ObNoPool]) /\
            paused w = [] /\ begin_txn (st w) 0 0 = None /\
            plookup (0, 0) (keep_paused [(0, 0)] [((0, 0), (10, 0)); ((1, 0), (20, 1))] (pools (st w))) = Some (10, 0) /\
            clookup 0 (cpools (config (st w))) = None.
Proof. eexists. split; [vm_compute; reflexivity|]. vm_compute. auto. Qed.
Print Assumptions c14_mutant_keep_paused_refuted.

(** A transaction that was held by PAUSE reads the configuration in force when it actually starts: the outcome of
    [OWake] is a function of POOLS / CONFIG at that moment (pool object, server, idle timeout), whatever the
    client had looked up before it parked. *)
Theorem c14_held_reads_at_start : forall hashf w c x,
  cl_lookup c (clients w) = Some x -> is_waiting w c = true ->
  existsb (key_eqb (cdb x, cuser x)) (paused w) = false ->
  match begin_txn (st w) (cdb x) (cuser x) with
  | Some p => exists w' s f, step hashf w (OWake c) = (w', ObBegun p s f) /\
                cl_lookup c (clients w') = Some {| cdb := cdb x; cuser := cuser x; cclone := p; cheld := Some s; ctmo := cidle (config (st w)); cset := p |} /\
                In {| sid := s; spool := p; sholder := Some c |} (servers w')
  | None => exists w', step hashf w (OWake c) = (w', ObNoPool) /\ cl_lookup c (clients w') = None /\
                st w' = st w /\ (forall y, In y (servers w') -> In y (servers w))
  end.
Proof. exact wake_resolves. Qed.
Print Assumptions c14_held_reads_at_start.

(** Mutant 4 (Mutants.v): the lookup after wait_paused() dropped — refuted: the held client parked with a clone of
    object 0, the reload built object 2 for its pool, the model starts the transaction on object 2. *)
Theorem c14_mutant_wake_stale_refuted :
  exists w x, run idh empty_world held_ops =
                (w, [ObReload (ROk true); ObConnected 0; ObAdmin true; ObBlocked; ObReload (ROk true); ObAdmin true]) /\
              cl_lookup 0 (clients w) = Some x /\ cclone x = 0 /\ is_waiting w 0 = true /\
              begin_txn (st w) 0 0 = Some 2 /\ In (2, ((0, 0), 11)) (objs w) /\ In (0, ((0, 0), 10)) (objs w) /\
              exists w' s, step idh w (OWake 0) = (w', ObBegun 2 s true).
Proof.
  eexists. eexists. split; [vm_compute; reflexivity|]. vm_compute. repeat split; auto. eexists. eexists. reflexivity.
Qed.
Print Assumptions c14_mutant_wake_stale_refuted.

(** A reload that does not answer Ok(true) — unreadable, invalid, unchanged, build failed, build panicked — leaves the
    registered pools, the PAUSE flags, the ban lists, the clients and the waiters as they were. *)
Theorem c14_refused_reload_keeps_flags : forall hashf w fo w' r, step hashf w (OReload fo) = (w', ObReload r) -> r <> ROk true ->
  pools (st w') = pools (st w) /\ paused w' = paused w /\ bans w' = bans w /\ clients w' = clients w /\ waiting w' = waiting w.
Proof. exact refused_reload_keeps_flags. Qed.
Print Assumptions c14_refused_reload_keeps_flags.

(** Ban lists belong to pool objects.  After ANY reload, per (pool, user): either the registered object is the one that
    was registered before (unchanged definition: its bans stay, c14_reload_keeps_bans), or it was built by this
    reload and has no ban at all — bans of the replaced object do not carry over, and the new object's list is
    sized by its own definition (pool.rs from_config: one empty map per shard). *)
Theorem c14_rebuilt_pool_no_bans : forall hashf w fo w' ob k h p,
  binv w -> step hashf w (OReload fo) = (w', ob) -> plookup k (pools (st w')) = Some (h, p) ->
  plookup k (pools (st w)) = Some (h, p) \/ (forall i, ~ In (p, i) (bans w')).
Proof.
  intros hashf w fo w' ob k h p B S L. destruct (reload_step _ _ _ _ _ S) as (s' & r & n' & new & R & _ & ->). cbn in *.
  destruct (reload_fresh _ _ _ _ _ _ _ _ R) as (_ & F2 & _ & F4).
  destruct (F4 _ _ _ L) as [X|(pd & _ & Y)]; [left; exact X|right].
  intros i Hin. apply F2 in Y. apply B in Hin. exact (Nat.lt_irrefl _ (Nat.lt_le_trans _ _ _ Hin (proj1 Y))).
Qed.
Print Assumptions c14_rebuilt_pool_no_bans.

Theorem c14_reload_keeps_bans : forall hashf w fo w' ob, step hashf w (OReload fo) = (w', ob) -> bans w' = bans w.
Proof.
  intros hashf w fo w' ob S. destruct (reload_step _ _ _ _ _ S) as (s' & r & n' & new & _ & _ & ->). reflexivity.
Qed.
Print Assumptions c14_reload_keeps_bans.

Theorem c14_binv_every_run : forall hashf ops w obs, run hashf empty_world ops = (w, obs) -> binv w.
Proof.
  intros hashf ops w obs. apply binv_run; [apply winv_empty|intros p i []].
Qed.
Print Assumptions c14_binv_every_run.

(** Mutants 5-7 (Mutants.v) refuted: inherited ban list; router settings not refreshed at the checkout; dropped pools
    resumed before the build that then fails. *)
Theorem c14_mutant_inherit_bans_refuted :
  exists w, run idh empty_world ban_ops = (w, [ObReload (ROk true); ObAdmin true; ObAdmin true; ObReload (ROk true)]) /\
            pools (st w) = [((0, 0), (11, 2)); ((1, 0), (20, 1))] /\ bans w = [(1, 1); (0, 1)] /\
            (forall i, ~ In (2, i) (bans w)) /\
            In (2, 1) (inherit_bans [((0, 0), (10, 0)); ((1, 0), (20, 1))] (pools (st w)) (bans w)).
Proof.
  eexists. split; [vm_compute; reflexivity|]. cbn [st pools bans]. repeat split; auto.
  - intros i [H|[H|[]]]; discriminate.
  - vm_compute. auto.
Qed.
Print Assumptions c14_mutant_inherit_bans_refuted.

Theorem c14_mutant_stale_router_refuted :
  exists w x, run idh empty_world session_ops = (w, [ObReload (ROk true); ObConnected 0; ObReload (ROk true); ObBegun 2 1 true]) /\
              cl_lookup 0 (clients w) = Some x /\ cclone x = 2 /\ cset x = 2 /\
              exists w0 x0, fst (run idh empty_world (firstn 3 session_ops)) = w0 /\ cl_lookup 0 (clients w0) = Some x0 /\ cset x0 = 0.
Proof.
  eexists. eexists. split; [vm_compute; reflexivity|]. vm_compute. repeat split; auto. eexists. eexists. repeat split; reflexivity.
Qed.
Print Assumptions c14_mutant_stale_router_refuted.

Theorem c14_mutant_early_resume_refuted :
  exists w, run idh empty_world refuse_ops = (w, [ObReload (ROk true); ObAdmin true; ObReload RErr]) /\
            config (st w) = two_pools /\ has_pool (st w) (0, 0) = true /\ paused w = [(0, 0)] /\
            early_resume drop_and_fail (paused w) = [].
Proof. eexists. split; [vm_compute; reflexivity|]. vm_compute. auto. Qed.
Print Assumptions c14_mutant_early_resume_refuted.

Definition ex_c0 : cfg := {| cgen := 1; cidle := 0; cpools := [(0, (10, [0])); (1, (20, [0]))] |}.
Definition ex_c1 : cfg := {| cgen := 1; cidle := 0; cpools := [(0, (10, [0])); (1, (21, [0])); (2, (30, [0]))] |}.   (* 0 unchanged, 1 changed, 2 added *)
Definition ex_c2 : cfg := {| cgen := 1; cidle := 0; cpools := [(0, (10, [0])); (2, (30, [0]))] |}.                    (* 1 removed *)
Definition ex_ok := bo_of [] [].

(** wf_cfg, all_built and "changed" are satisfiable together *)
Example ex_hyps : wf_cfg ex_c1 /\ all_built ex_c1 ex_ok = true /\ cfg_eqb ex_c0 ex_c1 = false /\ cfg_eqb ex_c1 ex_c1 = true.
Proof. repeat split; try reflexivity. unfold wf_cfg. cbn. repeat constructor; cbn; intuition discriminate. Qed.

(** reordering the pools of a file is not a change (HashMap equality) *)
Example ex_reordered_equal :
  cfg_eqb ex_c0 {| cgen := 1; cidle := 0; cpools := [(1, (20, [0])); (0, (10, [0]))] |} = true.
Proof. reflexivity. Qed.

(** a change of [general] alone makes reload run from_config, which reuses every pool object *)
Example ex_general_only :
  fst (fst (fst (reload idh {| config := ex_c0; pools := [((0, 0), (10, 0)); ((1, 0), (20, 1))] |}
                        (Valid {| cgen := 2; cidle := 0; cpools := cpools ex_c0 |} ex_ok) 2)))
  = {| config := {| cgen := 2; cidle := 0; cpools := cpools ex_c0 |}; pools := [((0, 0), (10, 0)); ((1, 0), (20, 1))] |}.
Proof. reflexivity. Qed.

(** the situations of the property text in one run: two clients mid-transaction across a reload that
    keeps pool 0, changes pool 1 and adds pool 2; a TOML error; then pool 1 is removed.
    Steps: (observation code, view) — see [obs_code] / [view]. *)
Example ex_story_obs :
  map fst (trace idh empty_world
    [OReload (Valid ex_c0 ex_ok); OConnect 0 0 0; OConnect 1 1 0; OBegin 0; OBegin 1;
     OReload (Valid ex_c1 ex_ok);          (* both clients are in a transaction *)
     OEnd 0; OEnd 1; OBegin 0; OBegin 1; OEnd 0; OEnd 1; OConnect 2 2 0;
     OReload TomlError; OReload (Valid ex_c2 ex_ok); OBegin 1; OBegin 2; OReload (Valid ex_c2 ex_ok)])
  = [(0, 2, 0, 0);
     (1, 0, 0, 0); (1, 1, 0, 0);            (* each first client validates its pool: servers 0 and 1 are opened, idle *)
     (3, 0, 0, 0); (3, 1, 1, 0);
     (0, 2, 0, 0);                          (* reloaded: Ok(true) *)
     (4, 0, 0, 0); (4, 0, 0, 0);            (* both transactions end normally *)
     (3, 0, 0, 0);                          (* client 0: same object 0, same server 0 *)
     (3, 2, 2, 1);                          (* client 1: the rebuilt object 2, a new server *)
     (4, 0, 0, 0); (4, 0, 0, 0); (1, 3, 0, 0);
     (0, 0, 0, 0);                          (* TOML error: Err *)
     (0, 2, 0, 0);                          (* pool 1 removed *)
     (2, 0, 0, 0);                          (* client 1: No pool configured *)
     (3, 3, 3, 0);                          (* client 2 unaffected *)
     (0, 1, 0, 0)].                         (* same file again: Ok(false) *)
Proof. vm_compute. reflexivity. Qed.

(** ... and the open server connections after the reload in the middle of the two transactions: both
    still there, both still held (server 1 belongs to the replaced object 1) *)
Example ex_story_inflight :
  snd (snd (nth 5 (trace idh empty_world
    [OReload (Valid ex_c0 ex_ok); OConnect 0 0 0; OConnect 1 1 0; OBegin 0; OBegin 1; OReload (Valid ex_c1 ex_ok)])
    ((0, 0, 0, 0), (0, [], [], []))))
  = [(1, 1, 2); (0, 0, 1)].
Proof. vm_compute. reflexivity. Qed.

(** a build that panics leaves CONFIG new and POOLS old; one that fails leaves everything as it was *)
Example ex_panic_partial :
  reload idh {| config := f12_old; pools := [((0, 0), (10, 0))] |} (Valid f12_new (bo_of [] [(0, 0)])) 1
  = ({| config := f12_new; pools := [((0, 0), (10, 0))] |}, RPanic, 1, []).
Proof. reflexivity. Qed.

Example ex_fail_noop :
  reload idh {| config := f12_old; pools := [((0, 0), (10, 0))] |} (Valid f12_new (bo_of [(0, 0)] [])) 1
  = ({| config := f12_old; pools := [((0, 0), (10, 0))] |}, RErr, 1, []).
Proof. reflexivity. Qed.
