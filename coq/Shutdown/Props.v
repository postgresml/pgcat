(** C17 — shutdown is graceful: property theorems only.  Each follows in a line or two from the lemmas
    of Proofs.v and is audited with [Print Assumptions]; [Example]s show non-vacuity and fix the model's behaviour on
    the schedules the property text talks about.

    All theorems quantify over EVERY reachable state = every finite sequence of events (signals,
    accepts, client actions of any number of normal / admin / cancel clients in transaction or
    session mode, channel deliveries in any lag, timer) that the model can execute from [init]. *)
From Coq Require Import ZArith List Bool Arith Lia.
From PV Require Import Shutdown.Model Shutdown.Proofs.
Import ListNotations.
Open Scope Z_scope.

(** The invariant, in particular the counter equation
      total_clients = #(counted live clients) + #(counted clients that died in a panic) - in-flight adjustments. *)
Theorem c17_invariant : forall st, reachable st -> Inv st.
Proof. exact reachable_Inv. Qed.
Print Assumptions c17_invariant.

Theorem c17_counter : forall st, reachable st ->
  total st = ncounted (clients st) + leaked st - qsum (queue st).
Proof. intros st H. destruct (reachable_Inv _ H) as (_ & (Hc & _) & _). lia. Qed.
Print Assumptions c17_counter.

(** After SIGINT (admin_only = true at accept time) a new non-admin client is refused: whatever it
    and everybody else does afterwards, it stays uncounted in Starting/Gone, the only enabled event of
    its own is the startup step, which answers with the administrator-command error WITHOUT touching
    the counter, and nothing else is ever logged for it (not admitted, not served, no auth verdict).
    A client accepted BEFORE SIGINT that authenticates after it carries gate = false: it is admitted
    (the property text speaks of "new" clients; admission is decided at accept) and then falls under
    [c17_idle_kicked] — see [ex_late_auth]. *)
Theorem c17_refuse_new : forall st m st1, admin_only st = true -> step st (Accept Normal m) = Some st1 ->
  let i := length (clients st) in
  forall tr st2, run st1 tr = Some st2 ->
     refused_forever i st2 /\
     (exists new, log st2 = new ++ log st1 /\ forallb (fun o => negb (good_for i o)) new = true) /\
     (forall e st3, step st2 e = Some st3 -> actor e = Some i ->
        exists ok, e = AuthDone i ok /\ log st3 = ORefused i :: log st2 /\ queue st3 = queue st2 /\ total st3 = total st2).
Proof.
  intros st m st1 Ha Hs i tr st2 Hr.
  destruct (refused_run _ _ _ _ (refuse_new _ _ _ Ha Hs) Hr) as (H1 & H2). split; auto. split; auto.
  intros e st3 He. apply (refused_step _ _ _ _ H1 He).
Qed.
Print Assumptions c17_refuse_new.

(** ... while an admin client is admitted and its commands are answered, in any live state. *)
Theorem c17_admin_admitted : forall st m st1, exited st = None -> main_ok st = true ->
  step st (Accept Admin m) = Some st1 ->
  let i := length (clients st) in
  exists st2, step st1 (AuthDone i true) = Some st2 /\ log st2 = OAdmitted i :: log st1 /\
    exists st2', step st2 (Enter i) = Some st2' /\ log st2' = log st2 /\ queue st2' = queue st2 /\
    exists st3, step st2' (Stmt i) = Some st3 /\ log st3 = OServed i :: log st2'.
Proof. intros st m st1 Hx _. apply admin_admitted, Hx. Qed.
Print Assumptions c17_admin_admitted.

(** An idle non-admin client (in either pool mode: a session-mode client that holds no server yet is
    in the outer loop, too) in admin-only mode: its poll is enabled and disconnects it with the
    administrator-command error, sending its -1. *)
Theorem c17_idle_kicked : forall st i c, reachable st -> exited st = None -> admin_only st = true ->
  nth_error (clients st) i = Some c -> ckind c = Normal -> cphase c = Idle ->
  exists st', step st (Poll i) = Some st' /\ log st' = OKicked i :: log st /\
              queue st' = queue st ++ [-1] /\ total st' = total st /\
              exists c', nth_error (clients st') i = Some c' /\ cphase c' = Gone /\ counted c' = false.
Proof. intros st i c H. exact (idle_kicked st i c (reachable_Inv st H)). Qed.
Print Assumptions c17_idle_kicked.

Theorem c17_no_kick_before_sigint : forall st i, reachable st -> admin_only st = false -> step st (Poll i) = None.
Proof. intros st i H. exact (no_kick_before_sigint st i (reachable_Inv st H)). Qed.
Print Assumptions c17_no_kick_before_sigint.

Theorem c17_kicked_only_idle : forall st e st' i, reachable st -> step st e = Some st' ->
  log st' = OKicked i :: log st ->
  e = Poll i /\ admin_only st = true /\
  exists c, nth_error (clients st) i = Some c /\ cphase c = Idle /\ ckind c <> Admin.
Proof. intros st e st' i H. exact (kicked_only_idle st e st' i (reachable_Inv st H)). Qed.
Print Assumptions c17_kicked_only_idle.

(** A transaction in progress is not disturbed by the shutdown: in ANY state (no reachability
    needed) no event other than the client's own TxnEnd / Leave changes its phase; its poll is not
    enabled; its statements and its COMMIT are served as long as the process lives. *)
Theorem c17_txn_finishes : forall st i c, nth_error (clients st) i = Some c -> ckind c = Normal -> cphase c = InTxn ->
  step st (Poll i) = None /\
  (exited st = None -> step st (Stmt i) = Some (with_log st (OServed i))) /\
  (exited st = None -> exists st', step st (TxnEnd i) = Some st' /\ log st' = OServed i :: log st /\ queue st' = queue st) /\
  (forall e st', step st e = Some st' ->
     (exists c', nth_error (clients st') i = Some c' /\ cphase c' = InTxn /\ counted c' = counted c) \/
     e = TxnEnd i \/ (exists h, e = Leave i h)).
Proof.
  intros st i c Hn Hk Hp. split; [| split; [| split]].
  - eapply txn_not_polled; eauto. left; auto.
  - intros Hx. eapply txn_served; eauto. left; auto.
  - intros Hx. eapply txn_commit_served; eauto.
  - intros e st' Hs. eapply txn_undisturbed; eauto.
Qed.
Print Assumptions c17_txn_finishes.

(** A session-mode client between transactions is never polled either: it is not disconnected and
    keeps the count above zero until it leaves or the timer fires. *)
Theorem c17_session_held_not_kicked : forall st i c, nth_error (clients st) i = Some c ->
  cphase c = SessionHeld -> step st (Poll i) = None.
Proof. intros. eapply txn_not_polled; eauto. right; auto. Qed.
Print Assumptions c17_session_held_not_kicked.

(** Exit condition, "only if": the process is gone only because of SIGTERM, or because the main
    loop received an exit message that was sent by a drain delivery that saw total = 0 in admin-only
    mode, or by the timer (armed by a SIGINT). *)
Theorem c17_exit_condition : forall tz cap b tr st x, run (init tz cap b) tr = Some st -> exited st = Some x ->
  match x with
  | ByTerm => In Sigterm tr
  | ByZero => In ExitDeliver tr /\
              exists tr1 tr2 s1, tr = tr1 ++ DrainDeliver :: tr2 /\ run (init tz cap b) (tr1 ++ [DrainDeliver]) = Some s1 /\
                                 admin_only s1 = true /\ total s1 = 0
  | ByTimer => In ExitDeliver tr /\ exists tr1 tr2, tr = tr1 ++ TimerFire :: tr2 /\ In Sigint tr1
  end.
Proof. intros tz cap b tr st x Hr Hx. pose proof (exit_has_origin _ _ _ _ _ _ Hr Hx) as H. destruct x; exact H. Qed.
Print Assumptions c17_exit_condition.

(** "if", part 1: SIGTERM exits at once, whatever the clients are doing ([main_ok]: the loop is at its
    [select!], i.e. not wedged and not in the middle of the SIGINT arm — the arm ends by itself, SigintQ). *)
Theorem c17_sigterm_immediate : forall st, exited st = None -> main_ok st = true ->
  step st Sigterm = Some (with_exit st ByTerm).
Proof. exact sigterm_immediate. Qed.
Print Assumptions c17_sigterm_immediate.

(** "if", part 2: a delivery that brings the count to zero in admin-only mode puts an exit message
    into the channel (or finds one there); a message in the channel makes the exit arm enabled. *)
Theorem c17_zero_sends_exit : forall st st', step st DrainDeliver = Some st' -> admin_only st = true ->
  total st' = 0 -> exit_q st' <> None.
Proof.
  intros st st' Hs A T. pose proof (step_main _ _ _ Hs eq_refl) as Hm. inversion Hm; subst; simpl in *; try discriminate.
  rewrite A, T in Ht. discriminate.
Qed.
Print Assumptions c17_zero_sends_exit.

Theorem c17_exit_message_exits : forall st x, exited st = None -> main_ok st = true -> exit_q st = Some x ->
  step st ExitDeliver = Some (with_exit st x).
Proof. exact exit_deliver_enabled. Qed.
Print Assumptions c17_exit_message_exits.

(** "if", part 3: once all counted clients have left and none died in a panic, delivering what is in
    flight IS the exit (code as it is, [blk = false]: a zero seen twice is dropped, nothing blocks). *)
Theorem c17_exit_when_all_left : forall st, reachable st -> blk st = false -> exited st = None -> main_ok st = true ->
  (0 < qcap st)%nat -> admin_only st = true -> ncounted (clients st) = 0 -> leaked st = 0 ->
  exists k st' x st'', (k <= length (queue st))%nat /\ run st (repeat DrainDeliver k) = Some st' /\
                       x <> ByTerm /\ step st' ExitDeliver = Some st'' /\ exited st'' = Some x.
Proof.
  intros st Hr Hb Hx Hm Hc Ha Hn Hl.
  destruct (r_all_left_exits st) as (k & st' & Hk & Hrun & [Hw | (x & st'' & H1 & H2 & H3)]); auto.
  - exfalso. destruct (blk_run _ _ _ Hrun) as (Hb' & _).
    assert (wedged st' = false) by (apply never_wedged; [eapply reachable_run; eauto | congruence]). congruence.
  - exists k, st', x, st''. auto.
Qed.
Print Assumptions c17_exit_when_all_left.

(** "if", part 4: shutdown_timeout.  In admin-only mode with a non-zero timeout and a main loop that
    is not wedged, the timer ends the process whatever the clients do. *)
Theorem c17_timer_forces_exit : forall st, reachable st -> exited st = None -> main_ok st = true ->
  admin_only st = true -> tzero st = false ->
  exists tr st', (tr = [TimerFire; ExitDeliver] \/ tr = [ExitDeliver]) /\ run st tr = Some st' /\
                 exists x, exited st' = Some x /\ x <> ByTerm.
Proof. intros st H. exact (timer_forces_exit st (reachable_Inv st H)). Qed.
Print Assumptions c17_timer_forces_exit.

(** A second SIGINT changes nothing. *)
Theorem c17_double_sigint_ignored : forall st, exited st = None -> main_ok st = true -> admin_only st = true ->
  step st Sigint = Some st.
Proof. exact double_sigint_ignored. Qed.
Print Assumptions c17_double_sigint_ignored.

(** Panic exits.  A counted client whose task panics sends no -1 ([leaked] grows).  From then on —
    once the +1s in flight are delivered and as long as nobody new is admitted — the drain arm never
    sends an exit message again: the process leaves by the timer (or SIGTERM), which the property
    allows ("or shutdown_timeout has passed"). *)
Theorem c17_panic_leaks : forall st i c, exited st = None -> nth_error (clients st) i = Some c ->
  live_phase (cphase c) = true -> counted c = true ->
  exists st', step st (Leave i Panic) = Some st' /\ leaked st' = leaked st + 1 /\ queue st' = queue st.
Proof.
  intros st i c Hx Hn Hp Hc. eexists. split; [exact (cmove_step _ i c _ _ _ _ _ Hn (mv_leave i c Panic Hp) Hx) |].
  simpl. unfold bye_msg, bye_leak. rewrite Hc. split; reflexivity.
Qed.
Print Assumptions c17_panic_leaks.

Theorem c17_panic_leaks_counter : forall tr st st', reachable st -> 0 < leaked st -> no_pos (queue st) = true ->
  forallb (fun e => negb (admits e)) tr = true -> run st tr = Some st' ->
  zero_sends st' = zero_sends st /\ 0 < leaked st' /\ (queue st' = [] -> 0 < total st').
Proof. intros tr st st' H. exact (panic_leaks_counter tr st st' (reachable_Inv st H)). Qed.
Print Assumptions c17_panic_leaks_counter.

(** LIVENESS (no guard): with the code as it is ([blk = false]: [try_send] into the channels the loop reads
    itself; shutdown_timeout > 0: config.rs rejects 0) the main loop is never suspended for ever, and in
    admin-only mode the process can always leave — by the timer at the latest — whatever the clients do,
    wherever the loop is (also in the middle of the SIGINT arm, also with a full drain channel). *)
Theorem c17_never_wedged : forall st, reachable st -> blk st = false -> wedged st = false.
Proof. exact never_wedged. Qed.
Print Assumptions c17_never_wedged.

Theorem c17_exit_liveness : forall st, reachable st -> blk st = false -> tzero st = false -> exited st = None ->
  admin_only st = true ->
  exists tr' st', run st tr' = Some st' /\ exists x, exited st' = Some x /\ x <> ByTerm.
Proof. exact exit_liveness. Qed.
Print Assumptions c17_exit_liveness.

(** the two places where the loop used to wait: a zero seen while an exit message is unread is dropped;
    SIGINT with a full drain channel drops its 0, arms the timer and goes on (the counter is evaluated at
    the next delivery: [c17_zero_sends_exit]) *)
Theorem c17_second_zero_dropped : forall st st' x, step st DrainDeliver = Some st' -> blk st = false ->
  exit_q st = Some x -> exit_q st' = Some x /\ wedged st' = wedged st /\ main_ok st' = main_ok st.
Proof.
  intros st st' x Hs B Q. pose proof (step_main _ _ _ Hs eq_refl) as Hm. inversion Hm; subst;
    unfold main_ok; simpl; rewrite ?B, ?Hw; repeat split; auto; congruence.
Qed.
Print Assumptions c17_second_zero_dropped.

Theorem c17_sigint_full_goes_on : forall st, exited st = None -> mid_sigint st = true -> wedged st = false ->
  blk st = false -> (qcap st <= length (queue st))%nat ->
  exists st', step st SigintQ = Some st' /\ queue st' = queue st /\ main_ok st' = true /\
              tmr st' = (if tzero st then TDead else TArmed).
Proof.
  intros st Hx Hm Hw Hb Hc. eexists. split; [exact (mmove_step _ _ _ (mm_arm_full st Hm Hw Hc Hb) Hx) |].
  unfold main_ok. simpl. rewrite Hw. auto.
Qed.
Print Assumptions c17_sigint_full_goes_on.

(** MUTANT [blk = true] = the code before commit 74943d0 ([send().await] into channels the loop reads
    itself).  Kept so that the theorems above are seen to discriminate: the mutant wedges, a wedged loop
    never exits nor accepts, and the only wedging steps are the two awaits. *)
Theorem c17_wedge_is_forever : forall tr st st', wedged st = true -> exited st = None -> run st tr = Some st' ->
  wedged st' = true /\ exited st' = None.
Proof. exact wedge_forever. Qed.
Print Assumptions c17_wedge_is_forever.

Theorem c17_wedge_origin : forall st e st', step st e = Some st' -> wedged st = false -> wedged st' = true ->
  (e = DrainDeliver /\ exit_q st <> None /\ total st' = 0 /\ admin_only st = true) \/
  (e = SigintQ /\ mid_sigint st = true /\ (qcap st <= length (queue st))%nat).
Proof.
  intros st e st' Hs H0 H1.
  destruct (step_inv _ _ _ Hs) as [st' Hm | j cj c' m lk o Hj Hm]; [destruct Hm |]; simpl in H1; try congruence; auto.
  left. simpl. repeat split; auto; congruence.
Qed.
Print Assumptions c17_wedge_origin.

(** mutant, schedule W1' [wedge_overtake] (one idle client, SIGINT: its -1 overtakes the 0 of the SIGINT
    arm; also W1 [wedge_inflight], W2 [wedge_cancel], Proofs.v): every client has left AND the timeout has
    passed, and no continuation whatsoever exits.  (Reproduced on the binary before the repair.) *)
Theorem c17_mutant_await_exit_liveness_refuted : exists tr st, run (init false 2048 true) tr = Some st /\
  all_gone st = true /\ tmr st = TBlocked /\ total st = 0 /\ queue st = [] /\
  forall tr' st', run st tr' = Some st' -> exited st' = None.
Proof.
  (* [pose proof], not [destruct (..)], which would first look for the term all over a goal that holds 2048 in unary *)
  pose proof (wedge_witness wedge_overtake (or_intror (or_intror eq_refl))) as (st & Hr & Hw & Hg & Ht & H0 & Hq & Hx).
  exists wedge_overtake, st. repeat split; auto.
  intros tr' st' Hr'. exact (proj2 (wedge_forever _ _ _ Hw Hx Hr')).
Qed.
Print Assumptions c17_mutant_await_exit_liveness_refuted.

(** mutant, schedule W3: SIGINT while the drain channel is full: suspended in its own [drain_tx.send(0)]
    BEFORE the timer task exists.  (Witness for a 64-slot channel and 32 requests.) *)
Theorem c17_mutant_await_sigint_full_refuted : exists cap tr st, run (init false cap true) tr = Some st /\
  all_gone st = true /\ admin_only st = true /\ tmr st = TNone /\
  forall tr' st', run st tr' = Some st' -> exited st' = None /\ tmr st' = TNone.
Proof.
  destruct wedge_full_witness as (st & Hr & Hw & Hg & Ht & Ha & Hx & Hl & Hf).
  exists wedge_full_cap, wedge_full, st. split; auto. split; auto. split; auto. split; auto.
  intros tr' st' H. split.
  - destruct (wedge_forever _ _ _ Hw Hx H). auto.
  - eapply wedged_no_timer; eauto.
Qed.
Print Assumptions c17_mutant_await_sigint_full_refuted.

(** mutant config shutdown_timeout = 0 (rejected by config.rs since 6453b21): the timer never fires. *)
Theorem c17_mutant_zero_timeout_no_timer : forall st, reachable st -> tzero st = true -> step st TimerFire = None.
Proof. intros st H. exact (tzero_no_timer st (reachable_Inv st H)). Qed.
Print Assumptions c17_mutant_zero_timeout_no_timer.

(** OPEN DEFECT E1 (counting starts after the client has been answered; code as it is).  "Exits once all
    clients have left" is false in the other direction: a non-admin client that was accepted before SIGINT
    and has been told it is connected (AuthenticationOk .. ReadyForQuery; it may have sent BEGIN) is in
    nobody's count until its task has sent the +1; a SIGINT handled in that window sees zero and the
    process exits at once under the client (neither refused nor told to go, its transaction not allowed to
    finish although shutdown_timeout has not passed). *)
Theorem c17_exit_before_counted_refuted : exists tr st c, run init_real tr = Some st /\
  exited st = Some ByZero /\ In (OAdmitted 0) (log st) /\ ~ In (OKicked 0) (log st) /\
  nth_error (clients st) 0 = Some c /\ cphase c = Authed /\ ckind c = Normal /\ gate c = false /\ tmr st = TArmed.
Proof.
  exists exit_under_admitted. eexists. eexists. split; [vm_compute; reflexivity |].
  vm_compute. repeat split; auto. intros [H | H]; [discriminate | destruct H as [H | H]; [discriminate | exact H]].
Qed.
Print Assumptions c17_exit_before_counted_refuted.

(** * Non-vacuity / spec validation (every example is a full run from [init]) *)

Definition final (tz : bool) (tr : list event) := option_map view (run (init tz 2048 false) tr).
Definition finalm (tr : list event) := option_map view (run (init false 2048 true) tr).      (* mutant: awaits *)
Definition final_script (tz : bool) (s : list sop) := option_map view (run_script (init tz 2048 false) s).
Definition finalm_script (s : list sop) := option_map view (run_script (init false 2048 true) s).

(** The scenario of the property text: an idle client (0), a client inside a transaction (1) and an
    admin (2); SIGINT; a new normal client (3) and a new admin (4) arrive.  0 is kicked, 3 refused, 4
    admitted, 1 is served to its COMMIT and then kicked; then the count is zero: exit ByZero. *)
Example ex_graceful :
  final_script false
    [SEv (Accept Normal TxnMode); SEv (AuthDone 0 true); SEv (Accept Normal TxnMode); SEv (AuthDone 1 true);
     SEv (Accept Admin TxnMode); SEv (AuthDone 2 true); SEv (TxnStart 1); SEv (Stmt 1);
     SEv Sigint;
     SEv (Accept Normal TxnMode); SEv (AuthDone 3 true); SEv (Accept Admin TxnMode); SEv (AuthDone 4 true);
     SEv (Stmt 1); SEv (Stmt 4); SEv (TxnEnd 1)]
  = Some (true, 0, Some ByZero, false,
          [(Gone, false); (Gone, false); (Idle, false); (Gone, false); (Idle, false)],
          [OAdmitted 0; OAdmitted 1; OAdmitted 2; OServed 1; OKicked 0; ORefused 3; OAdmitted 4;
           OServed 1; OServed 4; OServed 1; OKicked 1; OExit ByZero], 0).
Proof. vm_compute. reflexivity. Qed.

(** with nobody connected SIGINT exits through the 0 ping *)
Example ex_sigint_empty : final_script false [SEv Sigint] = Some (true, 0, Some ByZero, false, [], [OExit ByZero], 0).
Proof. vm_compute. reflexivity. Qed.

(** a session-mode client that holds a server is not told; the timer ends the process *)
Example ex_session_held :
  final_script false
    [SEv (Accept Normal SessMode); SEv (AuthDone 0 true); SEv (TxnStart 0); SEv (TxnEnd 0); SEv Sigint;
     SEv (Stmt 0); SWaitTimer]
  = Some (true, 1, Some ByTimer, false, [(SessionHeld, true)],
          [OAdmitted 0; OServed 0; OServed 0; OExit ByTimer], 0).
Proof. vm_compute. reflexivity. Qed.

(** a session-mode client that has not started anything is in the outer loop and is kicked *)
Example ex_session_idle_kicked :
  final_script false [SEv (Accept Normal SessMode); SEv (AuthDone 0 true); SEv Sigint]
  = Some (true, 0, Some ByZero, false, [(Gone, false)], [OAdmitted 0; OKicked 0; OExit ByZero], 0).
Proof. vm_compute. reflexivity. Qed.

(** panic inside a transaction: the count stays at 1 after everybody left, exit by the timer *)
Example ex_panic_leak :
  final_script false
    [SEv (Accept Normal TxnMode); SEv (AuthDone 0 true); SEv (TxnStart 0); SEv (Leave 0 Panic); SEv Sigint; SWaitTimer]
  = Some (true, 1, Some ByTimer, false, [(Gone, false)], [OAdmitted 0; OLeft 0 Panic; OExit ByTimer], 1).
Proof. vm_compute. reflexivity. Qed.

(** SIGTERM in the middle of a transaction *)
Example ex_sigterm :
  final_script false [SEv (Accept Normal TxnMode); SEv (AuthDone 0 true); SEv (TxnStart 0); SEv Sigterm; SEv (Stmt 0)]
  = Some (false, 1, Some ByTerm, false, [(InTxn, true)], [OAdmitted 0; OExit ByTerm], 0).
Proof. vm_compute. reflexivity. Qed.

(** accepted before SIGINT, authenticated after it: admitted (gate = false), then kicked at its
    first poll — or, if its first message won the race, served for that one transaction *)
Example ex_late_auth :
  final_script false [SEv (Accept Normal TxnMode); SEv (Accept Admin TxnMode); SEv (AuthDone 1 true); SRaw Sigint; SRaw SigintQ;
                      SRaw DrainDeliver; SRaw ExitDeliver]
  = Some (true, 0, Some ByZero, false, [(Starting, false); (Idle, false)], [OAdmitted 1; OExit ByZero], 0)
  /\
  final_script false [SEv (Accept Normal TxnMode); SEv (Accept Admin TxnMode); SEv (AuthDone 1 true); SRaw Sigint; SRaw SigintQ;
                      SRaw (AuthDone 0 true); SRaw (Enter 0); SRaw (Poll 0)]
  = Some (true, 0, None, false, [(Gone, false); (Idle, false)], [OAdmitted 1; OAdmitted 0; OKicked 0], 0)
  /\
  final_script false [SEv (Accept Normal TxnMode); SRaw Sigint; SRaw SigintQ; SRaw (AuthDone 0 true); SRaw (Enter 0); SRaw (TxnStart 0);
                      SRaw (Stmt 0); SRaw (TxnEnd 0); SRaw (Poll 0)]
  = Some (true, 0, None, false, [(Gone, false)], [OAdmitted 0; OServed 0; OServed 0; OKicked 0], 0).
Proof. vm_compute. repeat split; reflexivity. Qed.

(** lag: the +1 and -1 of a client are delivered after it left and after SIGINT was handled; if the 0 is
    delivered before the exit arm runs, the second zero is dropped and the exit arm exits (the mutant wedges) *)
Example ex_lag :
  final false [Accept Normal TxnMode; AuthDone 0 true; Enter 0; Leave 0 Clean; Sigint; SigintQ; DrainDeliver; DrainDeliver; ExitDeliver]
  = Some (true, 0, Some ByZero, false, [(Gone, false)], [OAdmitted 0; OLeft 0 Clean; OExit ByZero], 0)
  /\
  final false [Accept Normal TxnMode; AuthDone 0 true; Enter 0; Leave 0 Clean; Sigint; SigintQ; DrainDeliver; DrainDeliver; DrainDeliver; ExitDeliver]
  = Some (true, 0, Some ByZero, false, [(Gone, false)], [OAdmitted 0; OLeft 0 Clean; OExit ByZero], 0)
  /\
  finalm [Accept Normal TxnMode; AuthDone 0 true; Enter 0; Leave 0 Clean; Sigint; SigintQ; DrainDeliver; DrainDeliver; DrainDeliver]
  = Some (true, 0, None, true, [(Gone, false)], [OAdmitted 0; OLeft 0 Clean], 0).
Proof. vm_compute. repeat split; reflexivity. Qed.

(** the former wedge schedules W1', W1, W2 and the adversarial script order ([SAdv]) of "one idle client,
    SIGINT": the code as it is exits (ExitDeliver appended where the schedule stops short), the mutant wedges *)
Example ex_wedge_schedules :
  finalm wedge_overtake = Some (true, 0, None, true, [(Gone, false)], [OAdmitted 0; OKicked 0], 0) /\
  finalm wedge_inflight = Some (true, 0, None, true, [(Gone, false)], [OAdmitted 0; OLeft 0 Clean], 0) /\
  finalm wedge_cancel = Some (true, 0, None, true, [(Gone, false)], [OLeft 0 Clean], 0) /\
  finalm_script [SEv (Accept Normal TxnMode); SEv (AuthDone 0 true); SAdv Sigint]
    = Some (true, 0, None, true, [(Gone, false)], [OAdmitted 0; OKicked 0], 0) /\
  final false (wedge_overtake ++ [ExitDeliver]) = Some (true, 0, Some ByZero, false, [(Gone, false)], [OAdmitted 0; OKicked 0; OExit ByZero], 0) /\
  final false (wedge_inflight ++ [ExitDeliver]) = Some (true, 0, Some ByZero, false, [(Gone, false)], [OAdmitted 0; OLeft 0 Clean; OExit ByZero], 0) /\
  final false (wedge_cancel ++ [ExitDeliver]) = Some (true, 0, Some ByZero, false, [(Gone, false)], [OLeft 0 Clean; OExit ByZero], 0) /\
  final_script false [SEv (Accept Normal TxnMode); SEv (AuthDone 0 true); SAdv Sigint]
    = Some (true, 0, Some ByZero, false, [(Gone, false)], [OAdmitted 0; OKicked 0; OExit ByZero], 0) /\
  final_script false [SEv (Accept Normal TxnMode); SEv (AuthDone 0 true); SEv Sigint]
    = Some (true, 0, Some ByZero, false, [(Gone, false)], [OAdmitted 0; OKicked 0; OExit ByZero], 0).
Proof. vm_compute. repeat split; reflexivity. Qed.

(** E1 as a script: the client is answered, the SIGINT is handled before its task has sent the +1 *)
Example ex_exit_before_counted :
  final_script false [SEv (Accept Normal TxnMode); SLate (AuthDone 0 true); SLate Sigint]
  = Some (true, 0, Some ByZero, false, [(Authed, false)], [OAdmitted 0; OExit ByZero], 0).
Proof. vm_compute. reflexivity. Qed.

(** W3 on a 4-slot channel: two cancel requests not yet received, then SIGINT.  The code as it is drops the
    0, arms the timer and exits when the queue has been delivered (the last -1 shows zero); the mutant wedges *)
Definition w3 : list event := [Accept Canc TxnMode; AuthDone 0 true; Enter 0; Leave 0 Clean;
                               Accept Canc TxnMode; AuthDone 1 true; Enter 1; Leave 1 Clean; Sigint; SigintQ].
Example ex_full_channel :
  option_map view (run (init false 4 true) w3)
  = Some (true, 0, None, true, [(Gone, false); (Gone, false)], [OLeft 0 Clean; OLeft 1 Clean], 0)
  /\
  option_map (fun st => (view st, tmr st, length (queue st))) (run (init false 4 false) w3)
  = Some ((true, 0, None, false, [(Gone, false); (Gone, false)], [OLeft 0 Clean; OLeft 1 Clean], 0), TArmed, 4%nat)
  /\
  option_map view (run (init false 4 false) (w3 ++ [DrainDeliver; DrainDeliver; DrainDeliver; DrainDeliver; ExitDeliver]))
  = Some (true, 0, Some ByZero, false, [(Gone, false); (Gone, false)], [OLeft 0 Clean; OLeft 1 Clean; OExit ByZero], 0).
Proof. vm_compute. repeat split; reflexivity. Qed.

(** mutant config shutdown_timeout = 0 with a session-held client: the timer is dead, nothing ends the process *)
Example ex_zero_timeout :
  final_script true [SEv (Accept Normal SessMode); SEv (AuthDone 0 true); SEv (TxnStart 0); SEv (TxnEnd 0); SEv Sigint; SWaitTimer]
  = Some (true, 1, None, false, [(SessionHeld, true)], [OAdmitted 0; OServed 0], 0).
Proof. vm_compute. reflexivity. Qed.

(** events that are not enabled are rejected *)
Example ex_not_enabled :
  (final false [Poll 0], final false [TimerFire], final false [DrainDeliver], final false [ExitDeliver],
   final false [Accept Normal TxnMode; TxnStart 0], final false [Sigterm; Sigint], final false [SigintQ],
   final false [Sigint; Sigterm]) = (None, None, None, None, None, None, None, None).
Proof. vm_compute. reflexivity. Qed.
