From Coq Require Import ZArith List Bool Arith Lia.
From PV Require Import Shutdown.Model.
Import ListNotations.
Open Scope Z_scope.

Lemma nth_error_upd_same : forall (A : Type) (l : list A) n v x,
  nth_error l n = Some x -> nth_error (upd_nth l n v) n = Some v.
Proof. induction l; destruct n; simpl; intros; try discriminate; eauto. Qed.

Lemma nth_error_upd_other : forall (A : Type) (l : list A) n m v, n <> m ->
  nth_error (upd_nth l n v) m = nth_error l m.
Proof. induction l; destruct n, m; simpl; intros; try congruence; auto. Qed.

Lemma upd_nth_same : forall (A : Type) (l : list A) n x, nth_error l n = Some x -> upd_nth l n x = l.
Proof. induction l; destruct n; simpl; intros; try congruence. f_equal; auto. Qed.

Lemma length_upd_nth : forall (A : Type) (l : list A) n v, length (upd_nth l n v) = length l.
Proof. induction l; destruct n; simpl; intros; auto. Qed.

Lemma nth_error_snoc : forall (A : Type) (l : list A) x, nth_error (l ++ [x]) (length l) = Some x.
Proof. intros. rewrite nth_error_app2, Nat.sub_diag; auto. Qed.

Lemma Forall_upd_nth : forall (A : Type) (P : A -> Prop) l n v, Forall P l -> P v -> Forall P (upd_nth l n v).
Proof.
  induction l; destruct n; simpl; intros; auto; inversion H; subst; constructor; auto.
Qed.

Lemma Forall_nth_error : forall (A : Type) (P : A -> Prop) l n x, Forall P l -> nth_error l n = Some x -> P x.
Proof. intros. rewrite Forall_forall in H. apply H. eapply nth_error_In; eauto. Qed.

Lemma qsum_app : forall a b, qsum (a ++ b) = qsum a + qsum b.
Proof. induction a; simpl; intros; [lia | rewrite IHa; lia]. Qed.

Definition b2z (b : bool) : Z := if b then 1 else 0.

Lemma ncounted_app : forall a b, ncounted (a ++ b) = ncounted a + ncounted b.
Proof. induction a; simpl; intros; [lia | rewrite IHa; lia]. Qed.

Lemma ncounted_upd : forall l n c v, nth_error l n = Some c ->
  ncounted (upd_nth l n v) = ncounted l - b2z (counted c) + b2z (counted v).
Proof.
  induction l; destruct n; simpl; intros; try discriminate.
  - inversion H; subst. unfold b2z. destruct (counted c), (counted v); lia.
  - rewrite (IHl _ _ _ H). lia.
Qed.

Lemma ncounted_set_pend : forall l b, ncounted (map (fun c => set_pend c b) l) = ncounted l.
Proof. induction l; simpl; intros; auto. rewrite IHl. reflexivity. Qed.

Lemma ncounted_nonneg : forall l, 0 <= ncounted l.
Proof. induction l; simpl; [lia | destruct (counted a); lia]. Qed.

Lemma app_one_not_nil : forall (A : Type) (l : list A) x, l ++ [x] <> [].
Proof. destruct l; simpl; congruence. Qed.

Lemma no_pos_app : forall a b, no_pos (a ++ b) = no_pos a && no_pos b.
Proof. unfold no_pos. intros. apply forallb_app. Qed.

Lemma no_pos_qsum : forall q, no_pos q = true -> qsum q <= 0.
Proof.
  induction q; simpl; intros; [lia |].
  apply andb_true_iff in H. destruct H as [H1 H2]. apply Z.leb_le in H1. specialize (IHq H2). lia.
Qed.

Lemma main_ok_split : forall st, main_ok st = true <-> wedged st = false /\ mid_sigint st = false.
Proof. unfold main_ok. intros st. destruct (wedged st), (mid_sigint st); simpl; intuition discriminate. Qed.

Lemma step_exited_none : forall st e st', step st e = Some st' -> exited st = None.
Proof. intros. unfold step in H. destruct (exited st); [discriminate | reflexivity]. Qed.

(** * One step, event by event

    [step] is a client automaton (one client moves, and may send to the drain channel, leak, or be
    logged) next to a main-loop automaton.  [step_inv] splits it that way once; every lemma about
    "any step" below goes through [cmove] / [mmove] and never unfolds [step] again. *)

(** the state after client [i] became [c'], sent [m], leaked its count if [lk] and was logged as [o].  On
    closed [m], [lk], [o] this is convertible with the model's own [put] / [send] / [with_leak] / [with_log]. *)
Definition act (st : state) (i : nat) (c' : client) (m : option Z) (lk : bool) (o : option obs) : state :=
  mkS (admin_only st) (total st) (tmr st) (exit_q st) (wedged st) (exited st)
      (match m with Some z => queue st ++ [z] | None => queue st end)
      (upd_nth (clients st) i c') (tzero st) (qcap st) (if lk then leaked st + 1 else leaked st) (zero_sends st)
      (match o with Some x => x :: log st | None => log st end) (mid_sigint st) (blk st).

Lemma act_same : forall st i c o, nth_error (clients st) i = Some c -> with_log st o = act st i c None false (Some o).
Proof. intros. unfold act. rewrite (upd_nth_same _ _ _ _ H). destruct st; reflexivity. Qed.

Definition gone (c : client) : client := set_counted (set_phase c Gone) false.

(** what a departing client sends to the drain channel, and whether its -1 is lost *)
Definition bye_msg (c : client) (h : how) : option Z :=
  if counted c then match h with Panic => None | _ => Some (-1) end else None.
Definition bye_leak (c : client) (h : how) : bool :=
  if counted c then match h with Panic => true | _ => false end else false.

Lemma depart_act : forall st i c h o,
  with_log (depart st i c h) o = act st i (gone c) (bye_msg c h) (bye_leak c h) (Some o).
Proof. intros. unfold depart, bye_msg, bye_leak. destruct (counted c), h; reflexivity. Qed.

Definition in_txn_phase (p : phase) : Prop := p = InTxn \/ p = SessionHeld.

(** the moves of client [i] from [c]: event, new client, message sent, leak, log entry *)
Inductive cmove (i : nat) (c : client) : event -> client -> option Z -> bool -> option obs -> Prop :=
| mv_refused ok (Hp : cphase c = Starting) (Hk : ckind c = Normal) (Hg : gate c = true) :
    cmove i c (AuthDone i ok) (set_phase c Gone) None false (Some (ORefused i))
| mv_answered ok (Hp : cphase c = Starting) (Hg : ckind c = Normal -> gate c = false) :
    cmove i c (AuthDone i ok) (set_phase c (if ok then Authed else Gone)) None false
          (match ckind c with Canc => None | _ => Some (if ok then OAdmitted i else OAuthFail i) end)
| mv_enter (Hp : cphase c = Authed) (Hk : ckind c <> Admin) :
    cmove i c (Enter i) (set_counted (set_phase c (match ckind c with Canc => InTxn | _ => Idle end)) true) (Some 1) false None
| mv_enter_admin (Hp : cphase c = Authed) (Hk : ckind c = Admin) : cmove i c (Enter i) (set_phase c Idle) None false None
| mv_txn_start (Hk : ckind c = Normal) (Hp : cphase c = Idle \/ cphase c = SessionHeld) :
    cmove i c (TxnStart i) (set_phase c InTxn) None false None
| mv_stmt (Hp : ckind c = Normal /\ in_txn_phase (cphase c) \/ ckind c = Admin /\ cphase c = Idle) :
    cmove i c (Stmt i) c None false (Some (OServed i))
| mv_txn_end (Hk : ckind c = Normal) (Hp : cphase c = InTxn) :
    cmove i c (TxnEnd i) (set_phase c (match cmode c with TxnMode => Idle | SessMode => SessionHeld end)) None false (Some (OServed i))
| mv_poll_admin (Hp : cphase c = Idle) (Hpd : pend c = true) (Hk : ckind c = Admin) :
    cmove i c (Poll i) (set_pend c false) None false None
| mv_kicked (Hp : cphase c = Idle) (Hpd : pend c = true) (Hk : ckind c <> Admin) :
    cmove i c (Poll i) (gone c) (bye_msg c Clean) (bye_leak c Clean) (Some (OKicked i))
| mv_leave h (Hl : live_phase (cphase c) = true) :
    cmove i c (Leave i h) (gone c) (bye_msg c h) (bye_leak c h) (Some (OLeft i h)).

(** the main loop's fields after one of its arms ran *)
Definition arm (st : state) (ao : bool) (t : Z) (tm : timer) (eq : option cause) (w : bool) (q : list Z)
  (zs : nat) (mid : bool) : state :=
  mkS ao t tm eq w (exited st) q (clients st) (tzero st) (qcap st) (leaked st) zs (log st) mid (blk st).

Definition armed (st : state) : timer := if tzero st then TDead else TArmed.

Inductive mmove (st : state) : event -> state -> Prop :=
| mm_sigint_again (Hw : wedged st = false) (Hmid : mid_sigint st = false) (Ha : admin_only st = true) : mmove st Sigint st
| mm_sigint (Hw : wedged st = false) (Hmid : mid_sigint st = false) (Ha : admin_only st = false) :
    mmove st Sigint (mkS true (total st) (tmr st) (exit_q st) (wedged st) (exited st) (queue st)
                         (map (fun c => set_pend c true) (clients st))
                         (tzero st) (qcap st) (leaked st) (zero_sends st) (log st) true (blk st))
| mm_sigterm (Hw : wedged st = false) (Hmid : mid_sigint st = false) : mmove st Sigterm (with_exit st ByTerm)
| mm_accept k m (Hw : wedged st = false) (Hmid : mid_sigint st = false) :
    mmove st (Accept k m) (with_clients st (clients st ++ [mkC k m (admin_only st) Starting false false]))
| mm_zero m q (Hw : wedged st = false) (Hmid : mid_sigint st = false) (Hq : queue st = m :: q)
    (Ht : total st + m = 0) (Ha : admin_only st = true) (He : exit_q st = None) :
    mmove st DrainDeliver (arm st (admin_only st) (total st + m) (tmr st) (Some ByZero) false q (S (zero_sends st)) (mid_sigint st))
| mm_zero_again m q x (Hw : wedged st = false) (Hmid : mid_sigint st = false) (Hq : queue st = m :: q)
    (Ht : total st + m = 0) (Ha : admin_only st = true) (He : exit_q st = Some x) :
    mmove st DrainDeliver (arm st (admin_only st) (total st + m) (tmr st) (Some x) (blk st) q (zero_sends st) (mid_sigint st))
| mm_drain m q (Hw : wedged st = false) (Hmid : mid_sigint st = false) (Hq : queue st = m :: q)
    (Ht : (total st + m =? 0) && admin_only st = false) :
    mmove st DrainDeliver (arm st (admin_only st) (total st + m) (tmr st) (exit_q st) (wedged st) q (zero_sends st) (mid_sigint st))
| mm_timer (Htm : tmr st = TArmed) (He : exit_q st = None) :
    mmove st TimerFire (arm st (admin_only st) (total st) TSent (Some ByTimer) (wedged st) (queue st) (zero_sends st) (mid_sigint st))
| mm_timer_blocked x (Htm : tmr st = TArmed) (He : exit_q st = Some x) :
    mmove st TimerFire (arm st (admin_only st) (total st) TBlocked (Some x) (wedged st) (queue st) (zero_sends st) (mid_sigint st))
| mm_exit x (Hw : wedged st = false) (Hmid : mid_sigint st = false) (He : exit_q st = Some x) : mmove st ExitDeliver (with_exit st x)
| mm_arm_wedge (Hmid : mid_sigint st = true) (Hw : wedged st = false) (Hc : (qcap st <= length (queue st))%nat) (Hb : blk st = true) :
    mmove st SigintQ (arm st (admin_only st) (total st) (tmr st) (exit_q st) true (queue st) (zero_sends st) false)
| mm_arm_full (Hmid : mid_sigint st = true) (Hw : wedged st = false) (Hc : (qcap st <= length (queue st))%nat) (Hb : blk st = false) :
    mmove st SigintQ (arm st (admin_only st) (total st) (armed st) (exit_q st) (wedged st) (queue st) (zero_sends st) false)
| mm_arm (Hmid : mid_sigint st = true) (Hw : wedged st = false) (Hc : (length (queue st) < qcap st)%nat) :
    mmove st SigintQ (arm st (admin_only st) (total st) (armed st) (exit_q st) (wedged st) (queue st ++ [0]) (zero_sends st) false).

Inductive step_spec (st : state) (e : event) : state -> Prop :=
| by_main st' : mmove st e st' -> step_spec st e st'
| by_client i c c' m lk o : nth_error (clients st) i = Some c -> cmove i c e c' m lk o ->
    step_spec st e (act st i c' m lk o).

Lemma step_inv : forall st e st', step st e = Some st' -> step_spec st e st'.
Proof.
  intros st e st' Hs.
  assert (Hcl : forall i c c' m lk o s, nth_error (clients st) i = Some c -> cmove i c e c' m lk o ->
            s = act st i c' m lk o -> Some s = Some st' -> step_spec st e st').
  { intros i c c' m lk o s Hn Hm -> [= <-]. eapply by_client; eauto. }
  destruct st as [ao t tm eq w ex q cs tz cap lkd zs lg mid b]. unfold step in Hs.
  cbn [admin_only total tmr exit_q wedged exited queue clients tzero qcap leaked zero_sends log mid_sigint blk] in Hs, Hcl.
  destruct ex; [discriminate |].
  destruct e.
  1-3, 10-13: apply by_main.
  - destruct w, mid; try discriminate. destruct ao; injection Hs as <-; constructor; reflexivity.
  - destruct w, mid; try discriminate. injection Hs as <-; constructor; reflexivity.
  - destruct w, mid; try discriminate. injection Hs as <-; constructor; reflexivity.
  - destruct w, mid; try discriminate. destruct q as [| m q]; [discriminate |]. cbn [negb main_ok andb wedged mid_sigint] in Hs.
    destruct ((t + m =? 0) && ao) eqn:Ez.
    + apply andb_true_iff in Ez as (Ez & ->). apply Z.eqb_eq in Ez. destruct eq; injection Hs as <-.
      * eapply mm_zero_again; eauto; reflexivity.
      * apply mm_zero; auto.
    + injection Hs as <-. apply mm_drain; auto.
  - destruct tm; try discriminate. destruct eq; injection Hs as <-.
    + eapply mm_timer_blocked; reflexivity.
    + apply mm_timer; reflexivity.
  - destruct w, mid; try discriminate. destruct eq; [| discriminate]. injection Hs as <-. constructor; reflexivity.
  - destruct mid, w; try discriminate. cbn [negb orb] in Hs.
    destruct (cap <=? length q)%nat eqn:Ec; [apply Nat.leb_le in Ec; destruct b | apply Nat.leb_gt in Ec]; injection Hs as <-.
    + apply mm_arm_wedge; auto.
    + apply mm_arm_full; auto.
    + apply mm_arm; auto.
  - destruct (nth_error cs c) as [cl |] eqn:En; [| discriminate].
    destruct (cphase cl) eqn:Ep; try discriminate.
    destruct (ckind cl) eqn:Ek; [destruct (gate cl) eqn:Eg |..].
    1: exact (Hcl _ _ _ _ _ _ _ En (mv_refused c cl ok Ep Ek Eg) eq_refl Hs).
    all: assert (Hm := mv_answered c cl ok Ep); rewrite Ek in Hm;
      destruct ok; refine (Hcl _ _ _ _ _ _ _ En (Hm _) eq_refl Hs); congruence.
  - destruct (nth_error cs c) as [cl |] eqn:En; [| discriminate].
    destruct (ckind cl) eqn:Ek; try discriminate. destruct (cphase cl) eqn:Ep; try discriminate.
    + exact (Hcl _ _ _ _ _ _ _ En (mv_txn_start c cl Ek (or_introl Ep)) eq_refl Hs).
    + exact (Hcl _ _ _ _ _ _ _ En (mv_txn_start c cl Ek (or_intror Ep)) eq_refl Hs).
  - destruct (nth_error cs c) as [cl |] eqn:En; [| discriminate].
    destruct (ckind cl) eqn:Ek; try discriminate; destruct (cphase cl) eqn:Ep; try discriminate;
      refine (Hcl _ _ _ _ _ _ _ En (mv_stmt c cl _) (act_same _ c cl _ _) Hs); try exact En; unfold in_txn_phase; auto.
  - destruct (nth_error cs c) as [cl |] eqn:En; [| discriminate].
    destruct (ckind cl) eqn:Ek; try discriminate. destruct (cphase cl) eqn:Ep; try discriminate.
    exact (Hcl _ _ _ _ _ _ _ En (mv_txn_end c cl Ek Ep) eq_refl Hs).
  - destruct (nth_error cs c) as [cl |] eqn:En; [| discriminate].
    destruct (cphase cl) eqn:Ep; try discriminate. destruct (pend cl) eqn:Epd; [| discriminate].
    destruct (ckind cl) eqn:Ek.
    2: exact (Hcl _ _ _ _ _ _ _ En (mv_poll_admin c cl Ep Epd Ek) eq_refl Hs).
    all: refine (Hcl _ _ _ _ _ _ _ En (mv_kicked c cl Ep Epd _) (depart_act _ c cl Clean _) Hs); congruence.
  - destruct (nth_error cs c) as [cl |] eqn:En; [| discriminate].
    destruct (live_phase (cphase cl)) eqn:Ep; [| discriminate].
    exact (Hcl _ _ _ _ _ _ _ En (mv_leave c cl h Ep) (depart_act _ c cl h _) Hs).
  - destruct (nth_error cs c) as [cl |] eqn:En; [| discriminate].
    destruct (cphase cl) eqn:Ep; try discriminate. destruct (ckind cl) eqn:Ek.
    2: exact (Hcl _ _ _ _ _ _ _ En (mv_enter_admin c cl Ep Ek) eq_refl Hs).
    all: assert (Hm := mv_enter c cl Ep); rewrite Ek in Hm; refine (Hcl _ _ _ _ _ _ _ En (Hm _) eq_refl Hs); discriminate.
Qed.

Lemma mmove_step : forall st e st', mmove st e st' -> exited st = None -> step st e = Some st'.
Proof.
  intros st e st' Hm Hx.
  destruct Hm; try apply Nat.leb_gt in Hc; try apply Nat.leb_le in Hc;
    unfold step, main_ok, arm; rewrite Hx, ?Hw, ?Hmid, ?Hq, ?Htm, ?He, ?Hc; simpl; rewrite ?Ht, ?Ha, ?Hb; try reflexivity.
Qed.

Lemma cmove_step : forall st i c e c' m lk o, nth_error (clients st) i = Some c -> cmove i c e c' m lk o ->
  exited st = None -> step st e = Some (act st i c' m lk o).
Proof.
  intros st i c e c' m lk o Hn Hm Hx. destruct Hm; unfold step; rewrite Hx, Hn.
  - rewrite Hp, Hk, Hg. reflexivity.
  - rewrite Hp. destruct (ckind c); [rewrite Hg by reflexivity |..]; destruct ok; reflexivity.
  - rewrite Hp. destruct (ckind c); [| congruence |]; reflexivity.
  - rewrite Hp, Hk. reflexivity.
  - rewrite Hk. destruct Hp as [Hp | Hp]; rewrite Hp; reflexivity.
  - destruct Hp as [(Hk & [Hp | Hp]) | (Hk & Hp)]; rewrite Hk, Hp; f_equal; apply act_same; assumption.
  - rewrite Hk, Hp. reflexivity.
  - rewrite Hp, Hpd, Hk. reflexivity.
  - rewrite Hp, Hpd. destruct (ckind c); [| congruence |]; f_equal; apply depart_act.
  - rewrite Hl. f_equal. apply depart_act.
Qed.

Definition cl_ok (ao : bool) (c : client) : Prop :=
  (counted c = true -> live_phase (cphase c) = true /\ ckind c <> Admin) /\
  (ckind c = Normal -> live_phase (cphase c) = true -> counted c = true /\ gate c = false) /\
  (ao = true -> ckind c = Normal -> gate c = false -> pend c = true) /\
  (ao = false -> gate c = false /\ pend c = false) /\
  (ckind c = Canc -> cphase c = Starting \/ cphase c = Authed \/ cphase c = InTxn \/ cphase c = Gone) /\
  (ckind c = Admin -> cphase c = Starting \/ cphase c = Authed \/ cphase c = Idle \/ cphase c = Gone) /\
  (ckind c = Normal -> cphase c = Authed -> gate c = false).

Definition clients_ok (st : state) : Prop := Forall (cl_ok (admin_only st)) (clients st).

Lemma cl_ok_not_live : forall ao c, cl_ok ao c -> live_phase (cphase c) = false -> counted c = false.
Proof. intros ao c (H1 & _) Hp. destruct (counted c); auto. destruct (H1 eq_refl) as (Hl & _). congruence. Qed.

(** Closes the clauses of an invariant after a move.  The conjunction is taken apart without entering the
    implications, so a clause whose fields the move left alone is still a hypothesis; the others follow
    by congruence / lia / auto from the facts asserted before the call. *)
Ltac clauses :=
  simpl; repeat match goal with |- _ /\ _ => split | |- _ <-> _ => split end; try assumption;
  intros; repeat split; try congruence; try lia; auto; try (left; congruence); try (right; congruence).

Lemma cl_ok_cmove : forall ao i c e c' m lk o, cl_ok ao c -> cmove i c e c' m lk o -> cl_ok ao c'.
Proof.
  intros ao i c e c' m lk o H Hm. pose proof (cl_ok_not_live _ _ H) as Hn.
  destruct H as (H1 & H2 & H3 & H4 & H5 & H6 & H7). destruct Hm; unfold cl_ok.
  - (* not yet live, so not counted *)
    rewrite Hp in Hn. specialize (Hn eq_refl). clauses.
  - rewrite Hp in Hn. specialize (Hn eq_refl). destruct ok; clauses.
  - (* a normal client that got as far as Authed passed the gate *)
    simpl. destruct (ckind c); clauses.
  - rewrite Hp in Hn. specialize (Hn eq_refl). clauses.
  - (* a live normal client is counted and passed the gate *)
    destruct (H2 Hk) as (Hc & Hg); [destruct Hp as [-> | ->]; reflexivity |]. clauses.
  - clauses.
  - destruct (H2 Hk) as (Hc & Hg); [rewrite Hp; reflexivity |]. simpl. destruct (cmode c); clauses.
  - clauses. apply H4; assumption.
  - clauses.
  - clauses.
Qed.

Lemma cl_ok_put : forall st i v, clients_ok st -> cl_ok (admin_only st) v ->
  clients_ok (put st i v).
Proof. unfold clients_ok, put. simpl. intros. apply Forall_upd_nth; auto. Qed.

Lemma clients_ok_step : forall st e st', clients_ok st -> step st e = Some st' -> clients_ok st'.
Proof.
  intros st e st' Hok Hs. unfold clients_ok in *.
  destruct (step_inv _ _ _ Hs) as [st' Hm | i c c' m lk o Hn Hm].
  - destruct Hm; try exact Hok; simpl.
    + (* the broadcast reaches every client *)
      rewrite Ha in Hok. apply Forall_map. revert Hok. apply Forall_impl.
      intros c (H1 & H2 & _ & _ & H5 & H6 & H7). unfold cl_ok. clauses.
    + apply Forall_app. split; auto. constructor; auto.
      unfold cl_ok. destruct (admin_only st); clauses.
  - simpl. apply Forall_upd_nth; auto. eapply cl_ok_cmove; eauto. eapply Forall_nth_error; eauto.
Qed.

Definition counter_ok (st : state) : Prop :=
  total st + qsum (queue st) = ncounted (clients st) + leaked st /\ 0 <= leaked st.

Lemma cmove_count : forall ao i c e c' m lk o, cl_ok ao c -> cmove i c e c' m lk o ->
  b2z (counted c') + b2z lk = b2z (counted c) + match m with Some z => z | None => 0 end.
Proof.
  intros ao i c e c' m lk o H Hm. destruct Hm; simpl; try lia.
  - rewrite (cl_ok_not_live _ _ H); [simpl; lia | rewrite Hp; reflexivity].
  - unfold bye_msg, bye_leak. destruct (counted c); simpl; lia.
  - unfold bye_msg, bye_leak. destruct (counted c); [destruct h |]; simpl; lia.
Qed.

Lemma counter_ok_step : forall st e st', clients_ok st -> counter_ok st -> step st e = Some st' -> counter_ok st'.
Proof.
  intros st e st' Hok (Hc & Hl) Hs. unfold counter_ok.
  destruct (step_inv _ _ _ Hs) as [st' Hm | i c c' m lk o Hn Hm].
  - destruct Hm; simpl; rewrite ?ncounted_set_pend, ?ncounted_app, ?qsum_app; try rewrite Hq in Hc; simpl in *; lia.
  - pose proof (cmove_count _ _ _ _ _ _ _ _ (Forall_nth_error _ _ _ _ _ Hok Hn) Hm) as Hb.
    simpl. rewrite (ncounted_upd _ _ _ _ Hn). destruct m, lk; rewrite ?qsum_app; simpl in Hb |- *; lia.
Qed.

Definition ctl_ok (st : state) : Prop :=
  ((tmr st <> TNone -> admin_only st = true) /\
   (admin_only st = true -> tmr st <> TNone \/ wedged st = true \/ mid_sigint st = true)) /\
  (tmr st = TSent <-> exit_q st = Some ByTimer) /\
  (tmr st = TBlocked -> exit_q st = Some ByZero) /\
  (exit_q st <> Some ByTerm) /\
  (exit_q st <> None -> admin_only st = true) /\
  (wedged st = true -> admin_only st = true) /\
  (exit_q st = Some ByZero <-> (0 < zero_sends st)%nat) /\
  (forall x, exited st = Some x -> x = ByTerm \/ exit_q st = Some x) /\
  (admin_only st = true -> wedged st = false -> mid_sigint st = false -> (0 < qcap st)%nat -> queue st = [] -> total st = 0 -> exit_q st <> None) /\
  (tzero st = true -> tmr st = TNone \/ tmr st = TDead) /\
  (tzero st = false -> tmr st <> TDead) /\
  (mid_sigint st = true -> admin_only st = true /\ tmr st = TNone /\ exit_q st = None /\ wedged st = false) /\
  (blk st = false -> wedged st = false).

Lemma armed_facts : forall st, ctl_ok st -> tmr st = TArmed ->
  admin_only st = true /\ tzero st = false /\ mid_sigint st = false.
Proof.
  intros st ((A1 & _) & _ & _ & _ & _ & _ & _ & _ & _ & K & _ & M & _) Htm. split; [apply A1; congruence | split].
  - destruct (tzero st); auto. destruct K as [X | X]; auto; congruence.
  - destruct (mid_sigint st); auto. destruct M as (_ & X & _); auto; congruence.
Qed.

Lemma ctl_ok_step : forall st e st', ctl_ok st -> step st e = Some st' -> ctl_ok st'.
Proof.
  intros st e st' H Hs. pose proof H as ((A1 & A2) & (B1 & B2) & C & D & E & F & (G1 & G2) & I & J & K & L & M & N).
  pose proof (step_exited_none _ _ _ Hs) as Hx.
  destruct (step_inv _ _ _ Hs) as [st' Hm | i c c' m lk o Hn Hm]; [destruct Hm |].
  - unfold ctl_ok; clauses.
  - (* Sigint: until now nothing of the shutdown has happened *)
    assert (tmr st = TNone) by (destruct (tmr st); auto; rewrite A1 in Ha; discriminate).
    assert (exit_q st = None) by (destruct (exit_q st); auto; rewrite E in Ha; discriminate).
    unfold ctl_ok; clauses.
  - unfold ctl_ok; clauses.
  - unfold ctl_ok; clauses.
  - assert (tmr st <> TNone) by (destruct (A2 Ha) as [? | [? | ?]]; congruence).
    assert (tmr st <> TSent) by (intro X; apply B1 in X; congruence).
    rewrite He in *. unfold ctl_ok; clauses.
  - assert (tmr st <> TNone) by (destruct (A2 Ha) as [? | [? | ?]]; congruence).
    rewrite He in *. unfold ctl_ok; clauses.
  - assert (admin_only st = true -> total st + m = 0 -> False) by (intros X Y; rewrite X, Y in Ht; discriminate).
    unfold ctl_ok; clauses.
  - destruct (armed_facts _ H Htm) as (Ha & ? & ?).
    assert (~ (0 < zero_sends st)%nat) by (intro X; apply G2 in X; congruence).
    unfold ctl_ok; clauses.
  - destruct (armed_facts _ H Htm) as (Ha & ? & ?).
    assert (x = ByZero) by (destruct x; auto; [elim D | apply B2 in He]; congruence). subst x.
    unfold ctl_ok; clauses.
  - unfold ctl_ok; clauses.
  - destruct (M Hmid) as (Ha & _). unfold ctl_ok; clauses.
  - (* SigintQ on a full channel: [qcap <= 0] is the only way an empty queue is full *)
    destruct (M Hmid) as (Ha & Htm & He & _).
    assert ((0 < qcap st)%nat -> queue st = [] -> False) by (intros X Y; rewrite Y in Hc; simpl in Hc; lia).
    unfold ctl_ok, armed; simpl. destruct (tzero st); clauses.
  - destruct (M Hmid) as (Ha & Htm & He & _).
    assert (queue st ++ [0] = [] -> False) by apply app_one_not_nil.
    unfold ctl_ok, armed; simpl. destruct (tzero st); clauses.
  - (* a client only adds to the drain channel *)
    assert (queue (act st i c' m lk o) = [] -> queue st = [])
      by (destruct m; [intros X; destruct (app_one_not_nil _ _ _ X) | exact (fun X => X)]).
    unfold ctl_ok; clauses.
Qed.

Lemma run_app : forall tr1 tr2 st, run st (tr1 ++ tr2) =
  match run st tr1 with Some st' => run st' tr2 | None => None end.
Proof. induction tr1; simpl; intros; auto. destruct (step st a); auto. Qed.

Lemma run_snoc : forall tr e st st', run st tr = Some st' -> run st (tr ++ [e]) = step st' e.
Proof. intros. rewrite run_app, H. simpl. destruct (step st' e); auto. Qed.

Lemma run_ind : forall s0 (P : list event -> state -> Prop),
  P [] s0 ->
  (forall tr st e st', run s0 tr = Some st -> P tr st -> step st e = Some st' -> P (tr ++ [e]) st') ->
  forall tr st, run s0 tr = Some st -> P tr st.
Proof.
  intros s0 P H0 Hs. induction tr using rev_ind; intros st H.
  - injection H as <-. exact H0.
  - rewrite run_app in H. destruct (run s0 tr) as [s |] eqn:E; [| discriminate]. simpl in H.
    destruct (step s x) eqn:E2; [| discriminate]. injection H as <-. eauto.
Qed.

Lemma run_inv : forall (P : state -> Prop), (forall st e st', P st -> step st e = Some st' -> P st') ->
  forall tr st st', P st -> run st tr = Some st' -> P st'.
Proof. intros P Hs tr st st' H0. apply (run_ind st (fun _ => P)); eauto. Qed.

Lemma reachable_init : forall tz cap b, reachable (init tz cap b).
Proof. intros. exists tz, cap, b, []. reflexivity. Qed.

Lemma reachable_step : forall st e st', reachable st -> step st e = Some st' -> reachable st'.
Proof. intros st e st' (tz & cap & b & tr & H) Hs. exists tz, cap, b, (tr ++ [e]). rewrite (run_snoc _ _ _ _ H). exact Hs. Qed.

Lemma reachable_run : forall tr st st', reachable st -> run st tr = Some st' -> reachable st'.
Proof. exact (run_inv reachable reachable_step). Qed.

Lemma reachable_ind : forall (P : state -> Prop),
  (forall tz cap b, P (init tz cap b)) -> (forall st e st', P st -> step st e = Some st' -> P st') ->
  forall st, reachable st -> P st.
Proof. intros P H0 Hs st (tz & cap & b & tr & H). exact (run_inv P Hs _ _ _ (H0 tz cap b) H). Qed.

Definition Inv (st : state) : Prop := clients_ok st /\ counter_ok st /\ ctl_ok st.

Lemma Inv_init : forall tz cap b, Inv (init tz cap b).
Proof.
  intros. unfold Inv, clients_ok, counter_ok, ctl_ok, init. simpl.
  split; [constructor |]. split; [lia |]. clauses.
Qed.

Lemma Inv_step : forall st e st', Inv st -> step st e = Some st' -> Inv st'.
Proof.
  intros st e st' (A & B & C) Hs. split; [| split].
  - eapply clients_ok_step; eauto.
  - eapply counter_ok_step; eauto.
  - eapply ctl_ok_step; eauto.
Qed.

Lemma reachable_Inv : forall st, reachable st -> Inv st.
Proof. apply reachable_ind. apply Inv_init. apply Inv_step. Qed.

(** * Frame: a step that is not the client's own leaves the client alone *)

Definition actor (e : event) : option nat :=
  match e with
  | AuthDone i _ | TxnStart i | Stmt i | TxnEnd i | Poll i | Leave i _ | Enter i => Some i
  | _ => None
  end.

Lemma cmove_actor : forall i c e c' m lk o, cmove i c e c' m lk o -> actor e = Some i.
Proof. destruct 1; reflexivity. Qed.

Lemma actor_dec : forall e i, actor e = Some i \/ actor e <> Some i.
Proof. intros. destruct (actor e) as [j |]; [destruct (Nat.eq_dec j i); [left | right]; congruence | right; congruence]. Qed.

(** [step_inv] when the event says whose step it is *)
Lemma step_main : forall st e st', step st e = Some st' -> actor e = None -> mmove st e st'.
Proof.
  intros st e st' Hs Ha. destruct (step_inv _ _ _ Hs) as [st' Hm | j cj c' m lk o Hj Hm]; [exact Hm |].
  rewrite (cmove_actor _ _ _ _ _ _ _ Hm) in Ha. discriminate.
Qed.

Lemma step_own : forall st e st' i, step st e = Some st' -> actor e = Some i ->
  exists c c' m lk o, nth_error (clients st) i = Some c /\ cmove i c e c' m lk o /\ st' = act st i c' m lk o.
Proof.
  intros st e st' i Hs Ha. destruct (step_inv _ _ _ Hs) as [st' Hm | j cj c' m lk o Hj Hm].
  - destruct Hm; discriminate.
  - rewrite (cmove_actor _ _ _ _ _ _ _ Hm) in Ha. injection Ha as ->. eauto 8.
Qed.

Definition same_but_pend (c c' : client) : Prop :=
  ckind c' = ckind c /\ cmode c' = cmode c /\ gate c' = gate c /\ cphase c' = cphase c /\ counted c' = counted c.

Lemma same_but_pend_refl : forall c, same_but_pend c c.
Proof. unfold same_but_pend; auto. Qed.

Lemma step_frame : forall st e st' i c, step st e = Some st' -> nth_error (clients st) i = Some c ->
  actor e <> Some i -> exists c', nth_error (clients st') i = Some c' /\ same_but_pend c c'.
Proof.
  intros st e st' i c Hs Hn Ha. destruct (step_inv _ _ _ Hs) as [st' Hm | j cj c' m lk o Hj Hm].
  - destruct Hm; simpl; eauto using same_but_pend_refl.
    + exists (set_pend c true). rewrite nth_error_map, Hn. repeat split.
    + exists c. rewrite nth_error_app1; auto using same_but_pend_refl. apply nth_error_Some. congruence.
  - exists c. rewrite (cmove_actor _ _ _ _ _ _ _ Hm) in Ha. simpl.
    rewrite nth_error_upd_other; auto using same_but_pend_refl; congruence.
Qed.

Definition obs_client (o : obs) : option nat :=
  match o with
  | ORefused j | OAdmitted j | OAuthFail j | OKicked j | OServed j | OLeft j _ => Some j
  | OExit _ => None
  end.

Lemma log_step : forall st e st', step st e = Some st' ->
  log st' = log st \/ exists o, log st' = o :: log st /\ obs_client o = actor e.
Proof.
  intros st e st' Hs. destruct (step_inv _ _ _ Hs) as [st' Hm | i c c' m lk o Hn Hm].
  - destruct Hm; simpl; eauto.
  - destruct Hm; simpl; eauto. destruct (ckind c), ok; simpl; eauto.
Qed.

Definition refused_forever (i : nat) (st : state) : Prop :=
  exists c, nth_error (clients st) i = Some c /\ ckind c = Normal /\ gate c = true /\ counted c = false /\
            (cphase c = Starting \/ cphase c = Gone).

(** observations that would mean the client got anything but the refusal *)
Definition good_for (i : nat) (o : obs) : bool :=
  match o with
  | OAdmitted j | OServed j | OKicked j | OLeft j _ | OAuthFail j => Nat.eqb i j
  | _ => false
  end.

Lemma good_for_other : forall i o, obs_client o <> Some i -> good_for i o = false.
Proof.
  intros i o H. destruct o; simpl in *; auto; apply Nat.eqb_neq; congruence.
Qed.

Lemma refused_step : forall st e st' i, refused_forever i st -> step st e = Some st' ->
  refused_forever i st' /\
  (log st' = log st \/ exists o, log st' = o :: log st /\ good_for i o = false) /\
  (actor e = Some i -> exists ok, e = AuthDone i ok /\ log st' = ORefused i :: log st /\
                                  queue st' = queue st /\ total st' = total st).
Proof.
  intros st e st' i (c & Hn & Ck & Cg & Cc & Cp) Hs.
  destruct (actor_dec e i) as [Ha | Ha].
  - (* the client's own events: only AuthDone is enabled, and it refuses *)
    destruct (step_own _ _ _ _ Hs Ha) as (cj & c' & m & lk & o & Hj & Hm & ->). rewrite Hn in Hj. injection Hj as <-.
    destruct Hm; try (destruct Cp; congruence).
    + split; [| split].
      * exists (set_phase c Gone). simpl. rewrite (nth_error_upd_same _ _ _ _ _ Hn). auto 10.
      * right. eexists. split; reflexivity.
      * intros _. exists ok. simpl. auto.
    + rewrite Hg in Cg by assumption. discriminate.
    + destruct Cp, Hp; congruence.
    + unfold in_txn_phase in Hp. destruct Cp; intuition congruence.
    + destruct Cp as [Cp | Cp]; rewrite Cp in Hl; discriminate.
  - destruct (step_frame _ _ _ _ _ Hs Hn Ha) as (c' & Hn' & (E1 & E2 & E3 & E4 & E5)).
    split; [| split].
    + exists c'. rewrite E1, E3, E4, E5. auto.
    + destruct (log_step _ _ _ Hs) as [Hl | (o & Hl & Ho)]; auto.
      right. exists o. split; auto. apply good_for_other. congruence.
    + intros X. contradiction.
Qed.

Lemma refused_run : forall tr st st' i, refused_forever i st -> run st tr = Some st' ->
  refused_forever i st' /\ exists new, log st' = new ++ log st /\ forallb (fun o => negb (good_for i o)) new = true.
Proof.
  intros tr st st' i H.
  apply (run_inv (fun s => refused_forever i s /\ exists new, log s = new ++ log st /\ forallb (fun o => negb (good_for i o)) new = true)).
  - intros s e s' (Hr & new & Hn & Hf) Hs. destruct (refused_step _ _ _ _ Hr Hs) as (Hr' & Hl & _). split; auto.
    destruct Hl as [Hl | (o & Hl & Ho)]; [exists new | exists (o :: new)]; rewrite Hl, Hn; split; auto.
    simpl. rewrite Ho. exact Hf.
  - split; auto. exists []. auto.
Qed.

Lemma refuse_new : forall st m st1, admin_only st = true -> step st (Accept Normal m) = Some st1 ->
  refused_forever (length (clients st)) st1.
Proof.
  intros st m st1 Ha Hs. pose proof (step_main _ _ _ Hs eq_refl) as Hm. inversion Hm; subst.
  eexists. split; [apply nth_error_snoc |]. simpl. auto.
Qed.

Lemma admin_admitted : forall st m st1, exited st = None -> step st (Accept Admin m) = Some st1 ->
  let i := length (clients st) in
  exists st2, step st1 (AuthDone i true) = Some st2 /\ log st2 = OAdmitted i :: log st1 /\
    exists st2', step st2 (Enter i) = Some st2' /\ log st2' = log st2 /\ queue st2' = queue st2 /\
    exists st3, step st2' (Stmt i) = Some st3 /\ log st3 = OServed i :: log st2'.
Proof.
  intros st m st1 Hx Hs i. pose proof (step_main _ _ _ Hs eq_refl) as Hm. inversion Hm; subst. clear Hs Hm.
  set (c0 := mkC Admin m (admin_only st) Starting false false). set (s1 := with_clients st (clients st ++ [c0])).
  assert (H0 : nth_error (clients s1) i = Some c0) by apply nth_error_snoc.
  set (c1 := set_phase c0 Authed). set (s2 := act s1 i c1 None false (Some (OAdmitted i))).
  assert (H1 : nth_error (clients s2) i = Some c1) by apply (nth_error_upd_same _ _ _ _ _ H0).
  set (c2 := set_phase c1 Idle). set (s3 := act s2 i c2 None false None).
  assert (H2 : nth_error (clients s3) i = Some c2) by apply (nth_error_upd_same _ _ _ _ _ H1).
  exists s2. split.
  { refine (cmove_step s1 i c0 _ _ _ _ _ H0 (mv_answered i c0 true eq_refl _) Hx). discriminate. }
  split; [reflexivity |]. exists s3. split.
  { exact (cmove_step s2 i c1 _ _ _ _ _ H1 (mv_enter_admin i c1 eq_refl eq_refl) Hx). }
  split; [reflexivity |]. split; [reflexivity |]. eexists. split.
  { refine (cmove_step s3 i c2 _ _ _ _ _ H2 (mv_stmt i c2 _) Hx). right. split; reflexivity. }
  reflexivity.
Qed.

Lemma idle_kicked : forall st i c, Inv st -> exited st = None -> admin_only st = true ->
  nth_error (clients st) i = Some c -> ckind c = Normal -> cphase c = Idle ->
  exists st', step st (Poll i) = Some st' /\ log st' = OKicked i :: log st /\
              queue st' = queue st ++ [-1] /\ total st' = total st /\
              exists c', nth_error (clients st') i = Some c' /\ cphase c' = Gone /\ counted c' = false.
Proof.
  intros st i c (Hok & _ & _) Hx Ha Hn Hk Hp.
  pose proof (Forall_nth_error _ _ _ _ _ Hok Hn) as (_ & H2 & H3 & _).
  destruct H2 as (Hc & Hg); [assumption | rewrite Hp; reflexivity |].
  eexists. split.
  { refine (cmove_step _ i c _ _ _ _ _ Hn (mv_kicked i c Hp (H3 Ha Hk Hg) _) Hx). congruence. }
  unfold bye_msg. rewrite Hc. repeat split.
  exists (gone c). simpl. rewrite (nth_error_upd_same _ _ _ _ _ Hn). auto.
Qed.

Lemma no_kick_before_sigint : forall st i, Inv st -> admin_only st = false -> step st (Poll i) = None.
Proof.
  intros st i (Hok & _ & _) Ha. destruct (step st (Poll i)) eqn:Hs; [exfalso | reflexivity].
  destruct (step_own _ _ _ _ Hs eq_refl) as (c & ? & ? & ? & ? & Hn & Hm & _).
  destruct (Forall_nth_error _ _ _ _ _ Hok Hn) as (_ & _ & _ & H4 & _). destruct (H4 Ha). inversion Hm; congruence.
Qed.

(** a kick is always the answer to a poll of an idle non-admin client in admin-only mode *)
Lemma kicked_only_idle : forall st e st' i, Inv st -> step st e = Some st' -> log st' = OKicked i :: log st ->
  e = Poll i /\ admin_only st = true /\
  exists c, nth_error (clients st) i = Some c /\ cphase c = Idle /\ ckind c <> Admin.
Proof.
  intros st e st' i (Hok & _ & _) Hs Hl.
  assert (Hne : log st <> [OKicked i] ++ log st) by (intro X; apply (app_inv_tail _ [] _) in X; discriminate).
  destruct (step_inv _ _ _ Hs) as [st' Hm | j cj c' m lk o Hj Hm]; destruct Hm; simpl in Hl; try discriminate; try contradiction;
    [destruct (ckind cj), ok; try discriminate; contradiction |].
  injection Hl as <-. split; [reflexivity |]. split; [| eauto].
  destruct (Forall_nth_error _ _ _ _ _ Hok Hj) as (_ & _ & _ & H4 & _).
  destruct (admin_only st); auto. destruct H4; congruence.
Qed.

Lemma txn_not_polled : forall st i c, nth_error (clients st) i = Some c -> in_txn_phase (cphase c) ->
  step st (Poll i) = None.
Proof.
  intros st i c Hn Hp. destruct (step st (Poll i)) eqn:Hs; [exfalso | reflexivity].
  destruct (step_own _ _ _ _ Hs eq_refl) as (cj & ? & ? & ? & ? & Hj & Hm & _). rewrite Hn in Hj. injection Hj as <-.
  inversion Hm; destruct Hp; congruence.
Qed.

Lemma txn_served : forall st i c, exited st = None -> nth_error (clients st) i = Some c -> ckind c = Normal ->
  in_txn_phase (cphase c) -> step st (Stmt i) = Some (with_log st (OServed i)).
Proof.
  intros st i c Hx Hn Hk Hp. rewrite (act_same st i c _ Hn). apply (cmove_step st i c); auto. apply mv_stmt. auto.
Qed.

Lemma txn_commit_served : forall st i c, exited st = None -> nth_error (clients st) i = Some c ->
  ckind c = Normal -> cphase c = InTxn ->
  exists st', step st (TxnEnd i) = Some st' /\ log st' = OServed i :: log st /\ queue st' = queue st.
Proof.
  intros st i c Hx Hn Hk Hp. eexists. split; [exact (cmove_step _ i c _ _ _ _ _ Hn (mv_txn_end i c Hk Hp) Hx) |].
  split; reflexivity.
Qed.

Lemma txn_undisturbed : forall st e st' i c, step st e = Some st' -> nth_error (clients st) i = Some c ->
  cphase c = InTxn ->
  (exists c', nth_error (clients st') i = Some c' /\ cphase c' = InTxn /\ counted c' = counted c) \/
  e = TxnEnd i \/ (exists h, e = Leave i h).
Proof.
  intros st e st' i c Hs Hn Cp.
  destruct (actor_dec e i) as [Ha | Ha].
  - destruct (step_own _ _ _ _ Hs Ha) as (cj & c' & m & lk & o & Hj & Hm & ->). rewrite Hn in Hj. injection Hj as <-.
    destruct Hm; eauto; try congruence; [destruct Hp; congruence |].
    left. exists c. simpl. rewrite (nth_error_upd_same _ _ _ _ _ Hn). auto.
  - left. destruct (step_frame _ _ _ _ _ Hs Hn Ha) as (c' & Hn' & (_ & _ & _ & E4 & E5)).
    exists c'. rewrite E4, E5. auto.
Qed.

Lemma exit_step : forall st e st' x, step st e = Some st' -> exited st' = Some x ->
  (e = Sigterm /\ x = ByTerm) \/ (e = ExitDeliver /\ exit_q st = Some x).
Proof.
  intros st e st' x Hs Hx. pose proof (step_exited_none _ _ _ Hs) as H0.
  destruct (step_inv _ _ _ Hs) as [st' Hm | j cj c' m lk o Hj Hm]; [destruct Hm |]; simpl in Hx; try congruence.
  - left. split; congruence.
  - right. split; congruence.
Qed.

Lemma exitq_step : forall st e st' x, step st e = Some st' -> exit_q st = None -> exit_q st' = Some x ->
  (e = DrainDeliver /\ x = ByZero /\ admin_only st' = true /\ total st' = 0) \/
  (e = TimerFire /\ x = ByTimer /\ tmr st = TArmed).
Proof.
  intros st e st' x Hs H0 Hx.
  destruct (step_inv _ _ _ Hs) as [st' Hm | j cj c' m lk o Hj Hm]; [destruct Hm |]; simpl in Hx; try congruence; injection Hx as <-; auto.
Qed.

Lemma exitq_mono : forall st e st' x, step st e = Some st' -> exit_q st = Some x -> exit_q st' = Some x.
Proof.
  intros st e st' x Hs H0.
  destruct (step_inv _ _ _ Hs) as [st' Hm | j cj c' m lk o Hj Hm]; [destruct Hm |]; simpl; congruence.
Qed.

Lemma admin_only_step : forall st e st', step st e = Some st' -> admin_only st' = true ->
  admin_only st = true \/ e = Sigint.
Proof.
  intros st e st' Hs H1.
  destruct (step_inv _ _ _ Hs) as [st' Hm | j cj c' m lk o Hj Hm]; [destruct Hm |]; auto.
Qed.

Lemma admin_only_needs_sigint : forall tz cap b tr st, run (init tz cap b) tr = Some st -> admin_only st = true -> In Sigint tr.
Proof.
  intros tz cap b. apply (run_ind _ (fun tr st => admin_only st = true -> In Sigint tr)); [discriminate |].
  intros tr st e st' _ IH Hs Ha. apply in_or_app.
  destruct (admin_only_step _ _ _ Hs Ha) as [H | ->]; [left | right; simpl]; auto.
Qed.

(** where the message in the exit channel came from *)
Definition exitq_origin (tz : bool) (cap : nat) (b : bool) (tr : list event) (x : cause) : Prop :=
  match x with
  | ByTerm => False
  | ByZero => exists tr1 tr2 s1, tr = tr1 ++ DrainDeliver :: tr2 /\ run (init tz cap b) (tr1 ++ [DrainDeliver]) = Some s1 /\
                                 admin_only s1 = true /\ total s1 = 0
  | ByTimer => exists tr1 tr2, tr = tr1 ++ TimerFire :: tr2 /\ In Sigint tr1
  end.

Lemma exitq_origin_snoc : forall tz cap b tr x e, exitq_origin tz cap b tr x -> exitq_origin tz cap b (tr ++ [e]) x.
Proof.
  intros tz cap b tr x e H. destruct x; simpl in *; auto.
  - destruct H as (tr1 & tr2 & s1 & -> & H). exists tr1, (tr2 ++ [e]), s1. rewrite <- app_assoc. auto.
  - destruct H as (tr1 & tr2 & -> & H). exists tr1, (tr2 ++ [e]). rewrite <- app_assoc. auto.
Qed.

Lemma exitq_has_origin : forall tz cap b tr st x, run (init tz cap b) tr = Some st -> exit_q st = Some x -> exitq_origin tz cap b tr x.
Proof.
  intros tz cap b tr st x Hr. revert x.
  apply (run_ind _ (fun tr st => forall x, exit_q st = Some x -> exitq_origin tz cap b tr x)) with (3 := Hr); [discriminate |].
  clear. intros tr s e st Hr IH Es y Hq.
  destruct (exit_q s) eqn:Eq.
  - rewrite (exitq_mono _ _ _ _ Es Eq) in Hq. injection Hq as <-. apply exitq_origin_snoc. auto.
  - destruct (exitq_step _ _ _ _ Es Eq Hq) as [(-> & -> & Ha & Ht) | (-> & -> & Ht)].
    + exists tr, [], st. repeat split; auto. rewrite (run_snoc _ _ _ _ Hr). exact Es.
    + exists tr, []. split; auto. apply (admin_only_needs_sigint _ _ _ _ _ Hr).
      destruct (reachable_Inv s) as (_ & _ & (A & _)). { exists tz, cap, b, tr. exact Hr. } apply A. congruence.
Qed.

Definition exit_origin (tz : bool) (cap : nat) (b : bool) (tr : list event) (x : cause) : Prop :=
  match x with
  | ByTerm => In Sigterm tr
  | _ => In ExitDeliver tr /\ exitq_origin tz cap b tr x
  end.

Lemma exit_has_origin : forall tz cap b tr st x, run (init tz cap b) tr = Some st -> exited st = Some x -> exit_origin tz cap b tr x.
Proof.
  intros tz cap b tr st x Hr. revert x.
  apply (run_ind _ (fun tr st => forall x, exited st = Some x -> exit_origin tz cap b tr x)) with (3 := Hr); [discriminate |].
  clear. intros tr s e st Hr _ Es y Hx.
  destruct (exit_step _ _ _ _ Es Hx) as [(-> & ->) | (-> & Hq)].
  - simpl. apply in_or_app. right. simpl. auto.
  - pose proof (exitq_origin_snoc _ _ _ _ _ ExitDeliver (exitq_has_origin _ _ _ _ _ _ Hr Hq)) as Ho.
    destruct y; simpl in *; try contradiction; (split; [apply in_or_app; right; simpl; auto | exact Ho]).
Qed.

Lemma sigterm_immediate : forall st, exited st = None -> main_ok st = true ->
  step st Sigterm = Some (with_exit st ByTerm).
Proof. intros st Hx Hw. apply main_ok_split in Hw as (Hw & Hm). apply mmove_step; auto. constructor; auto. Qed.

Lemma double_sigint_ignored : forall st, exited st = None -> main_ok st = true -> admin_only st = true ->
  step st Sigint = Some st.
Proof. intros st Hx Hw Ha. apply main_ok_split in Hw as (Hw & Hm). apply mmove_step; auto. constructor; auto. Qed.

Lemma exit_deliver_enabled : forall st x, exited st = None -> main_ok st = true -> exit_q st = Some x ->
  step st ExitDeliver = Some (with_exit st x).
Proof. intros st x Hx Hw Hq. apply main_ok_split in Hw as (Hw & Hm). apply mmove_step; auto. constructor; auto. Qed.

Lemma timer_forces_exit : forall st, Inv st -> exited st = None -> main_ok st = true ->
  admin_only st = true -> tzero st = false ->
  exists tr st', (tr = [TimerFire; ExitDeliver] \/ tr = [ExitDeliver]) /\ run st tr = Some st' /\
                 exists x, exited st' = Some x /\ x <> ByTerm.
Proof.
  intros st (_ & _ & ((_ & A2) & (B & _) & C & D & _ & _ & _ & _ & _ & _ & L & _)) Hx Hm Ha Htz.
  destruct (proj1 (main_ok_split st) Hm) as (Hw & Hmid).
  destruct (exit_q st) as [x |] eqn:Eq.
  - exists [ExitDeliver], (with_exit st x). split; [auto |]. simpl. rewrite (exit_deliver_enabled _ _ Hx Hm Eq).
    split; [reflexivity |]. exists x. split; [reflexivity | congruence].
  - (* the channel is empty, so the timer has neither sent nor found it full: it is still to fire *)
    assert (Et : tmr st = TArmed)
      by (destruct (tmr st); auto; [destruct (A2 Ha) as [X | [X | X]]; congruence | discriminate (B eq_refl) |
                                     discriminate (C eq_refl) | elim (L Htz eq_refl)]).
    set (s1 := arm st (admin_only st) (total st) TSent (Some ByTimer) (wedged st) (queue st) (zero_sends st) (mid_sigint st)).
    exists [TimerFire; ExitDeliver], (with_exit s1 ByTimer). split; [auto |]. simpl.
    rewrite (mmove_step _ _ _ (mm_timer st Et Eq) Hx). fold s1. rewrite (exit_deliver_enabled s1 ByTimer Hx Hm eq_refl).
    split; [reflexivity |]. exists ByTimer. split; [reflexivity | discriminate].
Qed.

Lemma drain_enabled : forall st m q, exited st = None -> main_ok st = true -> queue st = m :: q ->
  exists st', step st DrainDeliver = Some st' /\ queue st' = q /\ clients st' = clients st /\ leaked st' = leaked st /\
              admin_only st' = admin_only st /\ exited st' = None /\ mid_sigint st' = mid_sigint st /\ qcap st' = qcap st.
Proof.
  intros st m q Hx Hw Hq. apply main_ok_split in Hw as (Hw & Hm).
  destruct ((total st + m =? 0) && admin_only st) eqn:Ez;
    [apply andb_true_iff in Ez as (Ez & Ha); apply Z.eqb_eq in Ez; destruct (exit_q st) eqn:He |];
    eexists; (split; [apply mmove_step; [| exact Hx] |]).
  1: eapply mm_zero_again; eauto. 2: eapply mm_zero; eauto. 3: eapply mm_drain; eauto.
  all: simpl; auto 10.
Qed.

(** once every counted client has left (and none died in a panic) the main loop, by delivering what
    is still in the drain channel, gets its exit message — unless it wedges on the way *)
Lemma all_left_exits : forall n st, Inv st -> length (queue st) = n -> exited st = None -> main_ok st = true ->
  (0 < qcap st)%nat -> admin_only st = true -> ncounted (clients st) = 0 -> leaked st = 0 ->
  exists k st', (k <= n)%nat /\ run st (repeat DrainDeliver k) = Some st' /\
                (wedged st' = true \/
                 exists x st'', x <> ByTerm /\ step st' ExitDeliver = Some st'' /\ exited st'' = Some x).
Proof.
  induction n; intros st HI Hlen Hx Hm Hcap Ha Hn Hl.
  - destruct (queue st) eqn:Eq; try discriminate.
    exists 0%nat, st. split; auto. split; auto. right.
    destruct (proj1 (main_ok_split st) Hm) as (Hw & Hmid).
    destruct HI as (_ & (Hc & _) & (_ & _ & _ & D & _ & _ & _ & _ & J & _)).
    rewrite Eq in Hc. simpl in Hc.
    assert (Hq : exit_q st <> None) by (apply J; auto; lia).
    destruct (exit_q st) eqn:Eq2; try congruence.
    exists c. eexists. split. { intro; subst; apply D; auto. }
    rewrite (exit_deliver_enabled _ _ Hx Hm Eq2). split; eauto.
  - destruct (queue st) as [| m q] eqn:Eq; try discriminate.
    destruct (drain_enabled _ _ _ Hx Hm Eq) as (st1 & Hs & Hq1 & Hc1 & Hl1 & Ha1 & Hx1 & Hm1 & Hcap1).
    apply main_ok_split in Hm as (Hw & Hmid).
    destruct (wedged st1) eqn:Hw1.
    + exists 1%nat, st1. split; [lia |]. simpl. rewrite Hs. auto.
    + destruct (IHn st1) as (k & st' & Hk & Hr & Hres); try congruence.
      * eapply Inv_step; eauto.
      * rewrite Hq1. simpl in Hlen. lia.
      * apply main_ok_split. split; congruence.
      * exists (S k), st'. split; [lia |]. simpl. rewrite Hs. auto.
Qed.

Lemma r_all_left_exits : forall st, reachable st -> exited st = None -> main_ok st = true ->
  (0 < qcap st)%nat -> admin_only st = true -> ncounted (clients st) = 0 -> leaked st = 0 ->
  exists k st', (k <= length (queue st))%nat /\ run st (repeat DrainDeliver k) = Some st' /\
                (wedged st' = true \/
                 exists x st'', x <> ByTerm /\ step st' ExitDeliver = Some st'' /\ exited st'' = Some x).
Proof. intros st H. apply all_left_exits; auto. apply reachable_Inv. exact H. Qed.

Lemma wedge_forever_step : forall st e st', wedged st = true -> step st e = Some st' ->
  wedged st' = true /\ exited st' = None.
Proof.
  intros st e st' H1 Hs. pose proof (step_exited_none _ _ _ Hs) as Hx.
  destruct (step_inv _ _ _ Hs) as [st' Hm | j cj c' m lk o Hj Hm]; [destruct Hm |]; simpl; auto; congruence.
Qed.

Lemma wedge_forever : forall tr st st', wedged st = true -> exited st = None -> run st tr = Some st' ->
  wedged st' = true /\ exited st' = None.
Proof.
  intros tr st st' Hw Hx. apply (run_inv (fun s => wedged s = true /\ exited s = None)); [| auto].
  intros s e s' (A & _) Hs. exact (wedge_forever_step _ _ _ A Hs).
Qed.

Lemma leak_no_zero : forall st st', Inv st -> 0 < leaked st -> no_pos (queue st) = true ->
  step st DrainDeliver = Some st' ->
  0 < total st' /\ exit_q st' = exit_q st /\ wedged st' = wedged st /\ zero_sends st' = zero_sends st.
Proof.
  intros st st' (_ & (Hc & _) & _) Hl Hnp Hs.
  assert (forall m q, queue st = m :: q -> 0 < total st + m) as T.
  { intros m q Hq. rewrite Hq in Hc, Hnp. simpl in Hc, Hnp. apply andb_true_iff in Hnp as (Hm & Hnp). apply Z.leb_le in Hm.
    pose proof (no_pos_qsum _ Hnp). pose proof (ncounted_nonneg (clients st)). lia. }
  pose proof (step_main _ _ _ Hs eq_refl) as Hm. inversion Hm; subst; simpl; try (specialize (T _ _ Hq); lia).
  eauto.
Qed.

Definition admits (e : event) : bool := match e with Enter _ => true | _ => false end.

Lemma leak_preserved : forall st e st', step st e = Some st' -> 0 < leaked st -> no_pos (queue st) = true ->
  admits e = false -> 0 < leaked st' /\ no_pos (queue st') = true.
Proof.
  intros st e st' Hs Hl Hnp He.
  destruct (step_inv _ _ _ Hs) as [st' Hm | j cj c' m lk o Hj Hm]; [destruct Hm | destruct Hm; try discriminate He]; simpl; rewrite ?no_pos_app, ?Hnp; auto.
  1-3: rewrite Hq in Hnp; simpl in Hnp; apply andb_true_iff in Hnp as (_ & Hnp); auto.
  all: unfold bye_msg, bye_leak; destruct (counted cj); try destruct h; rewrite ?no_pos_app, ?Hnp; split; auto; lia.
Qed.

Lemma zero_sends_step : forall st e st', step st e = Some st' -> e <> DrainDeliver -> zero_sends st' = zero_sends st.
Proof.
  intros st e st' Hs Hne.
  destruct (step_inv _ _ _ Hs) as [st' Hm | j cj c' m lk o Hj Hm]; [destruct Hm |]; simpl; congruence.
Qed.

(** after a counted client died in a panic — and once every +1 has been delivered — the main loop
    never again sees the count at zero, whatever happens, as long as nobody new is admitted *)
Lemma panic_leaks_counter : forall tr st st', Inv st -> 0 < leaked st -> no_pos (queue st) = true ->
  forallb (fun e => negb (admits e)) tr = true -> run st tr = Some st' ->
  zero_sends st' = zero_sends st /\ 0 < leaked st' /\ (queue st' = [] -> 0 < total st').
Proof.
  intros tr st st' HI Hl Hnp Hf Hr.
  assert (Q : Inv st' /\ 0 < leaked st' /\ no_pos (queue st') = true /\ zero_sends st' = zero_sends st).
  { revert Hf. apply (run_ind st (fun tr s => forallb (fun e => negb (admits e)) tr = true ->
        Inv s /\ 0 < leaked s /\ no_pos (queue s) = true /\ zero_sends s = zero_sends st)) with (3 := Hr); [auto |].
    intros tr0 s e s' _ IH Hs Hf. rewrite forallb_app in Hf. apply andb_true_iff in Hf as (Hf & He).
    simpl in He. rewrite andb_true_r in He. apply negb_true_iff in He.
    destruct (IH Hf) as (I1 & L1 & N1 & Z1). destruct (leak_preserved _ _ _ Hs L1 N1 He).
    split; [eapply Inv_step; eauto | split; [assumption | split; [assumption |]]]. rewrite <- Z1.
    assert (Hd : e = DrainDeliver \/ e <> DrainDeliver) by (destruct e; auto; right; discriminate).
    destruct Hd as [-> | Hd]; [apply (leak_no_zero _ _ I1 L1 N1 Hs) | exact (zero_sends_step _ _ _ Hs Hd)]. }
  destruct Q as ((_ & (Hc & _) & _) & L & _ & Z). split; [exact Z | split; [exact L |]].
  intros Hq. rewrite Hq in Hc. simpl in Hc. pose proof (ncounted_nonneg (clients st')). lia.
Qed.

(** * shutdown_timeout = 0: the timer task dies at once *)

Lemma tzero_no_timer : forall st, Inv st -> tzero st = true -> step st TimerFire = None.
Proof.
  intros st (_ & _ & (_ & _ & _ & _ & _ & _ & _ & _ & _ & K & _)) Htz.
  destruct (step st TimerFire) eqn:Hs; [exfalso | reflexivity].
  pose proof (step_main _ _ _ Hs eq_refl) as Hm. inversion Hm; subst; destruct (K Htz); congruence.
Qed.

(** * The code as it is ([blk = false]): the main loop never waits on a channel it reads itself *)

Lemma blk_step : forall st e st', step st e = Some st' -> blk st' = blk st /\ tzero st' = tzero st.
Proof.
  intros st e st' Hs.
  destruct (step_inv _ _ _ Hs) as [st' Hm | j cj c' m lk o Hj Hm]; [destruct Hm |]; simpl; auto.
Qed.

Lemma blk_run : forall tr st st', run st tr = Some st' -> blk st' = blk st /\ tzero st' = tzero st.
Proof.
  intros tr st st'. apply (run_inv (fun s => blk s = blk st /\ tzero s = tzero st)); [| auto].
  intros s e s' (A & B) Hs. destruct (blk_step _ _ _ Hs). split; congruence.
Qed.

Lemma never_wedged : forall st, reachable st -> blk st = false -> wedged st = false.
Proof.
  intros st H Hb. destruct (reachable_Inv _ H) as (_ & _ & (_ & _ & _ & _ & _ & _ & _ & _ & _ & _ & _ & _ & N)). exact (N Hb).
Qed.

(** LIVENESS, unguarded: in admin-only mode the process can always get out — by the timer at the latest,
    whatever the clients do and wherever the main loop is *)
Lemma exit_liveness : forall st, reachable st -> blk st = false -> tzero st = false -> exited st = None ->
  admin_only st = true ->
  exists tr' st', run st tr' = Some st' /\ exists x, exited st' = Some x /\ x <> ByTerm.
Proof.
  intros st Hr Hb Htz Hx Ha.
  pose proof (never_wedged _ Hr Hb) as Hw. pose proof (reachable_Inv _ Hr) as HI.
  destruct (mid_sigint st) eqn:Hm.
  - (* the SIGINT arm ends by itself, whether or not the drain channel has room for its 0 *)
    assert (M : exists q, mmove st SigintQ (arm st (admin_only st) (total st) (armed st) (exit_q st) (wedged st) q (zero_sends st) false)).
    { destruct (le_lt_dec (qcap st) (length (queue st))) as [Hc | Hc]; eexists;
        [exact (mm_arm_full st Hm Hw Hc Hb) | exact (mm_arm st Hm Hw Hc)]. }
    destruct M as (q & M). pose proof (mmove_step _ _ _ M Hx) as Hs.
    destruct (timer_forces_exit _ (Inv_step _ _ _ HI Hs)) as (tr & st' & _ & Hrun & Hy);
      [exact Hx | unfold main_ok; simpl; rewrite Hw; reflexivity | exact Ha | exact Htz |].
    exists (SigintQ :: tr), st'. split; [simpl; rewrite Hs; exact Hrun | exact Hy].
  - destruct (timer_forces_exit st HI Hx) as (tr & st' & _ & Hrun & Hy); [apply main_ok_split | ..]; eauto.
Qed.

(** * The wedge schedules: MUTANT [blk = true] = the code before commit 74943d0 *)

(** W1: a client's -1 is still in flight when SIGINT arrives; it brings the count to zero (exit
    message #1), then the queued 0 is delivered before the exit arm is polled. *)
Definition wedge_inflight : list event :=
  [Accept Normal TxnMode; AuthDone 0 true; Enter 0; DrainDeliver; Leave 0 Clean; Sigint; SigintQ; DrainDeliver; DrainDeliver; TimerFire].

(** W1': ONE idle client and nothing else.  SIGINT: the broadcast goes out, the client (on another
    worker thread) is told to go and sends its -1 before the SIGINT arm has queued its 0; -1 makes the
    count zero (exit message #1), the 0 is delivered before the exit arm is polled.  Reproduced on the
    real binary (about 1 run in 40 on a loaded machine). *)
Definition wedge_overtake : list event :=
  [Accept Normal TxnMode; AuthDone 0 true; Enter 0; DrainDeliver; Sigint; Poll 0; SigintQ; DrainDeliver; DrainDeliver; TimerFire].

(** W2: nobody connected; after the zero a cancel request (+1, -1) is delivered first. *)
Definition wedge_cancel : list event :=
  [Sigint; SigintQ; DrainDeliver; Accept Canc TxnMode; AuthDone 0 true; Enter 0; Leave 0 Clean; DrainDeliver; DrainDeliver; TimerFire].

(* The runs are evaluated once, on the fields asked about only: the state itself carries [qcap] = 2048 in unary. *)
Lemma wedge_witness : forall tr, (tr = wedge_inflight \/ tr = wedge_cancel \/ tr = wedge_overtake) ->
  exists st, run (init false 2048 true) tr = Some st /\ wedged st = true /\ all_gone st = true /\ tmr st = TBlocked /\
             total st = 0 /\ queue st = [] /\ exited st = None.
Proof.
  intros tr Htr.
  assert (H : option_map (fun st => (wedged st, all_gone st, tmr st, total st, queue st, exited st))
                (run (init false 2048 true) tr) = Some (true, true, TBlocked, 0, [], None))
    by (destruct Htr as [-> | [-> | ->]]; vm_compute; reflexivity).
  destruct (run (init false 2048 true) tr) as [st |]; [| discriminate].
  injection H as H1 H2 H3 H4 H5 H6. exists st. auto 10.
Qed.

(** W3: SIGINT on a full drain channel.  1024 cancel requests (or connect/disconnect pairs) whose
    +1/-1 the main loop has not received yet fill the 2048 slots ([qcap]); the SIGINT arm's own
    [drain_tx.send(0).await] then waits for a receiver that is the suspended loop itself.  The
    broadcast has been sent, the timer task has not been spawned: no timeout either. *)
Definition cancel_burst (n : nat) : list event :=
  flat_map (fun i => [Accept Canc TxnMode; AuthDone i true; Enter i; Leave i Clean]) (seq 0 n).

(* the witness is computed for a channel of 64 slots (32 requests); the schedule is the same for 2048 *)
Definition wedge_full_cap : nat := 64.
Definition wedge_full : list event := cancel_burst 32 ++ [Sigint; SigintQ].

Lemma wedge_full_witness : exists st, run (init false wedge_full_cap true) wedge_full = Some st /\ wedged st = true /\
  all_gone st = true /\ tmr st = TNone /\ admin_only st = true /\ exited st = None /\ length (queue st) = wedge_full_cap /\
  step st TimerFire = None.
Proof.
  assert (H : option_map (fun st => (wedged st, all_gone st, tmr st, admin_only st, exited st, length (queue st), step st TimerFire))
                (run (init false wedge_full_cap true) wedge_full) = Some (true, true, TNone, true, None, wedge_full_cap, None))
    by (vm_compute; reflexivity).
  destruct (run (init false wedge_full_cap true) wedge_full) as [st |]; [| discriminate].
  injection H as H1 H2 H3 H4 H5 H6 H7. exists st. auto 10.
Qed.

Lemma wedged_no_timer_step : forall st e st', wedged st = true -> tmr st = TNone -> step st e = Some st' -> tmr st' = TNone.
Proof.
  intros st e st' H1 Ht Hs.
  destruct (step_inv _ _ _ Hs) as [st' Hm | j cj c' m lk o Hj Hm]; [destruct Hm |]; simpl; congruence.
Qed.

Lemma wedged_no_timer : forall tr st st', wedged st = true -> tmr st = TNone -> run st tr = Some st' -> tmr st' = TNone.
Proof.
  intros tr st st' Hw Ht Hr. apply (run_inv (fun s => wedged s = true /\ tmr s = TNone) ) with (st' := st') in Hr; [apply Hr | | auto].
  intros s e s' (A & B) Hs. split; [apply (wedge_forever_step _ _ _ A Hs) | exact (wedged_no_timer_step _ _ _ A B Hs)].
Qed.

(** E1: a client has its ReadyForQuery (it has been TOLD it is connected, and may already have sent
    BEGIN) but its task has not sent the +1 yet when SIGINT is handled: the 0 finds the count at zero and
    the process exits under it — at once, not at shutdown_timeout.  Reproduced on the real binary
    (connect, then SIGINT immediately: about 1 run in 20). *)
Definition exit_under_admitted : list event :=
  [Accept Normal TxnMode; AuthDone 0 true; Sigint; SigintQ; DrainDeliver; ExitDeliver].

