(** C12 — a client's session parameters follow it across server connections.
    Property theorems only: each follows in a line from the lemmas of LexProofs.v and Proofs.v
    and is audited with [Print Assumptions]; [Example]s are refutation witnesses (the guards are needed) and
    non-vacuity checks, all by computation. *)
From Coq Require Import NArith List Bool String Permutation.
From PV Require Import Params.Lex Params.LexProofs Params.Model Params.Proofs.
Import ListNotations.
Local Open Scope N_scope.

(** ** Byte level: quoting and PostgreSQL's lexer *)

(** The heart: every value survives [quote_literal] + PostgreSQL's literal lexer, whether
    standard_conforming_strings is on or off. *)
Theorem c12_quote_roundtrip : forall scs_off v, no_nul v = true ->
  lex_literal scs_off (quote_literal v) = Some (v, []).
Proof. intros scs_off v _. apply quote_roundtrip. Qed.
Print Assumptions c12_quote_roundtrip.

(** Hence the two modes agree: a batch that changes standard_conforming_strings and sets a value
    with a backslash reads the same in either statement order. *)
Theorem c12_quote_mode_independent : forall v,
  lex_literal true (quote_literal v) = lex_literal false (quote_literal v).
Proof. exact quote_mode_independent. Qed.
Print Assumptions c12_quote_mode_independent.

(** The Query message pgcat sends for n differences is read by the backend as exactly those n
    SET statements, whatever the values contain and in both modes. *)
Theorem c12_no_injection : forall scs_off d, keys_ok d = true -> vals_ok d = true ->
  apply_set_batch scs_off (on_wire (gen_batch d)) = Some d.
Proof. exact no_injection_wire. Qed.
Print Assumptions c12_no_injection.

(** HashMap iteration order: any permutation of the differences yields a batch that is read as
    that permutation and leaves every GUC with the same value. *)
Theorem c12_batch_order_irrelevant : forall scs d d', Permutation d d' -> keys_ok d = true ->
  NoDup (map fst d) ->
  apply_set_batch scs (gen_batch d') = Some d' /\
  forall m k, pget k (pset_all m d') = pget k (pset_all m d).
Proof. exact batch_order. Qed.
Print Assumptions c12_batch_order_irrelevant.

(** Regression: the quoting used before the repair (F6, [format!("'{}'", v)]). *)
Example c12_old_quote_breaks :
  apply_set_batch false (old_batch [(K_app, B "it's")]) = None.
Proof. vm_compute. reflexivity. Qed.

Example c12_old_quote_injects :
  split_stmts false (old_batch [(K_app, B "x'; DROP TABLE t; --")]) =
  Some [B "SET application_name TO 'x'"; B " DROP TABLE t"].
Proof. vm_compute. reflexivity. Qed.

Example c12_new_quote_same_values :
  apply_set_batch false (gen_batch [(K_app, B "it's"); (K_tz, B "x'; DROP TABLE t; --"); (K_date, B "a\b'c")]) =
    Some [(K_app, B "it's"); (K_tz, B "x'; DROP TABLE t; --"); (K_date, B "a\b'c")] /\
  apply_set_batch true (gen_batch [(K_scs, B "off"); (K_app, B "a\\b''\")]) =
    Some [(K_scs, B "off"); (K_app, B "a\\b''\")].
Proof. vm_compute. split; reflexivity. Qed.

(** ** Session level.  [valid] = the backend's own check of a value, [bdef] = its session
    defaults, [hb] = what pool.rs has_broken answers for a connection returned without
    check-in, [bdefs s] = the session defaults and read-only reports of the backend behind
    server connection s (servers of a pool - primary, replicas - and even connections of one
    server may differ in tracked defaults and in server_version, in_hot_standby, ...), [psrc] =
    the connection whose reports became the pool's snapshot, [session c] = client c's pool is in session mode (the server is kept from the
    first message until the client leaves) - any assignment of modes to clients, so both
    transaction-mode and session-mode pools (and mixtures) are covered.  All of them are
    arbitrary; the hypotheses are stated. *)

(** Before each of a client's messages reaches a server connection, that connection's values of
    the five tracked parameters equal the client's map — for every history of connects, queries
    (any statements, any values), disconnects and aborted client tasks, any number of clients
    and server connections.  Needs: every tracked startup value is one the backend accepts
    ([startup_valid], see [c12_invalid_startup_refuted]) and C02's hand-off rule ([hb]). *)
Theorem c12_synced_before_statement : forall valid bdefs psrc hb session,
  (forall s, bdef_ok valid (bdefs s) = true) -> (forall p, is_unclean p = true -> hb p = true) ->
  forall ops, startup_valid valid ops = true ->
  forall c s co dk bv cv evv,
    In (EvStmt c s co dk bv cv evv) (w_log (run valid bdefs psrc hb session ops)) -> bv = cv.
Proof. exact synced_before_statement. Qed.
Print Assumptions c12_synced_before_statement.

(** The ParameterStatus frames sent at startup are the client's map, and every later forwarded
    frame keeps "what the client was told" equal to the client's map on the tracked keys. *)
Theorem c12_client_told_same : forall valid bdefs psrc hb session,
  (forall s, bdef_ok valid (bdefs s) = true) -> (forall p, is_unclean p = true -> hb p = true) ->
  (forall w c raw ps, w_cli w c = None -> startup_decode raw = Some ps ->
     exists cl, w_cli (step valid bdefs psrc hb session w (OConnect c raw)) c = Some cl /\ c_told cl = c_map cl /\
                c_map cl = set_from_list (wpool bdefs psrc) ps false /\
                w_log (step valid bdefs psrc hb session w (OConnect c raw)) = EvTold c (c_map cl) :: w_log w) /\
  (forall ops, startup_valid valid ops = true ->
     forall c cl, w_cli (run valid bdefs psrc hb session ops) c = Some cl ->
     forall k, tracked k = true -> pget k (c_map cl) = pget k (c_told cl)).
Proof.
  intros valid bdefs psrc hb session _ _.
  split; [exact (connect_told valid bdefs psrc hb session)|intros ops _; exact (told_same valid bdefs psrc hb session ops)].
Qed.
Print Assumptions c12_client_told_same.

(** The client's map is what the client established: its startup parameters (the pairs up to the
    terminating empty name; names resolved ignoring case as PostgreSQL does; values as sent:
    empty, non-ASCII ...), then the server's reports - for every history, no guard (the guards
    that findings D1-D3 needed are gone with repairs 5c1953d and 68af9b4). *)
Theorem c12_established : forall valid bdefs psrc hb session ops,
  forall c s co dk bv cv evv,
    In (EvStmt c s co dk bv cv evv) (w_log (run valid bdefs psrc hb session ops)) -> cv = evv.
Proof. exact established. Qed.
Print Assumptions c12_established.

(** No cross-client visibility, part 1: nothing another client does touches a client's map, the
    record of what it was told, or what it established. *)
Theorem c12_no_cross_client_frame : forall valid bdefs psrc hb session w o c,
  op_client o <> c -> w_cli (step valid bdefs psrc hb session w o) c = w_cli w c.
Proof. exact step_frame. Qed.
Print Assumptions c12_no_cross_client_frame.

(** No cross-client visibility, part 2: when a connection is handed to a client (first message
    after a checkout) its tracked values are that client's own (by sync) and no untracked GUC
    is off its default (by RESET ALL at check-in), given C02's hand-off rule [hb] and the
    property's scope (no SET of an untracked GUC inside a transaction block: [w_oos]). *)
Theorem c12_no_cross_client : forall valid bdefs psrc hb session,
  (forall s, bdef_ok valid (bdefs s) = true) -> (forall p, is_unclean p = true -> hb p = true) ->
  forall ops, startup_valid valid ops = true ->
  forall c s dk bv cv evv,
    In (EvStmt c s true dk bv cv evv) (w_log (run valid bdefs psrc hb session ops)) ->
    bv = cv /\ (w_oos (run valid bdefs psrc hb session ops) = false -> dk = []).
Proof.
  intros valid bdefs psrc hb session H1 H2 ops H3 c s dk bv cv evv Hin.
  split; [eapply synced_before_statement|intros Ho; eapply handoff_clean]; eauto.
Qed.
Print Assumptions c12_no_cross_client.

(** ** Witnesses: every guard above is needed (computed on the model instance of the harness:
    [marker_valid], [MOCK_DEF], [is_unclean]). *)
Definition u := (k_user, B "u").
Definition q1 := [SSelect].

Example c12_mock_instance_ok : bdef_ok marker_valid MOCK_DEF = true.
Proof. vm_compute. reflexivity. Qed.

(** non-vacuity: a history inside all guards, with statements, syncs and a RESET ALL *)
Definition ops_good : list op :=
  [OConnect 0 [u; (K_app, B "it's \ a"); (k_datestyle, B "German")];
   OConnect 1 [u; (K_scs, B "off")];
   OQuery 0 0 q1; OQuery 1 0 q1;
   OQuery 0 0 [SSet false (B "statement_timeout") (B "5")];
   OQuery 1 0 [SBegin]; OQuery 1 0 [SSet false K_tz (B "X\Y")]; OQuery 0 1 q1; OQuery 1 0 [SRollback];
   OQuery 0 0 q1; ODisconnect 1; OQuery 0 0 q1].
Example c12_nonvacuous :
  startup_valid marker_valid ops_good = true /\
  count_stmts (run_mock ops_good) = 9%nat /\
  stmt_mismatch (run_mock ops_good) = false /\ est_mismatch (run_mock ops_good) = false /\
  dirty_handoff (run_mock ops_good) = false /\
  w_oos (run marker_valid (fun _ => MOCK_DEF) 0 is_unclean no_session ops_good) = false.
Proof.
  (* the run gets a name, here and below, so that it is evaluated once and not once per conjunct *)
  unfold run_mock. set (w := run _ _ _ _ _ ops_good). vm_compute. repeat split; reflexivity.
Qed.

(** session mode: one checkout (with sync) at the first message, the server is kept across
    messages outside transactions, a client that needs the same connection waits, check-in
    (RESET ALL) when the session client leaves, the next client is synced and gets a clean
    connection *)
Definition ops_sess : list op :=
  [OConnect 0 [u; (K_app, B "sess'app"); (B "TIMEZONE", B "Europe/Paris")]; OConnect 1 [u; (K_app, B "other")];
   OQuery 0 0 q1; OQuery 0 0 [SSet false K_date (B "German")]; OQuery 0 0 [SSet false (B "statement_timeout") (B "5")];
   OQuery 1 0 q1; OQuery 0 0 q1; ODisconnect 0; OQuery 1 0 q1].
Example c12_session_mode_nonvacuous :
  startup_valid marker_valid ops_sess = true /\
  count_stmts (run_mock_s ops_sess) = 5%nat /\
  stmt_mismatch (run_mock_s ops_sess) = false /\ est_mismatch (run_mock_s ops_sess) = false /\
  dirty_handoff (run_mock_s ops_sess) = false /\
  List.length (filter (fun e => match e with EvSync 0 0 _ => true | _ => false end) (run_mock_s ops_sess)) = 1%nat /\
  existsb (fun e => match e with EvClean 0 false true false => true | _ => false end) (run_mock_s ops_sess) = true /\
  existsb (fun e => match e with
                    | EvStmt 0 0 true _ bv _ _ => opt_beq (nth 2 bv None) (Some (B "Europe/Paris")) && opt_beq (nth 4 bv None) (Some (B "sess'app"))
                    | _ => false end) (run_mock_s ops_sess) = true /\
  existsb (fun e => match e with
                    | EvStmt 1 0 true dk bv _ _ => is_nil_l dk && opt_beq (nth 1 bv None) (Some (B "ISO, MDY")) && opt_beq (nth 4 bv None) (Some (B "other"))
                    | _ => false end) (run_mock_s ops_sess) = true /\
  (* in transaction mode the same operations check out five times *)
  count_stmts (run_mock ops_sess) = 6%nat.
Proof. set (l := run_mock_s ops_sess). vm_compute. repeat split; reflexivity. Qed.

(** heterogeneous servers: connection 0 = primary (TimeZone default Europe/Berlin, server_version 15.3),
    connection 1 = replica (DateStyle default SQL, DMY, in_hot_standby on, server_version 14.9), the pool's
    snapshot comes from the replica.  Every SET batch consists of tracked keys only, the client's values are
    in effect on both, and RESET ALL brings each connection back to ITS OWN defaults. *)
Definition DEF_A : pmap := pset (B "server_version") (B "15.3") (pset K_tz (B "Europe/Berlin") MOCK_DEF).
Definition DEF_B : pmap :=
  pset (B "in_hot_standby") (B "on") (pset (B "server_version") (B "14.9") (pset K_date (B "SQL, DMY") MOCK_DEF)).
Definition het_defs : list (nat * pmap) := [(0%nat, DEF_A); (1%nat, DEF_B)].
Definition ops_het : list op :=
  [OConnect 0 [u; (K_app, B "app'a"); (K_tz, B "Europe/Paris")]; OConnect 1 [u];
   OQuery 0 0 q1; OQuery 0 1 q1; OQuery 1 0 q1; OQuery 1 1 q1;
   OQuery 0 0 [SSet false (B "statement_timeout") (B "5")]; OQuery 1 0 q1; OQuery 0 1 q1; OQuery 1 1 q1].
Example c12_heterogeneous_servers :
  bdef_ok marker_valid DEF_A = true /\ bdef_ok marker_valid DEF_B = true /\
  count_stmts (run_het het_defs 1 false ops_het) = 8%nat /\
  stmt_mismatch (run_het het_defs 1 false ops_het) = false /\ est_mismatch (run_het het_defs 1 false ops_het) = false /\
  dirty_handoff (run_het het_defs 1 false ops_het) = false /\
  forallb (fun e => match e with EvSync _ _ d => forallb (fun kv => tracked (fst kv)) d | _ => true end)
          (run_het het_defs 1 false ops_het) = true /\
  (* client 1 sent no parameter: it runs with the snapshot's DateStyle on the primary too, not with Berlin time *)
  existsb (fun e => match e with
                    | EvStmt 1 0 _ _ bv _ _ => opt_beq (nth 1 bv None) (Some (B "SQL, DMY")) && opt_beq (nth 2 bv None) (Some (B "Etc/UTC"))
                    | _ => false end) (run_het het_defs 1 false ops_het) = true /\
  existsb (fun e => match e with EvSync 1 0 d => beq (snd (hd ([], []) d)) (B "SQL, DMY") | _ => false end)
          (run_het het_defs 1 false ops_het) = true.
Proof. set (l := run_het het_defs 1 false ops_het). vm_compute. repeat split; reflexivity. Qed.

(** values that differ in letter case only are different values: two clients alternating on one
    connection are re-synced every time *)
Definition ops_case : list op :=
  [OConnect 0 [u; (K_app, B "Billing"); (K_tz, B "UTC")]; OConnect 1 [u; (K_app, B "billing"); (K_tz, B "utc")];
   OQuery 0 0 q1; OQuery 1 0 q1; OQuery 0 0 q1; OQuery 1 0 q1].
Example c12_case_is_significant :
  stmt_mismatch (run_mock ops_case) = false /\
  List.length (filter (fun e => match e with EvSync _ _ d => Nat.eqb (List.length d) 2 | _ => false end) (run_mock ops_case)) = 4%nat.
Proof. set (l := run_mock ops_case). vm_compute. split; reflexivity. Qed.

(** the cleanup flags are cleared by check-in only: DEALLOCATE ALL / DISCARD ALL / PREPARE after a SET (and a
    SET ROLE, whose tag is SET too) do not make pgcat forget the SET; PREPARE adds DEALLOCATE ALL to the cleanup;
    a SET after a COPY in the same query (the reply then comes in two pieces) is part of the client's map *)
Definition ops_flags : list op :=
  [OConnect 0 [u]; OConnect 1 [u];
   OQuery 0 0 [SSet false (B "statement_timeout") (B "1"); SNoop TgSet; SNoop TgDeallocAll];
   OQuery 1 0 q1;
   OQuery 0 0 [SNoop TgPrepare; SNoop TgOther];
   OQuery 1 0 q1;
   OQuery 0 0 [SSet false K_date (B "German"); SNoop TgOther; SSet false K_tz (B "Mars")];
   OQuery 1 0 q1; OQuery 0 0 q1;
   OQuery 0 0 [SSet false (B "work_mem") (B "1"); SDiscardAll]; OQuery 1 0 q1].
Example c12_flags_cleared_by_checkin_only :
  dirty_handoff (run_mock ops_flags) = false /\ stmt_mismatch (run_mock ops_flags) = false /\
  w_oos (run marker_valid (fun _ => MOCK_DEF) 0 is_unclean no_session ops_flags) = false /\
  existsb (fun e => match e with EvClean 0 false true false => true | _ => false end) (run_mock ops_flags) = true /\
  existsb (fun e => match e with EvClean 0 false false true => true | _ => false end) (run_mock ops_flags) = true /\
  existsb (fun e => match e with
                    | EvStmt 0 0 true _ bv _ _ => opt_beq (nth 1 bv None) (Some (B "German")) && opt_beq (nth 2 bv None) (Some (B "Mars"))
                    | _ => false end) (run_mock ops_flags) = true.
Proof. unfold run_mock. set (w := run _ _ _ _ _ ops_flags). vm_compute. repeat split; reflexivity. Qed.

(** D-invalid: a client whose startup packet carries a value the backend refuses for ONE tracked
    parameter: the whole SET batch fails (pgcat ignores the ErrorResponse), so NONE of its
    parameters is applied and its statements run with the previous client's application_name. *)
Definition ops_invalid : list op :=
  [OConnect 0 [u; (K_app, B "app-a")];
   OConnect 1 [u; (K_app, B "app-b"); (K_enc, B "!invalid!LATIN9X")];
   OQuery 0 0 [SBegin]; OQuery 0 0 [SSet false K_tz (B "Europe/Paris")]; OQuery 0 0 [SCommit];
   OQuery 1 0 q1].
Example c12_invalid_startup_refuted :
  startup_valid marker_valid ops_invalid = false /\ stmt_mismatch (run_mock ops_invalid) = true /\
  existsb (fun e => match e with
                    | EvStmt 1 0 _ _ bv _ _ => vals_eqb bv [Some (B "UTF8"); Some (B "ISO, MDY"); Some (B "Europe/Paris"); Some (B "on"); Some (B "app-a")]
                    | _ => false end) (run_mock ops_invalid) = true.
Proof. set (l := run_mock ops_invalid). vm_compute. repeat split; reflexivity. Qed.

(** Regressions of the repaired startup findings: the old inputs are handled right now; the
    transcriptions of the old code ([old_startup_decode], [old_recase]) show what used to happen. *)
Definition cafe : bytes := [99; 97; 102; 195; 169].
Definition ops_nonascii : list op := [OConnect 0 [u; (K_app, cafe)]; OQuery 0 0 q1].
Example c12_startup_nonascii_fixed :   (* D1, 5c1953d *)
  est_mismatch (run_mock ops_nonascii) = false /\ stmt_mismatch (run_mock ops_nonascii) = false /\
  existsb (fun e => match e with EvStmt 0 0 _ _ bv _ _ => opt_beq (nth 4 bv None) (Some cafe) | _ => false end)
          (run_mock ops_nonascii) = true /\
  startup_decode [u; (K_app, cafe)] = Some [u; (K_app, cafe)] /\
  old_startup_decode [u; (K_app, cafe)] = Some [u; (K_app, [99; 97; 102; 195; 131; 194; 169])].
Proof. set (l := run_mock ops_nonascii). vm_compute. repeat split; reflexivity. Qed.

Definition ops_spelling : list op :=
  [OConnect 0 [u; (B "TIMEZONE", B "Europe/Paris"); (B "Application_Name", B "x")]; OQuery 0 0 q1].
Example c12_startup_key_spelling_fixed :   (* D2, 68af9b4 *)
  est_mismatch (run_mock ops_spelling) = false /\ stmt_mismatch (run_mock ops_spelling) = false /\
  existsb (fun e => match e with
                    | EvStmt 0 0 _ _ bv _ _ => opt_beq (nth 2 bv None) (Some (B "Europe/Paris")) && opt_beq (nth 4 bv None) (Some (B "x"))
                    | _ => false end) (run_mock ops_spelling) = true /\
  recase (B "TIMEZONE") = K_tz /\ recase (B "Application_Name") = K_app /\ recase (B "datestyle") = K_date /\
  recase (B "server_version") = B "server_version" /\
  old_recase (B "TIMEZONE") = B "TIMEZONE".
Proof. set (l := run_mock ops_spelling). vm_compute. repeat split; reflexivity. Qed.

Definition ops_empty : list op := [OConnect 0 [u; (B "database", B "db"); (K_app, []); (K_enc, [])]; OQuery 0 0 q1].
Example c12_startup_empty_fixed :   (* D3, 5c1953d *)
  startup_decode [u; (B "database", B "db"); (K_app, [])] = Some [u; (B "database", B "db"); (K_app, [])] /\
  startup_decode [u; (B "database", B "db"); (K_app, []); (K_enc, [])] =
    Some [u; (B "database", B "db"); (K_app, []); (K_enc, [])] /\
  est_mismatch (run_mock ops_empty) = false /\ stmt_mismatch (run_mock ops_empty) = false /\
  existsb (fun e => match e with EvStmt 0 0 _ _ bv _ _ => opt_beq (nth 4 bv None) (Some []) && opt_beq (nth 0 bv None) (Some []) | _ => false end)
          (run_mock ops_empty) = true /\
  old_startup_decode [u; (B "database", B "db"); (K_app, [])] = None /\
  old_startup_decode [u; (B "database", B "db"); (K_app, []); (K_enc, [])] = Some [u; (B "database", B "db"); (K_app, K_enc)] /\
  (* the list ends at an empty name; nothing or no user => refused *)
  startup_decode [u; ([], B "x"); (K_app, B "ignored")] = Some [u] /\ startup_decode [] = None /\
  startup_decode [(K_app, B "x")] = None.
Proof. set (l := run_mock ops_empty). vm_compute. repeat split; reflexivity. Qed.

(** the dependency on C02 is real: with the original has_broken (always false) a client task that
    dies in a failed transaction hands its connection on; the next client's SET batch is refused
    ("current transaction is aborted") and it runs with the dead client's TimeZone. *)
Definition ops_abort : list op :=
  [OConnect 0 [u]; OConnect 1 [u];
   OQuery 0 0 [SBegin]; OQuery 0 0 [SSet false K_tz (B "Mars/Olympus")]; OQuery 0 0 [SSet false K_app (B "a")];
   OQuery 0 0 [SFail]; OAbort 0;
   OQuery 1 0 q1].
Example c12_hb_needed_refuted :
  startup_valid marker_valid ops_abort = true /\
  stmt_mismatch (rev (w_log (run marker_valid (fun _ => MOCK_DEF) 0 (fun _ => false) no_session ops_abort))) = true /\
  stmt_mismatch (run_mock ops_abort) = false.
Proof. vm_compute. repeat split; reflexivity. Qed.

Definition ops_abort2 : list op :=
  [OConnect 0 [u]; OConnect 1 [u];
   OQuery 0 0 [SSet false (B "statement_timeout") (B "5"); SBegin]; OAbort 0;
   OQuery 1 0 [SCommit]; OQuery 1 0 q1].
Example c12_hb_needed_untracked_refuted :
  w_oos (run marker_valid (fun _ => MOCK_DEF) 0 (fun _ => false) no_session ops_abort2) = false /\
  dirty_handoff (rev (w_log (run marker_valid (fun _ => MOCK_DEF) 0 (fun _ => false) no_session ops_abort2))) = true /\
  dirty_handoff (run_mock ops_abort2) = false.
Proof. set (w := run _ _ _ (fun _ => false) _ ops_abort2). vm_compute. repeat split; reflexivity. Qed.

(** the scope guard is real (and is C02's): SET of an untracked GUC inside a committed
    transaction block is not detected (server.rs: "We don't detect set statements in
    transactions") and stays on the connection for the next client. *)
Definition ops_oos : list op :=
  [OConnect 0 [u]; OConnect 1 [u];
   OQuery 0 0 [SBegin]; OQuery 0 0 [SSet false (B "statement_timeout") (B "5")]; OQuery 0 0 [SCommit];
   OQuery 1 0 q1].
Example c12_scope_guard_needed :
  w_oos (run marker_valid (fun _ => MOCK_DEF) 0 is_unclean no_session ops_oos) = true /\ dirty_handoff (run_mock ops_oos) = true /\
  stmt_mismatch (run_mock ops_oos) = false.
Proof. unfold run_mock. set (w := run _ _ _ _ _ ops_oos). vm_compute. repeat split; reflexivity. Qed.

(** the repair of F18 is in the model: COMMIT; SET in ONE query is detected *)
Definition ops_f18 : list op :=
  [OConnect 0 [u]; OConnect 1 [u];
   OQuery 0 0 [SBegin]; OQuery 0 0 [SCommit; SSet false (B "statement_timeout") (B "5")];
   OQuery 1 0 q1].
Example c12_commit_then_set_is_cleaned :
  w_oos (run marker_valid (fun _ => MOCK_DEF) 0 is_unclean no_session ops_f18) = false /\ dirty_handoff (run_mock ops_f18) = false.
Proof. unfold run_mock. set (w := run _ _ _ _ _ ops_f18). vm_compute. split; reflexivity. Qed.
