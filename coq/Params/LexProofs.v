(** C12 — the batch pgcat generates, read back by the backend: a quoted value lexes to itself in
    both modes ([lex_body_qbody]), the splitter finds exactly the generated statements, the
    recogniser reads each as its pair ([no_injection]); NUL-free text travels whole ([on_wire_gen]). *)
From Coq Require Import NArith List Bool String Ascii Arith Lia.
From PV Require Import Params.Lex.
Import ListNotations.
Local Open Scope N_scope.

Lemma frev_rev : forall (A : Type) (l : list A), frev l = rev l.
Proof. intros. unfold frev. symmetry. apply rev_alt. Qed.

Lemma beq_refl : forall a, beq a a = true.
Proof. induction a; simpl; auto. rewrite N.eqb_refl. auto. Qed.

Lemma beq_eq : forall a b, beq a b = true <-> a = b.
Proof.
  induction a; destruct b; simpl; split; intros H; try discriminate; auto.
  - apply andb_true_iff in H. destruct H as [H1 H2]. apply N.eqb_eq in H1. apply IHa in H2. congruence.
  - inversion H; subst. rewrite N.eqb_refl. simpl. apply beq_refl.
Qed.

Lemma beq_neq : forall a b, beq a b = false <-> a <> b.
Proof.
  intros. split; intros H.
  - intros E. apply beq_eq in E. congruence.
  - destruct (beq a b) eqn:E; auto. apply beq_eq in E. contradiction.
Qed.

Definition q_unit (c : N) : bytes := if (c =? 39) || (c =? 92) then [c; c] else [c].

Lemma q_body_cons : forall c v, q_body (c :: v) = q_unit c ++ q_body v.
Proof. intros. cbn [q_body]. unfold q_unit. destruct ((c =? 39) || (c =? 92)); reflexivity. Qed.

(** what the reading mode requires of a value, passed down to its first character and the rest *)
Lemma q_mode_cons : forall esc c v, (esc = true \/ has_bslash (c :: v) = false) ->
  (c = 92 -> esc = true) /\ (esc = true \/ has_bslash v = false).
Proof.
  intros esc c v [Hm|Hm]; auto. unfold has_bslash in *. cbn [existsb] in Hm.
  apply orb_false_iff in Hm. destruct Hm as [Hc Hv]. split; auto.
  intros ->. discriminate.
Qed.

(** the lexer reads the character back: '' is a quote, \\ a backslash where escapes are active,
    anything else stands for itself *)
Lemma lex_body_unit : forall esc c r acc, (c = 92 -> esc = true) ->
  lex_body esc (q_unit c ++ r) acc = lex_body esc r (c :: acc).
Proof.
  intros esc c r acc He. unfold q_unit.
  destruct (c =? 39) eqn:E39; [|destruct (c =? 92) eqn:E92]; cbn [orb app].
  - apply N.eqb_eq in E39. subst c. reflexivity.
  - apply N.eqb_eq in E92. subst c. rewrite He by reflexivity. reflexivity.
  - cbn [lex_body]. rewrite E39, E92, andb_false_r. reflexivity.
Qed.

Lemma lex_body_qbody : forall esc v acc tail,
  (esc = true \/ has_bslash v = false) -> hd_is 39 tail = false ->
  lex_body esc (q_body v ++ 39 :: tail) acc = Some (rev acc ++ v, tail).
Proof.
  intros esc v. induction v as [|c v IH]; intros acc tail Hm Ht.
  - cbn [q_body app]. cbn [lex_body]. change (39 =? 39) with true. cbn iota. rewrite app_nil_r, frev_rev.
    destruct tail as [|c2 r2]; auto. cbn [hd_is] in Ht. rewrite Ht. auto.
  - destruct (q_mode_cons _ _ _ Hm) as [He Hm']. rewrite q_body_cons, <- app_assoc.
    rewrite lex_body_unit, IH by auto. cbn [rev]. rewrite <- app_assoc. reflexivity.
Qed.

Lemma quote_roundtrip_rest : forall scs_off v tail, hd_is 39 tail = false ->
  lex_literal scs_off (quote_literal v ++ tail) = Some (v, tail).
Proof.
  intros scs_off v tail Ht. unfold quote_literal.
  (* [lex_literal] enters the body with escapes active after E', in the session's mode after a bare ' *)
  destruct (has_bslash v) eqn:Hb; cbn [app]; rewrite <- app_assoc.
  - exact (lex_body_qbody true v [] tail (or_introl eq_refl) Ht).
  - exact (lex_body_qbody scs_off v [] tail (or_intror Hb) Ht).
Qed.

Lemma quote_roundtrip : forall scs_off v,
  lex_literal scs_off (quote_literal v) = Some (v, []).
Proof. intros. rewrite <- (app_nil_r (quote_literal v)). apply quote_roundtrip_rest. reflexivity. Qed.

Lemma cstr_app_nul : forall s junk, no_nul s = true -> cstr (s ++ 0 :: junk) = s.
Proof.
  induction s; intros; cbn [app cstr].
  - reflexivity.
  - cbn [no_nul forallb] in H. apply andb_true_iff in H. destruct H as [H1 H2].
    destruct (a =? 0); try discriminate. f_equal. apply IHs. exact H2.
Qed.

Lemma no_nul_app : forall a b, no_nul (a ++ b) = no_nul a && no_nul b.
Proof. intros. unfold no_nul. apply forallb_app. Qed.

Lemma no_nul_qbody : forall v, no_nul (q_body v) = no_nul v.
Proof.
  induction v as [|c v IH]; auto. rewrite q_body_cons, no_nul_app, IH. unfold q_unit.
  destruct ((c =? 39) || (c =? 92)); cbn [no_nul forallb]; destruct (c =? 0); reflexivity.
Qed.

Lemma no_nul_quote : forall v, no_nul v = true -> no_nul (quote_literal v) = true.
Proof.
  intros. unfold quote_literal. rewrite no_nul_app.
  replace (39 :: q_body v ++ [39]) with ([39] ++ q_body v ++ [39]) by reflexivity.
  rewrite !no_nul_app, no_nul_qbody, H. destruct (has_bslash v); reflexivity.
Qed.

Definition plainc (c : N) : bool :=
  negb ((c =? 59) || (c =? 39) || (c =? 34) || (c =? 45) || (c =? 47)).

Lemma plainc_inv : forall c, plainc c = true ->
  (c =? 59) = false /\ (c =? 39) = false /\ (c =? 34) = false /\ (c =? 45) = false /\ (c =? 47) = false.
Proof.
  unfold plainc. intros c H. apply negb_true_iff in H.
  repeat (apply orb_false_iff in H; destruct H as [H ?]). auto.
Qed.

Lemma split_plain : forall scs l p rest cur out, forallb plainc l = true ->
  split_go scs (LNorm p) (l ++ rest) cur out =
  split_go scs (LNorm (fold_left next_prev l p)) rest (rev l ++ cur) out.
Proof.
  intros scs l. induction l as [|c l IH]; intros p rest cur out H.
  - reflexivity.
  - cbn [forallb] in H. apply andb_true_iff in H. destruct H as [Hc Hl].
    apply plainc_inv in Hc. destruct Hc as (H1 & H2 & H3 & H4 & H5).
    cbn [app split_go]. rewrite H1, H2, H3, H4, H5. cbn [andb].
    rewrite IH by auto. cbn [fold_left rev]. rewrite <- app_assoc. reflexivity.
Qed.

Lemma split_unit : forall scs esc c r cur out, (c = 92 -> esc = true) ->
  split_go scs (LStr esc) (q_unit c ++ r) cur out = split_go scs (LStr esc) r (rev (q_unit c) ++ cur) out.
Proof.
  intros scs esc c r cur out He. unfold q_unit.
  destruct (c =? 39) eqn:E39; [|destruct (c =? 92) eqn:E92]; cbn [orb app rev].
  - apply N.eqb_eq in E39. subst c. reflexivity.
  - apply N.eqb_eq in E92. subst c. rewrite He by reflexivity. reflexivity.
  - cbn [split_go]. rewrite E39, E92, andb_false_r. reflexivity.
Qed.

Lemma split_qbody : forall scs esc v tail cur out,
  (esc = true \/ has_bslash v = false) -> hd_is 39 tail = false ->
  split_go scs (LStr esc) (q_body v ++ 39 :: tail) cur out =
  split_go scs (LNorm POther) tail (39 :: rev (q_body v) ++ cur) out.
Proof.
  intros scs esc v. induction v as [|c v IH]; intros tail cur out Hm Ht.
  - cbn [q_body app rev]. cbn [split_go]. change (39 =? 39) with true. cbn iota. rewrite Ht. reflexivity.
  - destruct (q_mode_cons _ _ _ Hm) as [He Hm']. rewrite q_body_cons, <- app_assoc.
    rewrite split_unit, IH by auto. rewrite rev_app_distr, <- app_assoc. reflexivity.
Qed.

Definition stmt_text (kv : bytes * bytes) : bytes := KW_SET ++ fst kv ++ SEP_TO ++ quote_literal (snd kv).

Lemma ident_neq : forall c x, is_ident_cont c = true -> is_ident_cont x = false -> (c =? x) = false.
Proof. intros c x Hc Hx. destruct (c =? x) eqn:E; auto. apply N.eqb_eq in E. subst. congruence. Qed.

Lemma ident_plain : forall c, is_ident_cont c = true -> plainc c = true.
Proof. intros c H. unfold plainc. rewrite !(ident_neq c _ H) by reflexivity. reflexivity. Qed.

Lemma forallb_impl : forall (A : Type) (f g : A -> bool) l, (forall x, f x = true -> g x = true) ->
  forallb f l = true -> forallb g l = true.
Proof.
  induction l; intros; auto. cbn [forallb] in *. apply andb_true_iff in H0. destruct H0.
  rewrite H by auto. cbn [andb]. auto.
Qed.

Lemma next_prev_space : forall p, next_prev p 32 = POther.
Proof. destruct p; reflexivity. Qed.

Lemma fold_prev_sep : forall p, fold_left next_prev SEP_TO p = POther.
Proof. intros. unfold SEP_TO. cbn [fold_left]. rewrite next_prev_space. reflexivity. Qed.

Lemma split_quote : forall scs v tail cur out, hd_is 39 tail = false ->
  split_go scs (LNorm POther) (quote_literal v ++ tail) cur out =
  split_go scs (LNorm POther) tail (rev (quote_literal v) ++ cur) out.
Proof.
  intros scs v tail cur out Ht. unfold quote_literal.
  (* with or without the E: up to the opening quote by computation, the body by [split_qbody] *)
  destruct (has_bslash v) eqn:Hb; cbn [app]; rewrite <- app_assoc; cbn [app split_go];
    cbn [N.eqb Pos.eqb andb next_prev orb]; cbn [split_go N.eqb Pos.eqb];
    rewrite split_qbody by auto; cbn [rev]; rewrite !rev_app_distr; cbn [rev app]; rewrite <- ?app_assoc; reflexivity.
Qed.

Lemma split_gen_stmt : forall scs k v rest out, forallb is_ident_cont k = true ->
  split_go scs (LNorm POther) (gen_stmt quote_literal (k, v) ++ rest) [] out =
  split_go scs (LNorm POther) rest [] (stmt_text (k, v) :: out).
Proof.
  intros scs k v rest out Hk.
  unfold gen_stmt, stmt_text. cbn [fst snd].
  set (P := KW_SET ++ k ++ SEP_TO).
  assert (HP : forallb plainc P = true).
  { unfold P. rewrite !forallb_app. rewrite (forallb_impl _ _ _ k ident_plain Hk). reflexivity. }
  assert (Hprev : fold_left next_prev P POther = POther).
  { unfold P. rewrite !fold_left_app. apply fold_prev_sep. }
  replace ((KW_SET ++ k ++ SEP_TO ++ quote_literal v ++ [59]) ++ rest)
    with (P ++ quote_literal v ++ 59 :: rest) by (unfold P; rewrite <- !app_assoc; reflexivity).
  rewrite split_plain, Hprev, split_quote by auto. cbn [split_go]. rewrite N.eqb_refl.
  rewrite frev_rev, app_nil_r, rev_app_distr, !rev_involutive. unfold P. rewrite <- !app_assoc. reflexivity.
Qed.

Definition keys_ok (d : list (bytes * bytes)) : bool := forallb (fun kv => ident_key (fst kv)) d.

Lemma keys_ok_cons : forall k v d, keys_ok ((k, v) :: d) = true -> ident_key k = true /\ keys_ok d = true.
Proof. intros k v d H. apply (andb_true_iff (ident_key k) (keys_ok d)). exact H. Qed.

Lemma ident_key_cont : forall k, ident_key k = true -> forallb is_ident_cont k = true.
Proof. intros k H. unfold ident_key in H. apply andb_true_iff in H. apply H. Qed.

Lemma split_gen_batch : forall scs d rest out, keys_ok d = true ->
  split_go scs (LNorm POther) (gen_batch d ++ rest) [] out =
  split_go scs (LNorm POther) rest [] (rev (map stmt_text d) ++ out).
Proof.
  intros scs d. induction d as [|[k v] d IH]; intros rest out H.
  - reflexivity.
  - apply keys_ok_cons in H. destruct H as [Hk Hd].
    unfold gen_batch, gen_batch_with in *. cbn [flat_map]. rewrite <- app_assoc.
    rewrite split_gen_stmt by auto using ident_key_cont. rewrite IH by auto.
    cbn [map rev]. rewrite <- app_assoc. reflexivity.
Qed.

Lemma stmt_text_not_blank : forall kv, blank (stmt_text kv) = false.
Proof. intros. reflexivity. Qed.

Lemma filter_stmt_texts : forall d, filter (fun s => negb (blank s)) (map stmt_text d) = map stmt_text d.
Proof.
  induction d; auto. cbn [map filter]. rewrite stmt_text_not_blank. cbn [negb]. f_equal. auto.
Qed.

Lemma split_stmts_gen : forall scs d, keys_ok d = true ->
  split_stmts scs (gen_batch d) = Some (map stmt_text d).
Proof.
  intros. unfold split_stmts.
  rewrite <- (app_nil_r (gen_batch d)). rewrite split_gen_batch by auto.
  cbn [split_go]. rewrite !frev_rev. rewrite app_nil_r. cbn [rev]. rewrite rev_involutive.
  cbn [app]. rewrite filter_app. cbn [filter blank forallb negb app].
  rewrite app_nil_r. rewrite filter_stmt_texts. reflexivity.
Qed.

Lemma strip_prefix_app : forall p s, strip_prefix p (p ++ s) = Some s.
Proof. induction p; intros; cbn [app strip_prefix]; auto. rewrite N.eqb_refl. auto. Qed.

Lemma ident_not_space : forall c, is_ident_cont c = true -> is_space c = false.
Proof. intros c H. unfold is_space. rewrite !(ident_neq c _ H) by reflexivity. reflexivity. Qed.

Lemma span_ident_app : forall k rest, forallb is_ident_cont k = true -> hd_is 32 rest = true ->
  span_ident (k ++ rest) = (k, rest).
Proof.
  induction k; intros rest Hk Hr.
  - cbn [app]. destruct rest as [|c r]; [discriminate|]. cbn [hd_is] in Hr. apply N.eqb_eq in Hr. subst c.
    reflexivity.
  - cbn [forallb] in Hk. apply andb_true_iff in Hk. destruct Hk as [Ha Hk].
    cbn [app span_ident]. rewrite Ha. rewrite IHk by auto. reflexivity.
Qed.

Lemma skip_spaces_quote : forall v tail, skip_spaces (quote_literal v ++ tail) = quote_literal v ++ tail.
Proof. intros. unfold quote_literal. destruct (has_bslash v); reflexivity. Qed.

Lemma parse_set_gen : forall scs k v, ident_key k = true ->
  parse_set scs (stmt_text (k, v)) = Some (k, v).
Proof.
  intros scs k v Hk. unfold ident_key in Hk. apply andb_true_iff in Hk. destruct Hk as [Hne Hk].
  unfold parse_set, stmt_text. cbn [fst snd].
  replace (skip_spaces (KW_SET ++ k ++ SEP_TO ++ quote_literal v)) with (KW_SET ++ k ++ SEP_TO ++ quote_literal v) by reflexivity.
  rewrite strip_prefix_app.
  destruct k as [|c k]; [discriminate|].
  cbn [forallb] in Hk. apply andb_true_iff in Hk. destruct Hk as [Hc Hk'].
  replace (skip_spaces ((c :: k) ++ SEP_TO ++ quote_literal v)) with ((c :: k) ++ SEP_TO ++ quote_literal v).
  2:{ cbn [app skip_spaces]. rewrite (ident_not_space c Hc). reflexivity. }
  rewrite span_ident_app.
  2:{ cbn [forallb]. rewrite Hc, Hk'. reflexivity. }
  2:{ reflexivity. }
  cbn [is_nil].
  replace (skip_spaces (SEP_TO ++ quote_literal v)) with (KW_TO ++ quote_literal v).
  2:{ unfold SEP_TO, KW_TO. cbn [app skip_spaces]. reflexivity. }
  rewrite strip_prefix_app.
  rewrite <- (app_nil_r (quote_literal v)). rewrite skip_spaces_quote. rewrite app_nil_r.
  rewrite quote_roundtrip. reflexivity.
Qed.

Lemma sequence_parse_gen : forall scs d, keys_ok d = true ->
  sequence (map (parse_set scs) (map stmt_text d)) = Some d.
Proof.
  induction d as [|[k v] d IH]; intros H; auto.
  apply keys_ok_cons in H. destruct H as [Hk Hd]. cbn [map sequence]. rewrite parse_set_gen by auto. rewrite IH by auto. reflexivity.
Qed.

Lemma no_injection : forall scs d, keys_ok d = true -> apply_set_batch scs (gen_batch d) = Some d.
Proof.
  intros. unfold apply_set_batch. rewrite split_stmts_gen by auto. apply sequence_parse_gen. auto.
Qed.

Lemma ident_no_nul : forall k, forallb is_ident_cont k = true -> no_nul k = true.
Proof.
  intros. unfold no_nul. eapply forallb_impl; [|exact H].
  intros c Hc. rewrite (ident_neq c 0 Hc); reflexivity.
Qed.

Definition vals_ok (d : list (bytes * bytes)) : bool := forallb (fun kv => no_nul (snd kv)) d.

Lemma no_nul_gen_batch : forall d, keys_ok d = true -> vals_ok d = true -> no_nul (gen_batch d) = true.
Proof.
  induction d as [|[k v] d IH]; intros Hk Hv; auto.
  apply keys_ok_cons in Hk. destruct Hk as [Hk Hd]. apply ident_key_cont in Hk.
  unfold vals_ok in Hv. cbn [forallb snd] in Hv. apply andb_true_iff in Hv. destruct Hv as [Hv Hd'].
  unfold gen_batch, gen_batch_with in *. cbn [flat_map]. rewrite no_nul_app. rewrite IH by auto.
  unfold gen_stmt. cbn [fst snd]. rewrite !no_nul_app. rewrite (ident_no_nul k Hk).
  rewrite no_nul_quote by auto. reflexivity.
Qed.

Lemma on_wire_gen : forall d, keys_ok d = true -> vals_ok d = true -> on_wire (gen_batch d) = gen_batch d.
Proof. intros. unfold on_wire. apply cstr_app_nul. apply no_nul_gen_batch; auto. Qed.

Lemma no_injection_wire : forall scs d, keys_ok d = true -> vals_ok d = true ->
  apply_set_batch scs (on_wire (gen_batch d)) = Some d.
Proof. intros. rewrite on_wire_gen by auto. apply no_injection. auto. Qed.

(** the two modes read the same value back: the order of the statements of a batch that also
    changes standard_conforming_strings does not matter *)
Lemma quote_mode_independent : forall v,
  lex_literal true (quote_literal v) = lex_literal false (quote_literal v).
Proof. intros. rewrite !quote_roundtrip. reflexivity. Qed.
