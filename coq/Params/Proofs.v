(** C12 — why the maps follow the backend.  Every change of a reported GUC comes back as a frame, so a
    map that agreed with the backend on the tracked keys ([Agree]) and is fed the frames agrees again
    ([agree_report]); the flags pgcat keeps tell the truth about the backend ([Quies], [InOK], [CleanOK]),
    so check-in leaves a connection idle and clean ([checkin_lemma]) and [sync_parameters] brings an idle
    one to the client's values ([sync_lemma]).  [Inv] says this of every connection and client of a world;
    [step_inv] keeps it through [inv_upd].  [Inv2] (the client's map is what it established and what it was told)
    needs no guard. *)
From Coq Require Import NArith List Bool String Ascii Arith Lia Permutation.
From PV Require Import Params.Lex Params.LexProofs Params.Model.
Import ListNotations.
Local Open Scope N_scope.

Lemma beq_sym : forall a b, beq a b = beq b a.
Proof.
  intros. destruct (beq a b) eqn:E.
  - apply beq_eq in E. subst. symmetry. apply beq_refl.
  - symmetry. apply beq_neq. apply beq_neq in E. congruence.
Qed.

Lemma pget_pset_eq : forall k v m, pget k (pset k v m) = Some v.
Proof.
  induction m as [|[k' v'] m IH]; cbn [pset pget].
  - rewrite beq_refl. reflexivity.
  - destruct (beq k k') eqn:E; cbn [pget]; [rewrite beq_refl|rewrite E]; auto.
Qed.

Lemma pget_pset_neq : forall k k' v m, beq k k' = false -> pget k (pset k' v m) = pget k m.
Proof.
  induction m as [|[k2 v2] m IH]; intros H; cbn [pset pget].
  - rewrite H. reflexivity.
  - destruct (beq k' k2) eqn:E; cbn [pget].
    + apply beq_eq in E. subst k2. rewrite H. reflexivity.
    + rewrite IH by auto. reflexivity.
Qed.

Lemma pget_pdel_eq : forall k m, pget k (pdel k m) = None.
Proof.
  induction m as [|[k2 v2] m IH]; cbn [pdel pget]; auto.
  destruct (beq k k2) eqn:E; auto. cbn [pget]. rewrite E. auto.
Qed.

Lemma pget_pdel_neq : forall k k' m, beq k k' = false -> pget k (pdel k' m) = pget k m.
Proof.
  induction m as [|[k2 v2] m IH]; intros H; cbn [pdel pget]; auto.
  destruct (beq k' k2) eqn:E.
  - apply beq_eq in E. subst k2. rewrite H. auto.
  - cbn [pget]. rewrite IH by auto. reflexivity.
Qed.

Lemma opt_beq_refl : forall a, opt_beq a a = true.
Proof. destruct a; cbn [opt_beq]; auto. apply beq_refl. Qed.

Lemma opt_beq_eq : forall a b, opt_beq a b = true -> a = b.
Proof. intros a b. destruct a as [x|], b as [y|]; cbn [opt_beq]; intros H; try discriminate; auto. apply beq_eq in H. congruence. Qed.

Lemma tracked_cases : forall k, tracked k = true ->
  k = K_enc \/ k = K_date \/ k = K_tz \/ k = K_scs \/ k = K_app.
Proof.
  intros k H. unfold tracked, TRACKED in H. cbn [existsb] in H.
  repeat (apply orb_true_iff in H; destruct H as [H|H]; [apply beq_eq in H; auto 10|]).
  discriminate.
Qed.

Lemma tracked_in : forall k, tracked k = true <-> In k TRACKED.
Proof.
  intros. unfold tracked. rewrite existsb_exists. split.
  - intros [x [Hx Hb]]. apply beq_eq in Hb. subst. auto.
  - intros H. exists k. split; auto. apply beq_refl.
Qed.

Lemma recase_tracked : forall k, tracked k = true -> recase k = k.
Proof. intros k H. apply tracked_cases in H. intuition; subst; reflexivity. Qed.

Lemma reported_cases : forall k, In k REPORTED -> tracked k = true \/ k = K_interval.
Proof.
  intros k H. unfold REPORTED in H. apply in_app_or in H. destruct H as [H|H].
  - left. apply tracked_in. auto.
  - right. cbn in H. intuition.
Qed.

Lemma recase_reported : forall k, In k REPORTED -> recase k = k.
Proof.
  intros k H. apply reported_cases in H. destruct H as [H|H].
  - apply recase_tracked. auto.
  - subst. reflexivity.
Qed.

Lemma tracked_reported : forall k, tracked k = true -> In k REPORTED.
Proof. intros. unfold REPORTED. apply in_or_app. left. apply tracked_in. auto. Qed.

Lemma nodup_reported : NoDup REPORTED.
Proof.
  unfold REPORTED, TRACKED. cbn [app].
  repeat (constructor; [cbn [In]; intros H; repeat (destruct H as [H|H]; [discriminate H|]); exact H|]).
  constructor.
Qed.

Lemma nodup_tracked : NoDup TRACKED.
Proof. rewrite <- (app_nil_r TRACKED). exact (NoDup_remove_1 TRACKED [] K_interval nodup_reported). Qed.

Lemma pget_set_param : forall m k v k0, tracked k0 = true ->
  pget k0 (set_param m k v false) = if beq k0 (recase k) then Some v else pget k0 m.
Proof.
  intros m k v k0 H0. unfold set_param. rewrite orb_false_r.
  destruct (tracked (recase k)) eqn:Ht.
  - destruct (beq k0 (recase k)) eqn:E.
    + apply beq_eq in E. subst k0. apply pget_pset_eq.
    + apply pget_pset_neq. auto.
  - destruct (beq k0 (recase k)) eqn:E; auto.
    apply beq_eq in E. subst k0. congruence.
Qed.

Lemma set_from_list_app : forall m a b st,
  set_from_list m (a ++ b) st = set_from_list (set_from_list m a st) b st.
Proof. intros. unfold set_from_list. apply fold_left_app. Qed.

Lemma pset_all_app : forall m a b, pset_all m (a ++ b) = pset_all (pset_all m a) b.
Proof. intros. unfold pset_all. apply fold_left_app. Qed.

Lemma frames_app : forall a b, frames (a ++ b) = frames a ++ frames b.
Proof. intros. unfold frames. apply flat_map_app. Qed.

Lemma frames_flat_map : forall (A : Type) (f : A -> list revent) L,
  frames (flat_map f L) = flat_map (fun k => frames (f k)) L.
Proof. induction L; cbn [flat_map]; auto. rewrite frames_app. rewrite IHL. reflexivity. Qed.

Definition nv (b : backend) (k : bytes) : bytes := match eff b k with Some v => v | None => [] end.

Lemma frames_report : forall b b',
  frames (report b b') =
  flat_map (fun k => if opt_beq (eff b k) (eff b' k) then [] else [(k, nv b' k)]) REPORTED.
Proof.
  intros. unfold report. rewrite frames_flat_map. apply flat_map_ext. intros k.
  destruct (opt_beq (eff b k) (eff b' k)); reflexivity.
Qed.

Lemma pset_all_notin : forall d m k, ~ In k (map fst d) -> pget k (pset_all m d) = pget k m.
Proof.
  induction d as [|[k1 v1] d IH]; intros m k Hn; auto.
  unfold pset_all in *. cbn [fold_left fst snd]. rewrite IH.
  - apply pget_pset_neq. apply beq_neq. intros E. apply Hn. left. auto.
  - intros Hc. apply Hn. right. auto.
Qed.

Lemma pset_all_in : forall d m k v, NoDup (map fst d) -> In (k, v) d -> pget k (pset_all m d) = Some v.
Proof.
  induction d as [|[k1 v1] d IH]; intros m k v Hd Hi; [destruct Hi|].
  cbn [map fst] in Hd. inversion Hd as [|? ? Hn Hl]; subst.
  unfold pset_all in *. cbn [fold_left fst snd]. destruct Hi as [Hi|Hi].
  - inversion Hi; subst. fold (pset_all (pset k v m) d). rewrite pset_all_notin by auto. apply pget_pset_eq.
  - apply IH; auto.
Qed.

(** on the tracked keys [set_from_list _ fr false] acts like [pset_all _ fr] when the keys of [fr] are spelled
    canonically *)
Lemma told_step : forall fr m t, (forall k v, In (k, v) fr -> recase k = k) ->
  (forall k, tracked k = true -> pget k m = pget k t) ->
  forall k, tracked k = true -> pget k (set_from_list m fr false) = pget k (pset_all t fr).
Proof.
  induction fr as [|[k1 v1] fr IH]; intros m t Hr Hmt k Hk; auto.
  unfold set_from_list, pset_all in *. cbn [fold_left fst snd]. apply IH; auto.
  - intros. eapply Hr. right. eauto.
  - intros k0 H0. rewrite pget_set_param by auto. rewrite (Hr k1 v1) by (left; auto).
    destruct (beq k0 k1) eqn:E.
    + apply beq_eq in E. subst. rewrite pget_pset_eq. auto.
    + rewrite pget_pset_neq by auto. auto.
Qed.

(** at most one pair per key, under that key: distinct keys give distinct first components *)
Lemma nodup_keys_flat_map : forall (f : bytes -> list (bytes * bytes)) L,
  (forall k, f k = [] \/ exists v, f k = [(k, v)]) -> NoDup L -> NoDup (map fst (flat_map f L)).
Proof.
  intros f L Hf. induction L as [|k L IH]; intros Hd; [constructor|]. inversion Hd as [|? ? Hn Hl]; subst.
  cbn [flat_map]. destruct (Hf k) as [->|[v ->]]; cbn [app map fst]; auto.
  constructor; auto. intros Hc. apply Hn. apply in_map_iff in Hc. destruct Hc as [[k2 v2] [<- Hi]].
  apply in_flat_map in Hi. destruct Hi as [x [Hx Hi]].
  destruct (Hf x) as [E|[v' E]]; rewrite E in Hi; [destruct Hi|]. destruct Hi as [Hi|[]]. inversion Hi; subst. auto.
Qed.

Lemma in_frames_report : forall b b' k v, In (k, v) (frames (report b b')) <->
  In k REPORTED /\ opt_beq (eff b k) (eff b' k) = false /\ v = nv b' k.
Proof.
  intros. rewrite frames_report, in_flat_map. split.
  - intros [x [Hx Hi]]. destruct (opt_beq (eff b x) (eff b' x)) eqn:E; [destruct Hi|].
    destruct Hi as [Hi|[]]. inversion Hi; subst. auto.
  - intros (Hk & E & ->). exists k. rewrite E. split; [auto|left; auto].
Qed.

Lemma nodup_frames_report : forall b b', NoDup (map fst (frames (report b b'))).
Proof.
  intros. rewrite frames_report. apply nodup_keys_flat_map; [|apply nodup_reported].
  intros k. destruct (opt_beq (eff b k) (eff b' k)); eauto.
Qed.

Lemma frames_keys_report : forall b b' k v, In (k, v) (frames (report b b')) -> In k REPORTED.
Proof. intros b b' k v H. apply in_frames_report in H. tauto. Qed.

Definition Agree (m : pmap) (b : backend) : Prop := forall k, tracked k = true -> pget k m = eff b k.
Definition EffSome (b : backend) : Prop := forall k, tracked k = true -> eff b k <> None.

Lemma agree_report : forall m b b', Agree m b -> EffSome b' ->
  Agree (set_from_list m (frames (report b b')) false) b'.
Proof.
  intros m b b' Ha Hs k Hk.
  rewrite (told_step _ m m) by (auto; intros k0 v0 H0; eapply recase_reported, frames_keys_report; eauto).
  destruct (opt_beq (eff b k) (eff b' k)) eqn:E.
  - rewrite pset_all_notin; [apply opt_beq_eq in E; rewrite Ha; auto|].
    intros Hc. apply in_map_iff in Hc. destruct Hc as [[k2 v2] [<- Hi]]. apply in_frames_report in Hi.
    cbn [fst] in E. destruct Hi as (_ & E' & _). congruence.
  - rewrite (pset_all_in _ m k (nv b' k)) by (try apply nodup_frames_report; apply in_frames_report; auto using tracked_reported).
    unfold nv. specialize (Hs k Hk). destruct (eff b' k); congruence.
Qed.

Definition flag_step (st : bool * bool) (e : revent) : bool * bool :=
  match e with
  | RC TgSet => (fst st || negb (snd st), snd st)
  | RC TgCommit => (fst st, false)
  | RC TgRollback => (fst st, false)
  | RZ t => (fst st, negb (is_ti t))
  | _ => st
  end.
Definition flags_after (st : bool * bool) (evs : list revent) : bool * bool := fold_left flag_step evs st.

Definition prep_step (q : bool) (e : revent) : bool := match e with RC TgPrepare => true | _ => q end.
Definition prep_after (q : bool) (evs : list revent) : bool := fold_left prep_step evs q.

Lemma on_event_spec : forall cm p e,
  on_event cm p e =
  (match cm with Some m => Some (set_from_list m (frames [e]) false) | None => None end,
   mkP (set_from_list (bel p) (frames [e]) false)
       (fst (flag_step (need_set p, in_txn p) e)) (snd (flag_step (need_set p, in_txn p) e))
       (prep_step (need_prep p) e)).
Proof. intros [m|] [be n i q] [k v|[]| |t]; reflexivity. Qed.

Lemma recv_all_spec : forall evs cm p,
  recv_all cm p evs =
  (match cm with Some m => Some (set_from_list m (frames evs) false) | None => None end,
   mkP (set_from_list (bel p) (frames evs) false)
       (fst (flags_after (need_set p, in_txn p) evs)) (snd (flags_after (need_set p, in_txn p) evs))
       (prep_after (need_prep p) evs)).
Proof.
  induction evs as [|e evs IH]; intros cm p.
  - destruct cm, p; reflexivity.
  - unfold recv_all in *. cbn [fold_left fst snd]. rewrite on_event_spec, IH. cbn [bel need_set in_txn need_prep].
    change (e :: evs) with ([e] ++ evs). rewrite frames_app, set_from_list_app.
    unfold flags_after, prep_after. cbn [app fold_left].
    destruct cm; rewrite ?set_from_list_app; destruct (flag_step (need_set p, in_txn p) e); reflexivity.
Qed.

Definition Has5 (m : pmap) : Prop := forall k, tracked k = true -> pget k m <> None.

Lemma has5_spec : forall m, has5 m = true <-> Has5 m.
Proof.
  intros. unfold has5, Has5. rewrite forallb_forall. split.
  - intros H k Hk. apply tracked_in in Hk. specialize (H k Hk). destruct (pget k m); congruence.
  - intros H k Hk. apply tracked_in in Hk. specialize (H k Hk). destruct (pget k m); congruence.
Qed.

Lemma has5_pset : forall m k v, Has5 m -> Has5 (pset k v m).
Proof.
  intros m k v H k0 H0. destruct (beq k0 k) eqn:E.
  - apply beq_eq in E. subst. rewrite pget_pset_eq. discriminate.
  - rewrite pget_pset_neq by auto. auto.
Qed.

Lemma has5_set_param : forall m k v st, Has5 m -> Has5 (set_param m k v st).
Proof. intros. unfold set_param. destruct (tracked (recase k) || st); auto. apply has5_pset. auto. Qed.

Lemma has5_set_from_list : forall l m st, Has5 m -> Has5 (set_from_list m l st).
Proof.
  induction l; intros; auto. unfold set_from_list. cbn [fold_left]. apply IHl. apply has5_set_param. auto.
Qed.

Section WithParams.
  Variable valid : bytes -> bytes -> bool.
  Variable bdef : pmap.
  Hypothesis Hbdef : bdef_ok valid bdef = true.

  Definition AllValid (m : pmap) : Prop :=
    forall k v, tracked k = true -> pget k m = Some v -> valid k v = true.

  Lemma all_valid_spec : forall m, all_valid valid m = true <-> AllValid m.
  Proof.
    intros. unfold all_valid, AllValid. rewrite forallb_forall. split.
    - intros H k v Hk Hg. apply tracked_in in Hk. specialize (H k Hk). rewrite Hg in H. auto.
    - intros H k Hk. destruct (pget k m) as [v|] eqn:E; auto. apply (H k v); auto. apply tracked_in. auto.
  Qed.

  Lemma bdef_ok_parts : has5 bdef = true /\ all_valid valid bdef = true /\
    forallb (fun k => opt_beq (pget k (pool bdef)) (pget k bdef)) TRACKED = true.
  Proof. unfold bdef_ok in Hbdef. rewrite !andb_true_iff in Hbdef. tauto. Qed.

  Lemma bdef_has5 : Has5 bdef.
  Proof. apply has5_spec, bdef_ok_parts. Qed.

  Lemma bdef_valid : AllValid bdef.
  Proof. apply all_valid_spec, bdef_ok_parts. Qed.

  Lemma pool_bdef : forall k, tracked k = true -> pget k (pool bdef) = pget k bdef.
  Proof.
    intros k Hk. destruct bdef_ok_parts as (_ & _ & H). rewrite forallb_forall in H.
    apply opt_beq_eq, (H k), tracked_in, Hk.
  Qed.

  Lemma pool_has5 : Has5 (pool bdef).
  Proof. intros k Hk. rewrite pool_bdef by auto. apply bdef_has5. auto. Qed.

  Lemma pool_valid : AllValid (pool bdef).
  Proof. intros k v Hk Hg. rewrite pool_bdef in Hg by auto. eapply bdef_valid; eauto. Qed.

  Lemma allvalid_pset : forall m k v, AllValid m -> (tracked k = true -> valid k v = true) -> AllValid (pset k v m).
  Proof.
    intros m k v H Hv k0 v0 H0 Hg. destruct (beq k0 k) eqn:E.
    - apply beq_eq in E. subst. rewrite pget_pset_eq in Hg. inversion Hg; subst. auto.
    - rewrite pget_pset_neq in Hg by auto. eauto.
  Qed.

  Lemma allvalid_pdel : forall m k, AllValid m -> AllValid (pdel k m).
  Proof.
    intros m k H k0 v0 H0 Hg. destruct (beq k0 k) eqn:E.
    - apply beq_eq in E. subst. rewrite pget_pdel_eq in Hg. discriminate.
    - rewrite pget_pdel_neq in Hg by auto. eauto.
  Qed.

  Lemma allvalid_nil : AllValid [].
  Proof. intros k v _ H. discriminate. Qed.

  Lemma allvalid_set_from_list : forall ps m, AllValid m ->
    (forall k v, In (k, v) ps -> tracked (recase k) = true -> valid (recase k) v = true) ->
    AllValid (set_from_list m ps false).
  Proof.
    induction ps as [|[k v] ps IH]; intros m Hm Hp; auto.
    unfold set_from_list in *. cbn [fold_left fst snd]. apply IH.
    - unfold set_param. rewrite orb_false_r. destruct (tracked (recase k)) eqn:Et; auto.
      apply allvalid_pset; auto. intros _. apply (Hp k v); auto. left. auto.
    - intros. eapply Hp; eauto. right. auto.
  Qed.

  Record BInv (b : backend) : Prop := {
    bi_has : Has5 (b_sess b);
    bi_vs : AllValid (b_sess b);
    bi_vl : AllValid (b_loc b);
    bi_snap : forall m, b_snap b = Some m -> Has5 m /\ AllValid m;
    bi_ti : b_txn b = TI -> b_loc b = [] /\ b_snap b = None }.

  Lemma binv_effsome : forall b, BInv b -> EffSome b.
  Proof.
    intros b H k Hk. unfold eff. destruct (pget k (b_loc b)); [discriminate|]. apply (bi_has b H). auto.
  Qed.

  Lemma binv_fresh : BInv (fresh_backend bdef).
  Proof.
    constructor; cbn [fresh_backend b_sess b_loc b_snap b_txn].
    - apply bdef_has5.
    - apply bdef_valid.
    - apply allvalid_nil.
    - intros; discriminate.
    - auto.
  Qed.

  Lemma reset_sess_has5 : forall k m, Has5 m ->
    Has5 (match pget k bdef with Some d => pset k d m | None => pdel k m end).
  Proof.
    intros k m H. destruct (pget k bdef) eqn:E.
    - apply has5_pset. auto.
    - intros k0 H0. destruct (beq k0 k) eqn:Ek.
      + apply beq_eq in Ek. subst. exfalso. apply (bdef_has5 k H0). auto.
      + rewrite pget_pdel_neq by auto. auto.
  Qed.

  Lemma reset_sess_valid : forall k m, AllValid m ->
    AllValid (match pget k bdef with Some d => pset k d m | None => pdel k m end).
  Proof.
    intros k m H. destruct (pget k bdef) eqn:E.
    - apply allvalid_pset; auto. intros Hk. eapply bdef_valid; eauto.
    - apply allvalid_pdel. auto.
  Qed.

  Ltac binv_fields :=
    constructor; cbn [b_sess b_loc b_snap b_txn];
    auto using has5_pset, allvalid_pset, allvalid_pdel, allvalid_nil, bdef_has5, bdef_valid,
               reset_sess_has5, reset_sess_valid;
    try (intros; discriminate).

  Lemma be_stmt_binv : forall b s, BInv b -> BInv (fst (be_stmt valid bdef b s)).
  Proof.
    intros b s HB. pose proof HB as H. destruct H as [Hh Hvs Hvl Hsn Hti].
    assert (Hsnap : Has5 (match b_snap b with Some m => m | None => b_sess b end) /\
                    AllValid (match b_snap b with Some m => m | None => b_sess b end)).
    { destruct (b_snap b) eqn:Es; auto. }
    destruct Hsnap as [Hs1 Hs2].
    destruct s; cbn [be_stmt]; unfold done, fail, do_rollback.
    - destruct (b_txn b) eqn:Et; cbn [fst]; try exact HB.
      binv_fields. intros m Hm. inversion Hm; subst. auto.
    - destruct (b_txn b) eqn:Et; cbn [fst]; binv_fields.
    - cbn [fst]. binv_fields.
    - destruct (b_txn b) eqn:Et; cbn [fst]; try exact HB.
      + destruct (bi_ti b HB Et) as [Hl Hs]. destruct (valid k v) eqn:Ev; [destruct local|]; cbn [fst is_ti]; try exact HB.
        * binv_fields. rewrite Hl. cbn [pdel]. auto.
        * binv_fields.
      + destruct (valid k v) eqn:Ev; [destruct local|]; cbn [fst is_ti]; binv_fields.
    - destruct (b_txn b) eqn:Et; cbn [fst]; try exact HB; binv_fields.
      destruct (bi_ti b HB Et) as [Hl Hs]. rewrite Hl. auto.
    - destruct (b_txn b) eqn:Et; cbn [fst]; try exact HB; binv_fields.
      destruct (bi_ti b HB Et) as [Hl Hs]. auto.
    - destruct (b_txn b); cbn [fst]; exact HB.
    - destruct (b_txn b) eqn:Et; cbn [fst]; try exact HB; binv_fields.
    - destruct (b_txn b); cbn [fst]; exact HB.
    - destruct (b_txn b) eqn:Et; cbn [fst]; try exact HB; binv_fields.
      destruct (bi_ti b HB Et) as [Hl Hs]. auto.
  Qed.

  Lemma frames_done : forall b b' t, frames (snd (done b b' t)) = frames (report b b').
  Proof. intros. unfold done. cbn [snd]. rewrite frames_app. cbn. apply app_nil_r. Qed.

  Definition Quiet (b : backend) (r : backend * list revent) : Prop :=
    frames (snd r) = [] /\ forall k, eff (fst r) k = eff b k.

  Lemma be_stmt_shape : forall b s,
    (exists b' t, be_stmt valid bdef b s = done b b' t) \/ Quiet b (be_stmt valid bdef b s).
  Proof.
    intros b s. destruct s; cbn [be_stmt];
      try (destruct (b_txn b) eqn:Et); try (destruct (valid k v) eqn:Ev); try (destruct local);
      cbn [is_ti]; eauto;
      right; unfold Quiet, fail; cbn [fst snd frames flat_map app]; split; auto.
  Qed.

  Lemma be_stmt_agree : forall b s m, BInv b -> Agree m b ->
    Agree (set_from_list m (frames (snd (be_stmt valid bdef b s))) false) (fst (be_stmt valid bdef b s)).
  Proof.
    intros b s m HB Ha. pose proof (be_stmt_binv b s HB) as HB'.
    destruct (be_stmt_shape b s) as [[b' [t E]]|[Hf He]].
    - rewrite E in *. rewrite frames_done. cbn [fst done] in *. apply agree_report; auto.
      apply binv_effsome. auto.
    - rewrite Hf. cbn. intros k Hk. rewrite He. auto.
  Qed.

  Lemma be_stmt_keys : forall b s k v, In (k, v) (frames (snd (be_stmt valid bdef b s))) -> In k REPORTED.
  Proof.
    intros b s k v H. destruct (be_stmt_shape b s) as [[b' [t E]]|[Hf He]].
    - rewrite E in H. rewrite frames_done in H. eapply frames_keys_report; eauto.
    - rewrite Hf in H. destruct H.
  Qed.

  Lemma be_msg_cons : forall b s r,
    be_msg valid bdef b (s :: r) =
    if has_err (snd (be_stmt valid bdef b s)) then be_stmt valid bdef b s
    else (fst (be_msg valid bdef (fst (be_stmt valid bdef b s)) r),
          snd (be_stmt valid bdef b s) ++ snd (be_msg valid bdef (fst (be_stmt valid bdef b s)) r)).
  Proof.
    intros. cbn [be_msg]. destruct (be_stmt valid bdef b s) as [b1 e1]. cbn [fst snd].
    destruct (has_err e1); auto. destruct (be_msg valid bdef b1 r); auto.
  Qed.

  Lemma be_msg_agree : forall ss b m, BInv b -> Agree m b ->
    BInv (fst (be_msg valid bdef b ss)) /\
    Agree (set_from_list m (frames (snd (be_msg valid bdef b ss))) false) (fst (be_msg valid bdef b ss)).
  Proof.
    induction ss as [|s r IH]; intros b m HB Ha.
    - cbn. auto.
    - rewrite be_msg_cons. destruct (has_err (snd (be_stmt valid bdef b s))).
      + split; [apply be_stmt_binv|apply be_stmt_agree]; auto.
      + cbn [fst snd]. rewrite frames_app. rewrite set_from_list_app.
        apply IH; [apply be_stmt_binv|apply be_stmt_agree]; auto.
  Qed.

  Lemma be_msg_keys : forall ss b k v, In (k, v) (frames (snd (be_msg valid bdef b ss))) -> In k REPORTED.
  Proof.
    induction ss as [|s r IH]; intros b k v H.
    - cbn in H. destruct H.
    - rewrite be_msg_cons in H. destruct (has_err (snd (be_stmt valid bdef b s))).
      + eapply be_stmt_keys; eauto.
      + cbn [snd] in H. rewrite frames_app in H. apply in_app_or in H. destruct H.
        * eapply be_stmt_keys; eauto.
        * eapply IH; eauto.
  Qed.

  Lemma be_query_eq : forall b ss,
    be_query valid bdef b ss =
    (fst (be_msg valid bdef b ss), snd (be_msg valid bdef b ss) ++ [RZ (b_txn (fst (be_msg valid bdef b ss)))]).
  Proof. intros. unfold be_query. destruct (be_msg valid bdef b ss). reflexivity. Qed.

  Lemma be_query_frames : forall b ss,
    frames (snd (be_query valid bdef b ss)) = frames (snd (be_msg valid bdef b ss)).
  Proof. intros. rewrite be_query_eq. cbn [snd]. rewrite frames_app. cbn. apply app_nil_r. Qed.

  Lemma be_query_agree : forall ss b m, BInv b -> Agree m b ->
    BInv (fst (be_query valid bdef b ss)) /\
    Agree (set_from_list m (frames (snd (be_query valid bdef b ss))) false) (fst (be_query valid bdef b ss)).
  Proof.
    intros. rewrite be_query_frames. rewrite be_query_eq. cbn [fst]. apply be_msg_agree; auto.
  Qed.

  Lemma be_query_keys : forall ss b k v, In (k, v) (frames (snd (be_query valid bdef b ss))) -> In k REPORTED.
  Proof. intros ss b k v H. rewrite be_query_frames in H. eapply be_msg_keys; eauto. Qed.

  Definition Clean (m : pmap) : Prop := forall k, tracked k = false -> pget k m = pget k bdef.
  Definition InOK (b : backend) (st : bool * bool) : Prop := b_txn b = TI -> snd st = false.
  Definition CleanOK (b : backend) (st : bool * bool) : Prop :=
    fst st = false -> Clean (b_sess b) /\ (forall m, b_snap b = Some m -> Clean m).

  Lemma flags_after_app : forall st a b, flags_after st (a ++ b) = flags_after (flags_after st a) b.
  Proof. intros. unfold flags_after. apply fold_left_app. Qed.

  Lemma flags_after_report : forall b b' st, flags_after st (report b b') = st.
  Proof.
    intros b b'. unfold report. generalize REPORTED. induction l as [|k l IH]; intros st; auto.
    cbn [flat_map]. rewrite flags_after_app. rewrite IH.
    destruct (opt_beq (eff b k) (eff b' k)); reflexivity.
  Qed.

  Lemma flags_done : forall b b' t st,
    flags_after st (snd (done b b' t)) = flag_step st (RC t).
  Proof. intros. unfold done. cbn [snd]. rewrite flags_after_app. rewrite flags_after_report. reflexivity. Qed.

  Lemma clean_pset_tracked : forall m k v, tracked k = true -> Clean m -> Clean (pset k v m).
  Proof.
    intros m k v Hk H k0 H0. rewrite pget_pset_neq; auto.
    apply beq_neq. intros E. subst. congruence.
  Qed.

  Lemma clean_reset : forall m k, Clean m ->
    Clean (match pget k bdef with Some d => pset k d m | None => pdel k m end).
  Proof.
    intros m k H k0 H0. destruct (beq k0 k) eqn:E.
    - apply beq_eq in E. subst. destruct (pget k bdef) eqn:Ed.
      + apply pget_pset_eq.
      + apply pget_pdel_eq.
    - destruct (pget k bdef); [rewrite pget_pset_neq by auto|rewrite pget_pdel_neq by auto]; auto.
  Qed.

  Lemma clean_bdef : Clean bdef.
  Proof. intros k _. reflexivity. Qed.

  Lemma dirty_clean : forall b, Clean (b_sess b) -> b_loc b = [] -> dirty_keys bdef b = [].
  Proof.
    intros b Hc Hl. unfold dirty_keys.
    assert (H : forall l, filter (fun k => negb (tracked k) && negb (opt_beq (eff b k) (pget k bdef))) l = []).
    { induction l as [|k l IH]; auto. cbn [filter]. rewrite IH.
      destruct (tracked k) eqn:Et; auto. cbn [negb andb].
      unfold eff. rewrite Hl. cbn [pget]. rewrite Hc by auto. rewrite opt_beq_refl. reflexivity. }
    apply H.
  Qed.

  Lemma msg_oos_cons : forall b s r,
    msg_oos valid bdef b (s :: r) =
    stmt_oos b s || (if has_err (snd (be_stmt valid bdef b s)) then false
                     else msg_oos valid bdef (fst (be_stmt valid bdef b s)) r).
  Proof. intros. cbn [msg_oos]. destruct (be_stmt valid bdef b s). reflexivity. Qed.

  (** the need-cleanup flag is never cleared by a reply *)
  Lemma flags_need_mono : forall evs st, fst (flags_after st evs) = false -> fst st = false.
  Proof.
    induction evs as [|e evs IH]; intros st H; auto.
    change (fst (flags_after (flag_step st e) evs) = false) in H. apply IH in H.
    destruct e as [k v|[]| |t]; cbn [flag_step fst] in H; auto. apply orb_false_iff in H. tauto.
  Qed.

  (** pgcat's belief "in transaction" is false whenever the backend is idle: by cases, each closed by
      the tag (COMMIT/ROLLBACK clear the flag), the state (not idle) or the hypothesis *)
  Lemma be_stmt_inok : forall b s st, InOK b st ->
    InOK (fst (be_stmt valid bdef b s)) (flags_after st (snd (be_stmt valid bdef b s))).
  Proof.
    intros b s [n i] Hin. unfold InOK in *. cbn [snd] in Hin.
    destruct s as [| | |local k v|k| | | |t|]; cbn [be_stmt]; destruct (b_txn b) eqn:Et;
      try destruct (valid k v); try destruct local; try destruct t; cbn [is_ti];
      rewrite ?flags_done; unfold done, fail, do_rollback; rewrite ?Et;
      cbn [fst snd flags_after fold_left flag_step b_txn]; rewrite ?Et; try discriminate; auto.
  Qed.

  (** a backend whose session values (and BEGIN snapshot) of untracked GUCs are the defaults stays so
      while the flag stays clear and no untracked SET runs inside a transaction block *)
  Lemma be_stmt_clean : forall b s st, InOK b st -> CleanOK b st -> stmt_oos b s = false ->
    CleanOK (fst (be_stmt valid bdef b s)) (flags_after st (snd (be_stmt valid bdef b s))).
  Proof.
    intros b s [n i] Hin Hcl Hoos Hn. destruct (Hcl (flags_need_mono _ _ Hn)) as [Hs Hm].
    unfold InOK in Hin. cbn [snd] in Hin.
    assert (Hsnap : Clean (match b_snap b with Some m => m | None => b_sess b end)) by (destruct (b_snap b); auto).
    destruct s as [| | |local k v|k| | | |t|]; cbn [be_stmt] in *; destruct (b_txn b) eqn:Et;
      try destruct (valid k v); try destruct local; unfold done, fail, do_rollback;
      cbn [fst b_sess b_snap];
      try (split; [auto using clean_reset, clean_bdef|intros m E; try discriminate E; auto]; fail).
    - (* BEGIN takes the snapshot *) split; auto. intros m E. inversion E; subst. auto.
    - (* SET outside a transaction raises the flag *)
      rewrite flags_done in Hn. cbn [flag_step fst snd] in Hn. rewrite (Hin eq_refl) in Hn.
      rewrite orb_true_r in Hn. discriminate.
    - (* SET inside a transaction: of a tracked GUC *)
      cbn [stmt_oos] in Hoos. rewrite Et in Hoos. cbn [is_ti negb] in Hoos. rewrite andb_true_r in Hoos.
      apply negb_false_iff in Hoos. split; auto using clean_pset_tracked.
  Qed.

  Lemma be_msg_clean : forall ss b st, InOK b st -> CleanOK b st -> msg_oos valid bdef b ss = false ->
    CleanOK (fst (be_msg valid bdef b ss)) (flags_after st (snd (be_msg valid bdef b ss))).
  Proof.
    induction ss as [|s r IH]; intros b st Hin Hc Hoos; [exact Hc|].
    rewrite msg_oos_cons in Hoos. apply orb_false_iff in Hoos. destruct Hoos as [Hs Hr].
    rewrite be_msg_cons in *. destruct (has_err (snd (be_stmt valid bdef b s))).
    - apply be_stmt_clean; auto.
    - cbn [fst snd]. rewrite flags_after_app. apply IH; auto using be_stmt_inok, be_stmt_clean.
  Qed.

  Definition Quies (b : backend) (st : bool * bool) : Prop := snd st = negb (is_ti (b_txn b)).

  (** ReadyForQuery carries the backend's transaction state *)
  Lemma be_query_quies : forall ss b st,
    Quies (fst (be_query valid bdef b ss)) (flags_after st (snd (be_query valid bdef b ss))).
  Proof. intros. rewrite be_query_eq. cbn [fst snd]. rewrite flags_after_app. reflexivity. Qed.

  Lemma be_query_clean : forall ss b st, InOK b st -> CleanOK b st -> msg_oos valid bdef b ss = false ->
    CleanOK (fst (be_query valid bdef b ss)) (flags_after st (snd (be_query valid bdef b ss))).
  Proof.
    intros ss b st Hin Hcl Hoos. rewrite be_query_eq. cbn [fst snd]. rewrite flags_after_app.
    exact (be_msg_clean ss b st Hin Hcl Hoos).
  Qed.

  Definition flags (p : pgs) : bool * bool := (need_set p, in_txn p).
  Definition BelOK (sv : srv) : Prop := Agree (bel (pg sv)) (truth sv).
  Record SrvInv (sv : srv) : Prop := { si_b : BInv (truth sv); si_bel : BelOK sv }.
  Record Idle (sv : srv) : Prop := {
    id_ti : b_txn (truth sv) = TI; id_need : need_set (pg sv) = false; id_in : in_txn (pg sv) = false }.

  Lemma quies_inok : forall b st, Quies b st -> InOK b st.
  Proof. unfold Quies, InOK. intros b st H Ht. rewrite H, Ht. reflexivity. Qed.

  Lemma agree_valid : forall m b, BInv b -> Agree m b -> AllValid m.
  Proof.
    intros m b HB Ha k v Hk Hg. rewrite Ha in Hg by auto. unfold eff in Hg.
    destruct (pget k (b_loc b)) eqn:El.
    - inversion Hg; subst. eapply (bi_vl b HB); eauto.
    - eapply (bi_vs b HB); eauto.
  Qed.

  Lemma srv_query_spec : forall sv ss,
    srv_query valid bdef sv ss =
    mkS (fst (be_query valid bdef (truth sv) ss))
        (mkP (set_from_list (bel (pg sv)) (frames (snd (be_query valid bdef (truth sv) ss))) false)
             (fst (flags_after (flags (pg sv)) (snd (be_query valid bdef (truth sv) ss))))
             (snd (flags_after (flags (pg sv)) (snd (be_query valid bdef (truth sv) ss))))
             (prep_after (need_prep (pg sv)) (snd (be_query valid bdef (truth sv) ss)))).
  Proof.
    intros. unfold srv_query. destruct (be_query valid bdef (truth sv) ss) as [b' evs] eqn:E.
    rewrite recv_all_spec. reflexivity.
  Qed.

  Lemma srv_query_inv : forall sv ss, SrvInv sv -> SrvInv (srv_query valid bdef sv ss).
  Proof.
    intros sv ss [HB Hb]. rewrite srv_query_spec.
    destruct (be_query_agree ss (truth sv) (bel (pg sv)) HB Hb) as [H1 H2].
    constructor; cbn [truth pg bel]; auto.
  Qed.

  Lemma srv_query_truth : forall sv ss, truth (srv_query valid bdef sv ss) = fst (be_query valid bdef (truth sv) ss).
  Proof. intros. rewrite srv_query_spec. reflexivity. Qed.

  Lemma srv_query_flags : forall sv ss,
    flags (pg (srv_query valid bdef sv ss)) = flags_after (flags (pg sv)) (snd (be_query valid bdef (truth sv) ss)).
  Proof. intros. rewrite srv_query_spec. symmetry. apply surjective_pairing. Qed.

  Lemma srv_query_quies : forall sv ss,
    Quies (truth (srv_query valid bdef sv ss)) (flags (pg (srv_query valid bdef sv ss))).
  Proof. intros. rewrite srv_query_truth, srv_query_flags. apply be_query_quies. Qed.

  Lemma srv_query_clean : forall sv ss, InOK (truth sv) (flags (pg sv)) -> CleanOK (truth sv) (flags (pg sv)) ->
    msg_oos valid bdef (truth sv) ss = false ->
    CleanOK (truth (srv_query valid bdef sv ss)) (flags (pg (srv_query valid bdef sv ss))).
  Proof. intros. rewrite srv_query_truth, srv_query_flags. apply be_query_clean; auto. Qed.

  (** [cleanup_state.reset()] *)
  Definition reset_flags (q : srv) : srv := mkS (truth q) (mkP (bel (pg q)) false (in_txn (pg q)) false).

  Lemma query_reset_idle : forall sv ss, SrvInv sv -> b_txn (truth (srv_query valid bdef sv ss)) = TI ->
    SrvInv (reset_flags (srv_query valid bdef sv ss)) /\ Idle (reset_flags (srv_query valid bdef sv ss)).
  Proof.
    intros sv ss HI Ht. destruct (srv_query_inv sv ss HI) as [HB Hbel]. split; constructor; auto.
    pose proof (srv_query_quies sv ss) as Hq. unfold Quies in Hq. rewrite Ht in Hq. exact Hq.
  Qed.

  Lemma fresh_inv : SrvInv (fresh_srv bdef) /\ Idle (fresh_srv bdef) /\ Clean (b_sess (truth (fresh_srv bdef))).
  Proof.
    split; [|split].
    - constructor; cbn [fresh_srv truth pg bel]; [apply binv_fresh|].
      intros k Hk. rewrite pool_bdef by auto. reflexivity.
    - constructor; reflexivity.
    - apply clean_bdef.
  Qed.

  Lemma has_err_report : forall b b', has_err (report b b') = false.
  Proof.
    intros. unfold report, has_err. generalize REPORTED. induction l as [|k l IH]; auto.
    cbn [flat_map]. rewrite existsb_app. rewrite IH.
    destruct (opt_beq (eff b k) (eff b' k)); reflexivity.
  Qed.

  Lemma has_err_done : forall b b' t, has_err (snd (done b b' t)) = false.
  Proof.
    intros. unfold done. cbn [snd]. unfold has_err. rewrite existsb_app.
    fold (has_err (report b b')). rewrite has_err_report. reflexivity.
  Qed.

  Lemma be_msg_one : forall b s, fst (be_msg valid bdef b [s]) = fst (be_stmt valid bdef b s).
  Proof. intros. rewrite be_msg_cons. destruct (has_err (snd (be_stmt valid bdef b s))); reflexivity. Qed.

  Lemma msg_oos_one : forall b s, stmt_oos b s = false -> msg_oos valid bdef b [s] = false.
  Proof.
    intros. rewrite msg_oos_cons. rewrite H. cbn [orb msg_oos].
    destruct (has_err (snd (be_stmt valid bdef b s))); reflexivity.
  Qed.

  Lemma be_msg_cleanup : forall b ra da, b_txn b = TI -> b_loc b = [] ->
    fst (be_msg valid bdef b (cleanup_stmts ra da)) = mkB (if ra then bdef else b_sess b) [] (b_snap b) TI.
  Proof.
    intros [se lo sn tx] ra da Ht Hl. cbn [b_txn b_loc] in *. subst tx lo.
    destruct ra, da; unfold cleanup_stmts; cbn [app];
      repeat (rewrite be_msg_cons; cbn [be_stmt b_txn b_sess b_loc b_snap has_err existsb is_re snd fst orb];
              rewrite ?has_err_done; unfold done; cbn [fst snd b_txn b_sess b_loc b_snap]);
      cbn [be_msg fst]; reflexivity.
  Qed.

  Lemma msg_oos_cleanup : forall b ra da, msg_oos valid bdef b (cleanup_stmts ra da) = false.
  Proof.
    intros b ra da. unfold cleanup_stmts.
    assert (H : forall ss b0, (forall s, In s ss -> forall b1, stmt_oos b1 s = false) -> msg_oos valid bdef b0 ss = false).
    { induction ss as [|s ss IH]; intros b0 Hs; auto. rewrite msg_oos_cons. rewrite (Hs s (or_introl eq_refl)). cbn [orb].
      destruct (has_err (snd (be_stmt valid bdef b0 s))); auto. apply IH. intros. apply Hs. right. auto. }
    apply H. intros s Hin b1. destruct ra, da; cbn [app In] in Hin; intuition; subst; reflexivity.
  Qed.

  (** checkin_cleanup leaves the connection idle, in agreement with pgcat's belief, and (if the
      flags were sound) clean *)
  Lemma checkin_lemma : forall sv, SrvInv sv -> Quies (truth sv) (flags (pg sv)) ->
    let sv' := fst (checkin valid bdef sv) in
    SrvInv sv' /\ Idle sv' /\
    (CleanOK (truth sv) (flags (pg sv)) -> Clean (b_sess (truth sv'))).
  Proof.
    intros sv HI HQ. unfold checkin. cbn zeta.
    (* step 1: ROLLBACK if in transaction *)
    set (s1 := if in_txn (pg sv) then srv_query valid bdef sv [SRollback] else sv).
    assert (H1 : SrvInv s1 /\ b_txn (truth s1) = TI /\ Quies (truth s1) (flags (pg s1)) /\
                 (CleanOK (truth sv) (flags (pg sv)) -> CleanOK (truth s1) (flags (pg s1)))).
    { unfold s1. destruct (in_txn (pg sv)) eqn:Ei.
      - split; [apply srv_query_inv; auto|]. split; [|split; [apply srv_query_quies|]].
        + rewrite srv_query_truth, be_query_eq. cbn [fst]. rewrite be_msg_one. reflexivity.
        + intros Hc. apply srv_query_clean; auto using quies_inok, msg_oos_one.
      - split; auto. split; auto. unfold Quies, flags in HQ. cbn [snd] in HQ. rewrite Ei in HQ.
        destruct (b_txn (truth sv)); try discriminate. auto. }
    destruct H1 as (HI1 & Ht1 & Hq1 & Hc1).
    assert (Hi1 : in_txn (pg s1) = false) by (unfold Quies in Hq1; rewrite Ht1 in Hq1; exact Hq1).
    assert (Hclean : CleanOK (truth sv) (flags (pg sv)) -> need_set (pg s1) = false -> Clean (b_sess (truth s1))).
    { intros Hc En. destruct (Hc1 Hc En). auto. }
    destruct (need_set (pg s1) || need_prep (pg s1)) eqn:En; cbn [fst].
    - (* RESET ROLE; [RESET ALL;] [DEALLOCATE ALL;] *)
      set (cs := cleanup_stmts (need_set (pg s1)) (need_prep (pg s1))).
      pose proof HI1 as [HB1 _]. destruct (bi_ti _ HB1 Ht1) as [Hl1 _].
      assert (Hb2 : truth (srv_query valid bdef s1 cs) =
                    mkB (if need_set (pg s1) then bdef else b_sess (truth s1)) [] (b_snap (truth s1)) TI).
      { rewrite srv_query_truth, be_query_eq. cbn [fst]. apply be_msg_cleanup; auto. }
      destruct (query_reset_idle s1 cs HI1) as [K1 K2]; [rewrite Hb2; reflexivity|].
      split; [exact K1|]. split; [exact K2|]. cbn [truth]. rewrite Hb2. cbn [b_sess].
      intros Hc. destruct (need_set (pg s1)) eqn:Ens; [apply clean_bdef|auto].
    - apply orb_false_iff in En. destruct En as [En Ep].
      split; [auto|]. split; [constructor; auto|auto].
  Qed.

  Lemma compare_in : forall self inc k v, In (k, v) (compare_params self inc) ->
    tracked k = true /\ pget k inc = Some v.
  Proof.
    intros self inc k v H. unfold compare_params in H. apply in_flat_map in H.
    destruct H as [x [Hx Hi]]. destruct (pget x inc) eqn:E1; [|destruct Hi].
    destruct (pget x self) eqn:E2; [|destruct Hi].
    destruct (beq b0 b); [destruct Hi|]. destruct Hi as [Hi|[]]. inversion Hi; subst.
    split; auto. apply tracked_in. auto.
  Qed.

  Lemma compare_notin : forall self inc k, Has5 self -> Has5 inc -> tracked k = true ->
    ~ In k (map fst (compare_params self inc)) -> pget k inc = pget k self.
  Proof.
    intros self inc k Hs Hi Hk Hn. specialize (Hs k Hk). specialize (Hi k Hk).
    destruct (pget k inc) as [iv|] eqn:E1; [|congruence].
    destruct (pget k self) as [v|] eqn:E2; [|congruence].
    destruct (beq v iv) eqn:E; [apply beq_eq in E; congruence|].
    exfalso. apply Hn. apply in_map_iff. exists (k, iv). split; auto.
    unfold compare_params. apply in_flat_map. exists k. split; [apply tracked_in; auto|].
    rewrite E1, E2, E. left. auto.
  Qed.

  Lemma compare_keys_nodup : forall self inc, NoDup (map fst (compare_params self inc)).
  Proof.
    intros. apply nodup_keys_flat_map; [|apply nodup_tracked].
    intros k. destruct (pget k inc); auto. destruct (pget k self) as [v|]; auto. destruct (beq v b); eauto.
  Qed.

  Lemma tracked_ident : forall k, tracked k = true -> ident_key k = true.
  Proof. intros k H. apply tracked_cases in H. intuition; subst; reflexivity. Qed.

  Lemma clean_pset_all : forall d m, (forall k v, In (k, v) d -> tracked k = true) -> Clean m -> Clean (pset_all m d).
  Proof.
    induction d as [|[k1 v1] d IH]; intros m Hk Hc; auto.
    unfold pset_all in *. cbn [fold_left fst snd]. apply IH.
    - intros. eapply Hk. right. eauto.
    - apply clean_pset_tracked; auto. eapply Hk. left. eauto.
  Qed.

  Lemma be_msg_sets : forall d b, b_txn b = TI -> b_loc b = [] ->
    (forall k v, In (k, v) d -> valid k v = true) ->
    fst (be_msg valid bdef b (map (fun kv => SSet false (fst kv) (snd kv)) d)) =
    mkB (pset_all (b_sess b) d) [] (b_snap b) TI.
  Proof.
    induction d as [|[k v] d IH]; intros b Ht Hl Hv.
    - cbn. destruct b. cbn in *. subst. reflexivity.
    - cbn [map fst snd]. rewrite be_msg_cons.
      assert (E : be_stmt valid bdef b (SSet false k v) =
                  done b (mkB (pset k v (b_sess b)) [] (b_snap b) TI) TgSet).
      { cbn [be_stmt]. rewrite Ht. rewrite (Hv k v) by (left; auto). rewrite Hl. reflexivity. }
      rewrite E. rewrite has_err_done. cbn [fst done]. rewrite IH; auto.
      intros. eapply Hv. right. eauto.
  Qed.

  Lemma compare_apply : forall self inc m k, Has5 self -> Has5 inc -> tracked k = true ->
    pget k m = pget k self -> pget k (pset_all m (compare_params self inc)) = pget k inc.
  Proof.
    intros self inc m k Hs Hi Hk Hm.
    destruct (in_dec (list_eq_dec N.eq_dec) k (map fst (compare_params self inc))) as [Hin|Hnin].
    - apply in_map_iff in Hin. destruct Hin as [[k2 v] [Hf Hin]]. cbn [fst] in Hf. subst k2.
      rewrite (pset_all_in _ m k v (compare_keys_nodup self inc) Hin). symmetry. eapply compare_in; eauto.
    - rewrite pset_all_notin, Hm by auto. symmetry. apply compare_notin; auto.
  Qed.

  (** the backend reads the generated batch as the SETs it stands for (LexProofs.no_injection); the model
      hands the text over as it is (values are C strings) *)
  Lemma sync_batch : forall b d, (forall k v, In (k, v) d -> tracked k = true /\ valid k v = true) ->
    be_sql valid bdef b (gen_batch d) = be_query valid bdef b (map (fun kv => SSet false (fst kv) (snd kv)) d).
  Proof.
    intros b d Hd. unfold be_sql. rewrite no_injection.
    - replace (forallb _ d) with true; [reflexivity|]. symmetry. apply forallb_forall. intros [k v] Hin. apply (Hd k v Hin).
    - apply forallb_forall. intros [k v] Hin. apply tracked_ident. apply (Hd k v Hin).
  Qed.

  Lemma sync_spec : forall s cm ss, sync_diff s cm <> [] ->
    be_sql valid bdef (truth s) (gen_batch (sync_diff s cm)) = be_query valid bdef (truth s) ss ->
    sync_parameters valid bdef s cm = reset_flags (srv_query valid bdef s ss).
  Proof.
    intros s cm ss Hd E. unfold sync_parameters, srv_query.
    destruct (sync_diff s cm); [contradiction|]. rewrite E. destruct (be_query valid bdef (truth s) ss). reflexivity.
  Qed.

  Lemma sync_lemma : forall sv cm, SrvInv sv -> Idle sv -> Has5 cm -> AllValid cm ->
    let sv' := sync_parameters valid bdef sv cm in
    SrvInv sv' /\ Idle sv' /\ Agree cm (truth sv') /\
    (Clean (b_sess (truth sv)) -> Clean (b_sess (truth sv'))).
  Proof.
    intros sv cm HI Hid Hh Hv. cbn zeta. pose proof HI as [HB Hbel]. pose proof Hid as [Ht _ _].
    assert (Hhb5 : Has5 (bel (pg sv))).
    { intros k Hk. rewrite Hbel by auto. apply binv_effsome; auto. }
    destruct (bi_ti _ HB Ht) as [Hloc _].
    assert (D1 : forall k v, In (k, v) (sync_diff sv cm) -> tracked k = true /\ pget k cm = Some v).
    { intros k v Hin. eapply compare_in; eauto. }
    assert (Hag : Agree cm (mkB (pset_all (b_sess (truth sv)) (sync_diff sv cm)) [] (b_snap (truth sv)) TI)).
    { intros k Hk. symmetry. apply compare_apply; auto. rewrite Hbel by auto. unfold eff. rewrite Hloc. reflexivity. }
    destruct (sync_diff sv cm) as [|p0 d0] eqn:Ed.
    - unfold sync_parameters. rewrite Ed. split; auto. split; auto. split; auto.
      intros k Hk. rewrite (Hag k Hk). unfold eff. rewrite Hloc. reflexivity.
    - set (d := p0 :: d0) in *. set (ss := map (fun kv => SSet false (fst kv) (snd kv)) d).
      assert (Hval : forall k v, In (k, v) d -> tracked k = true /\ valid k v = true).
      { intros k v Hin. destruct (D1 k v Hin) as [Hk Hg]. eauto. }
      rewrite (sync_spec sv cm ss); [|rewrite Ed; discriminate|rewrite Ed; apply sync_batch; auto].
      assert (Hb' : truth (srv_query valid bdef sv ss) = mkB (pset_all (b_sess (truth sv)) d) [] (b_snap (truth sv)) TI).
      { rewrite srv_query_truth, be_query_eq. cbn [fst]. apply be_msg_sets; auto. intros k v Hin. apply (Hval k v Hin). }
      destruct (query_reset_idle sv ss HI) as [K1 K2]; [rewrite Hb'; reflexivity|].
      split; [exact K1|]. split; [exact K2|]. cbn [reset_flags truth]. rewrite Hb'. split; [exact Hag|].
      intros Hc. apply clean_pset_all; auto. intros k v Hin. apply (D1 k v Hin).
  Qed.

  (** *** one client message relayed to the server the client holds *)
  Lemma exchange : forall sv1 cm ss, SrvInv sv1 -> Has5 cm -> Agree cm (truth sv1) ->
    InOK (truth sv1) (flags (pg sv1)) ->
    let b' := fst (be_query valid bdef (truth sv1) ss) in
    let evs := snd (be_query valid bdef (truth sv1) ss) in
    let cm2 := set_from_list cm (frames evs) false in
    let p' := snd (recv_all (Some cm) (pg sv1) evs) in
    recv_all (Some cm) (pg sv1) evs = (Some cm2, p') /\
    SrvInv (mkS b' p') /\ Agree cm2 b' /\ Has5 cm2 /\ AllValid cm2 /\ Quies b' (flags p') /\
    (CleanOK (truth sv1) (flags (pg sv1)) -> msg_oos valid bdef (truth sv1) ss = false -> CleanOK b' (flags p')) /\
    (forall k v, In (k, v) (frames evs) -> In k REPORTED).
  Proof.
    intros sv1 cm ss [HB Hbel] Hh Ha Hin. cbn zeta.
    rewrite recv_all_spec. cbn [snd fst].
    destruct (be_query_agree ss (truth sv1) cm HB Ha) as [HB2 Ha2].
    destruct (be_query_agree ss (truth sv1) (bel (pg sv1)) HB Hbel) as [_ Hbel2].
    split; [reflexivity|].
    split; [constructor; cbn [truth pg bel]; auto|].
    split; [auto|]. split; [apply has5_set_from_list; auto|].
    split; [eapply agree_valid; eauto|].
    split.
    - exact (be_query_quies ss (truth sv1) (flags (pg sv1))).
    - split; [|intros k v; apply be_query_keys].
      intros Hc Ho. exact (be_query_clean ss (truth sv1) (flags (pg sv1)) Hin Hc Ho).
  Qed.

End WithParams.

Lemma upd_eq : forall A (f : nat -> A) i x, upd f i x i = x.
Proof. intros. unfold upd. rewrite Nat.eqb_refl. auto. Qed.

Lemma upd_neq : forall A (f : nat -> A) i j x, j <> i -> upd f i x j = f j.
Proof. intros. unfold upd. destruct (Nat.eqb j i) eqn:E; auto. apply Nat.eqb_eq in E. contradiction. Qed.

Lemma in_log_if : forall b e l x, In x (log_if b e l) -> x = e \/ In x l.
Proof. intros. unfold log_if in H. destruct b; auto. destruct H; auto. Qed.

Lemma tvals_ext : forall f g, (forall k, tracked k = true -> f k = g k) -> tvals f = tvals g.
Proof. intros. unfold tvals. apply map_ext_in. intros k Hk. apply H. apply tracked_in. auto. Qed.

Definition LogOK (R : bool -> list bytes -> list (option bytes) -> list (option bytes) -> list (option bytes) -> Prop)
  (l : list ev) : Prop :=
  forall c s co dk bv cv evv, In (EvStmt c s co dk bv cv evv) l -> R co dk bv cv evv.

Definition entry_ok R (e : ev) : Prop :=
  match e with EvStmt _ _ co dk bv cv evv => R co dk bv cv evv | _ => True end.

Lemma logok_nil : forall R, LogOK R [].
Proof. intros R c s co dk bv cv evv []. Qed.

Lemma logok_log_if : forall R b e l, entry_ok R e -> LogOK R l -> LogOK R (log_if b e l).
Proof.
  intros R b e l He Hl c s co dk bv cv evv H. apply in_log_if in H.
  destruct H as [H|H]; [subst e; exact He|eapply Hl; eauto].
Qed.

Lemma logok_cons : forall R e l, entry_ok R e -> LogOK R l -> LogOK R (e :: l).
Proof. intros R. exact (logok_log_if R true). Qed.

(** the entry of a statement is right: the backend's tracked values were the client's, and a connection
    that had just been checked out had no untracked GUC off its default (within the scope: [oos = false]) *)
Definition Synced (oos co : bool) (dk : list bytes) (bv cv evv : list (option bytes)) : Prop :=
  bv = cv /\ (co = true -> oos = false -> dk = []).

Lemma synced_mono : forall oos oos' l, (oos' = false -> oos = false) -> LogOK (Synced oos) l -> LogOK (Synced oos') l.
Proof. intros oos oos' l Ho Hl c s co dk bv cv evv H. destruct (Hl _ _ _ _ _ _ _ H). split; auto. Qed.

Definition SameEst (co : bool) (dk : list bytes) (bv cv evv : list (option bytes)) : Prop := cv = evv.

Section World.
  Variable valid : bytes -> bytes -> bool.
  Variable bdefs : nat -> pmap.
  Variable psrc : nat.
  Variable hb : pgs -> bool.
  Variable session : nat -> bool.
  Hypothesis Hbdefs : forall s, bdef_ok valid (bdefs s) = true.
  Hypothesis Hhb : forall p, is_unclean p = true -> hb p = true.

  Record Inv (w : world) : Prop := {
    inv_srv : forall s, SrvInv valid (w_srv w s);
    inv_idle : forall s, w_owner w s = None ->
      Idle (w_srv w s) /\ (w_oos w = false -> Clean (bdefs s) (b_sess (truth (w_srv w s))));
    inv_held : forall s c, w_owner w s = Some c ->
      exists cl, w_cli w c = Some cl /\ c_held cl = Some s /\
        Agree (c_map cl) (truth (w_srv w s)) /\ (in_txn (pg (w_srv w s)) = true \/ session c = true) /\
        Quies (truth (w_srv w s)) (flags (pg (w_srv w s))) /\
        (w_oos w = false -> CleanOK (bdefs s) (truth (w_srv w s)) (flags (pg (w_srv w s))));
    inv_cli : forall c cl, w_cli w c = Some cl ->
      Has5 (c_map cl) /\ AllValid valid (c_map cl) /\ (forall s, c_held cl = Some s -> w_owner w s = Some c);
    inv_log : LogOK (Synced (w_oos w)) (w_log w) }.

  Lemma inv_init : Inv (init bdefs).
  Proof.
    constructor; cbn [init w_srv w_cli w_owner w_oos w_log]; try (intros; discriminate).
    - intros s. apply (fresh_inv valid (bdefs s) (Hbdefs s)).
    - intros s _. destruct (fresh_inv valid (bdefs s) (Hbdefs s)) as (H1 & H2 & H3). auto.
    - apply logok_nil.
  Qed.

  Definition op_ok (o : op) : Prop :=
    match o with OConnect _ raw => connect_valid valid raw = true | _ => True end.

  Lemma release_spec : forall w c s sv cl oos lg,
    release valid bdefs w c s sv cl oos lg =
    mkW (upd (w_srv w) s (fst (checkin valid (bdefs s) sv))) (upd (w_cli w) c cl) (upd (w_owner w) s None) oos
        (log_if (fst (snd (checkin valid (bdefs s) sv)) || fst (snd (snd (checkin valid (bdefs s) sv)))
                 || snd (snd (snd (checkin valid (bdefs s) sv))))
                (EvClean s (fst (snd (checkin valid (bdefs s) sv))) (fst (snd (snd (checkin valid (bdefs s) sv))))
                         (snd (snd (snd (checkin valid (bdefs s) sv))))) lg).
  Proof. intros. unfold release. destruct (checkin valid (bdefs s) sv) as [sv' [rb [ra da]]]. reflexivity. Qed.

  Lemma inv_ext : forall w1 w2, (forall s, w_srv w1 s = w_srv w2 s) -> (forall c, w_cli w1 c = w_cli w2 c) ->
    (forall s, w_owner w1 s = w_owner w2 s) -> w_oos w1 = w_oos w2 -> w_log w1 = w_log w2 -> Inv w1 -> Inv w2.
  Proof.
    intros w1 w2 E1 E2 E3 E4 E5 H. constructor.
    - intros s. rewrite <- E1. apply (inv_srv w1 H).
    - intros s Ho. rewrite <- E1, <- E4. apply (inv_idle w1 H). rewrite E3. auto.
    - intros s c Ho. rewrite <- E3 in Ho. destruct (inv_held w1 H s c Ho) as [cl Hx]. exists cl.
      rewrite <- E1, <- E2, <- E4. exact Hx.
    - intros c cl Hc. rewrite <- E2 in Hc. destruct (inv_cli w1 H c cl Hc) as (A & B0 & D).
      split; auto. split; auto. intros s Hs. rewrite <- E3. auto.
    - rewrite <- E4, <- E5. apply (inv_log w1 H).
  Qed.

  (** server connection [s] concerns client [c] alone: nobody else owns it and [c] holds no other *)
  Definition Alone (w : world) (c s : nat) : Prop :=
    (forall c', w_owner w s = Some c' -> c' = c) /\
    (forall cl s', w_cli w c = Some cl -> c_held cl = Some s' -> s' = s).

  Lemma held_inv : forall w c cl s, Inv w -> w_cli w c = Some cl -> c_held cl = Some s ->
    Alone w c s /\ Agree (c_map cl) (truth (w_srv w s)) /\ Quies (truth (w_srv w s)) (flags (pg (w_srv w s))) /\
    (w_oos w = false -> CleanOK (bdefs s) (truth (w_srv w s)) (flags (pg (w_srv w s)))).
  Proof.
    intros w c cl s HI Ec Eh. destruct (inv_cli w HI c cl Ec) as (_ & _ & Hown).
    destruct (inv_held w HI s c (Hown s Eh)) as (cl' & Ec' & _ & Hag & _ & Hq & Hcl).
    rewrite Ec in Ec'. inversion Ec'; subst cl'. split; [split|auto].
    - intros c' Ho. rewrite (Hown s Eh) in Ho. congruence.
    - intros cl0 s' E Es. congruence.
  Qed.

  (** client [c] has acted on connection [s]: the new connection state, client entry, owner, scope flag and
      log have to fit together at [s] and [c]; everything else is as it was *)
  Lemma inv_upd : forall w s c sv x ow oos lg, Inv w -> Alone w c s ->
    SrvInv valid sv -> (oos = false -> w_oos w = false) ->
    match ow with
    | Some c' => c' = c /\ exists cl, x = Some cl /\ c_held cl = Some s /\ Agree (c_map cl) (truth sv) /\
                   (in_txn (pg sv) = true \/ session c = true) /\ Quies (truth sv) (flags (pg sv)) /\
                   (oos = false -> CleanOK (bdefs s) (truth sv) (flags (pg sv)))
    | None => (forall cl, x = Some cl -> c_held cl = None) /\ Idle sv /\
              (oos = false -> Clean (bdefs s) (b_sess (truth sv)))
    end ->
    (forall cl, x = Some cl -> Has5 (c_map cl) /\ AllValid valid (c_map cl)) ->
    LogOK (Synced oos) lg ->
    Inv (mkW (upd (w_srv w) s sv) (upd (w_cli w) c x) (upd (w_owner w) s ow) oos lg).
  Proof.
    intros w s c sv x ow oos lg HI [Hown Hheld] HS Hoos Hs Hx Hlog.
    constructor; cbn [w_srv w_cli w_owner w_oos w_log].
    - intros s'. unfold upd. destruct (Nat.eqb s' s); [exact HS|apply (inv_srv w HI)].
    - intros s' Ho. destruct (Nat.eq_dec s' s) as [->|E].
      + rewrite upd_eq in *. subst ow. tauto.
      + rewrite upd_neq in Ho by auto. rewrite upd_neq by auto. destruct (inv_idle w HI s' Ho). auto.
    - intros s' c' Ho. destruct (Nat.eq_dec s' s) as [->|E].
      + rewrite upd_eq in *. subst ow. destruct Hs as (-> & cl & -> & Hrest). exists cl. rewrite upd_eq. auto.
      + rewrite upd_neq in Ho by auto. rewrite (upd_neq _ (w_srv w)) by auto.
        destruct (inv_held w HI s' c' Ho) as (cl & Hc & Hh & Ha & Hi & Hq & Hcl).
        exists cl. rewrite upd_neq; [auto 10|]. intros ->. apply E. eauto.
    - intros c' cl Hc. destruct (Nat.eq_dec c' c) as [->|E].
      + rewrite upd_eq in Hc. subst x. destruct (Hx cl eq_refl) as (A & B). repeat split; auto.
        intros s' Hs'. destruct ow.
        * destruct Hs as (-> & cl' & Ecl & Hh & _). inversion Ecl; subst cl'. rewrite Hh in Hs'.
          inversion Hs'. apply upd_eq.
        * destruct Hs as (Hn & _). rewrite (Hn cl eq_refl) in Hs'. discriminate.
      + rewrite upd_neq in Hc by auto. destruct (inv_cli w HI c' cl Hc) as (A & B & D). repeat split; auto.
        intros s' Hs'. specialize (D s' Hs'). rewrite upd_neq; auto. intros ->. apply E. auto.
    - exact Hlog.
  Qed.

  Lemma inv_upd_cli : forall w c x lg, Inv w -> (forall cl, w_cli w c = Some cl -> c_held cl = None) ->
    (forall cl, x = Some cl -> Has5 (c_map cl) /\ AllValid valid (c_map cl) /\ c_held cl = None) ->
    LogOK (Synced (w_oos w)) lg ->
    Inv (mkW (w_srv w) (upd (w_cli w) c x) (w_owner w) (w_oos w) lg).
  Proof.
    intros w c x lg HI Hfree Hx Hlog. constructor; cbn [w_srv w_cli w_owner w_oos w_log]; try apply HI.
    - intros s c' Ho. destruct (inv_held w HI s c' Ho) as (cl & Hc & Hh & Hrest). exists cl.
      rewrite upd_neq; auto. intros ->. rewrite (Hfree cl Hc) in Hh. discriminate.
    - intros c' cl Hc. destruct (Nat.eq_dec c' c) as [->|E].
      + rewrite upd_eq in Hc. destruct (Hx cl Hc) as (A & B & D). rewrite D. repeat split; auto. discriminate.
      + rewrite upd_neq in Hc by auto. apply (inv_cli w HI c' cl Hc).
    - exact Hlog.
  Qed.

  (** check-in of a connection whose flags tell the truth *)
  Lemma release_inv : forall w c s sv x oos lg, Inv w -> Alone w c s ->
    SrvInv valid sv -> Quies (truth sv) (flags (pg sv)) ->
    (oos = false -> w_oos w = false /\ CleanOK (bdefs s) (truth sv) (flags (pg sv))) ->
    (forall cl, x = Some cl -> Has5 (c_map cl) /\ AllValid valid (c_map cl) /\ c_held cl = None) ->
    LogOK (Synced oos) lg ->
    Inv (release valid bdefs w c s sv x oos lg).
  Proof.
    intros w c s sv x oos lg HI Hal HS HQ Hoos Hx Hlog. rewrite release_spec.
    destruct (checkin_lemma valid (bdefs s) (Hbdefs s) sv HS HQ) as (K1 & K2 & K3).
    apply inv_upd; auto.
    - intros Ho. apply Hoos. auto.
    - split; [intros cl E; apply (Hx cl E)|]. split; auto. intros Ho. apply K3. apply Hoos. auto.
    - intros cl E. destruct (Hx cl E) as (A & B & _). auto.
    - apply logok_log_if; [exact I|auto].
  Qed.

  (** the server connection right before a client's message reaches it: the one the client holds, or the
      free one it checks out, after [sync_parameters] *)
  Lemma before_statement : forall w c cl s0 s checkout, Inv w -> w_cli w c = Some cl ->
    match c_held cl with
    | Some s => Some (s, false)
    | None => match w_owner w s0 with None => Some (s0, true) | Some _ => None end
    end = Some (s, checkout) ->
    let sv1 := if checkout then sync_parameters valid (bdefs s) (w_srv w s) (c_map cl) else w_srv w s in
    Alone w c s /\ SrvInv valid sv1 /\ Agree (c_map cl) (truth sv1) /\ InOK (truth sv1) (flags (pg sv1)) /\
    (w_oos w = false -> CleanOK (bdefs s) (truth sv1) (flags (pg sv1))) /\
    (checkout = true -> w_oos w = false -> dirty_keys (bdefs s) (truth sv1) = []).
  Proof.
    intros w c cl s0 s checkout HI Ec Etgt. cbn zeta.
    destruct (inv_cli w HI c cl Ec) as (Hh5 & Hav & Hown).
    destruct (c_held cl) as [s'|] eqn:Eh.
    - inversion Etgt; subst s' checkout. destruct (held_inv w c cl s HI Ec Eh) as (Hal & Hag & Hq & Hcl).
      split; auto. split; [apply (inv_srv w HI)|]. split; auto.
      split; [apply quies_inok; auto|]. split; auto. discriminate.
    - destruct (w_owner w s0) eqn:Eo; [discriminate|]. inversion Etgt; subst s checkout.
      destruct (inv_idle w HI s0 Eo) as [Hid Hcl].
      destruct (sync_lemma valid (bdefs s0) (Hbdefs s0) (w_srv w s0) (c_map cl) (inv_srv w HI s0) Hid Hh5 Hav)
        as ([SB Sbel] & [St Sn Si] & S3 & S4).
      destruct (bi_ti _ _ SB St) as [Hl Hsn].
      split; [split; intros; congruence|]. split; [split; auto|]. split; auto.
      split; [intros _; exact Si|]. split.
      + intros Hoo _. split; [auto|]. intros m Hm. congruence.
      + intros _ Hoo. apply dirty_clean; auto.
  Qed.

  Lemma step_inv : forall w o, op_ok o -> Inv w -> Inv (step valid bdefs psrc hb session w o).
  Proof.
    intros w o Hok HI. pose proof (inv_log w HI) as HL. destruct o as [c raw|c s0 ss|c|c]; cbn [step].
    - destruct (w_cli w c) eqn:Ec; auto.
      destruct (startup_decode raw) as [ps|] eqn:Ed.
      + apply inv_upd_cli; auto.
        * intros cl E. congruence.
        * intros cl E. inversion E. cbn [c_map c_held].
          split; [apply has5_set_from_list, (pool_has5 valid (bdefs psrc) (Hbdefs psrc))|]. split; [|reflexivity].
          apply allvalid_set_from_list; [apply (pool_valid valid (bdefs psrc) (Hbdefs psrc))|].
          unfold op_ok, connect_valid in Hok. rewrite Ed in Hok. rewrite forallb_forall in Hok.
          intros k v Hin Ht. specialize (Hok (k, v) Hin). cbn [fst snd] in Hok. rewrite Ht in Hok. exact Hok.
        * apply logok_cons; [exact I|exact HL].
      + constructor; try apply HI. apply logok_cons; [exact I|exact HL].
    - destruct (w_cli w c) as [cl|] eqn:Ec; auto.
      destruct (match c_held cl with
                | Some s => Some (s, false)
                | None => match w_owner w s0 with None => Some (s0, true) | Some _ => None end
                end) as [[s checkout]|] eqn:Etgt; auto.
      destruct (inv_cli w HI c cl Ec) as (Hh5 & _ & _).
      destruct (before_statement w c cl s0 s checkout HI Ec Etgt) as (Hal & HS1 & Hag1 & Hin1 & Hcl1 & Hdk1).
      set (sv1 := if checkout then sync_parameters valid (bdefs s) (w_srv w s) (c_map cl) else w_srv w s) in *.
      destruct (exchange valid (bdefs s) (Hbdefs s) sv1 (c_map cl) ss HS1 Hh5 Hag1 Hin1)
        as (Erecv & HS2 & Hag2 & Hh2 & Hav2 & Hq2 & Hcl2 & _).
      destruct (be_query valid (bdefs s) (truth sv1) ss) as [b' evs]. cbn [fst snd] in *. rewrite Erecv.
      set (p' := snd (recv_all (Some (c_map cl)) (pg sv1) evs)) in *.
      set (oos := w_oos w || msg_oos valid (bdefs s) (truth sv1) ss).
      assert (Hoos : oos = false -> w_oos w = false /\ msg_oos valid (bdefs s) (truth sv1) ss = false)
        by apply orb_false_iff.
      assert (Hcl' : forall h cl', Some (mkC (set_from_list (c_map cl) (frames evs) false)
                                           (pset_all (c_told cl) (frames evs)) (pset_all (c_est cl) (frames evs)) h)
                                   = Some cl' ->
                     Has5 (c_map cl') /\ AllValid valid (c_map cl') /\ c_held cl' = h).
      { intros h cl' E. inversion E. auto. }
      match goal with |- Inv (if _ then mkW _ _ _ _ ?lg else _) => assert (Hlog : LogOK (Synced oos) lg) end.
      { apply logok_log_if; [exact I|]. apply logok_cons.
        - split; [apply tvals_ext; intros k Hk; symmetry; auto|]. intros Hco Ho. apply Hdk1; auto. apply Hoos. auto.
        - apply logok_log_if; [exact I|]. apply (synced_mono (w_oos w)); auto. intros Ho. apply Hoos. auto. }
      destruct (in_txn p' || session c) eqn:Eit.
      + (* the client keeps the server *)
        apply orb_true_iff in Eit. apply inv_upd; auto.
        * intros Ho. apply Hoos. auto.
        * split; auto. eexists. split; [reflexivity|]. refine (conj eq_refl (conj Hag2 (conj Eit (conj Hq2 _)))).
          intros Ho. destruct (Hoos Ho). auto.
        * intros cl' E. destruct (Hcl' _ _ E) as (A & B & _). auto.
      + (* the transaction is over: check-in and release *)
        apply release_inv; auto. intros Ho. destruct (Hoos Ho). auto.
    - destruct (w_cli w c) as [cl|] eqn:Ec; auto. destruct (c_held cl) as [s|] eqn:Eh.
      + destruct (held_inv w c cl s HI Ec Eh) as (Hal & _ & Hq & Hcl).
        apply release_inv; auto; [apply (inv_srv w HI)|discriminate].
      + apply inv_upd_cli; auto; [congruence|discriminate].
    - destruct (w_cli w c) as [cl|] eqn:Ec; auto. destruct (c_held cl) as [s|] eqn:Eh.
      + destruct (held_inv w c cl s HI Ec Eh) as (Hal & _ & Hq & Hcl).
        destruct (hb (pg (w_srv w s))) eqn:Hb.
        * destruct (fresh_inv valid (bdefs s) (Hbdefs s)) as (F1 & F2 & F3).
          apply inv_upd; auto; [split; [discriminate|auto]|discriminate|apply logok_cons; [exact I|exact HL]].
        * (* the connection goes back as it is: then its flags are clear *)
          apply (inv_ext (mkW (upd (w_srv w) s (w_srv w s)) (upd (w_cli w) c None) (upd (w_owner w) s None)
                              (w_oos w) (w_log w))); auto.
          { intros s'. cbn [w_srv]. unfold upd. destruct (Nat.eqb s' s) eqn:E; auto. apply Nat.eqb_eq in E. subst. auto. }
          assert (Hu : is_unclean (pg (w_srv w s)) = false).
          { destruct (is_unclean (pg (w_srv w s))) eqn:E; auto. rewrite (Hhb _ E) in Hb. discriminate. }
          unfold is_unclean in Hu. apply orb_false_iff in Hu. destruct Hu as [Hu _].
          apply orb_false_iff in Hu. destruct Hu as [Hu1 Hu2].
          apply inv_upd; auto; [apply (inv_srv w HI)| |discriminate].
          split; [discriminate|]. split.
          -- constructor; auto. unfold Quies, flags in Hq. cbn [snd] in Hq. rewrite Hu1 in Hq.
             destruct (b_txn (truth (w_srv w s))); auto; discriminate.
          -- intros Ho. destruct (Hcl Ho Hu2). auto.
      + apply inv_upd_cli; auto; [congruence|discriminate].
  Qed.

  Lemma run_from_ind : forall (P : world -> Prop) (ok : op -> Prop),
    (forall w o, ok o -> P w -> P (step valid bdefs psrc hb session w o)) ->
    forall ops w, Forall ok ops -> P w -> P (run_from valid bdefs psrc hb session w ops).
  Proof.
    intros P ok Hstep. induction ops as [|o ops IH]; intros w Hok Hw; [exact Hw|].
    inversion Hok; subst. apply (IH (step valid bdefs psrc hb session w o)); auto.
  Qed.

  Lemma run_from_inv : forall ops w, startup_valid valid ops = true -> Inv w -> Inv (run_from valid bdefs psrc hb session w ops).
  Proof.
    intros ops w Hv. apply (run_from_ind Inv op_ok step_inv). apply Forall_forall. intros o Ho.
    unfold startup_valid in Hv. rewrite forallb_forall in Hv. specialize (Hv o Ho). destruct o; cbn [op_ok]; auto.
  Qed.

  Lemma run_inv : forall ops, startup_valid valid ops = true -> Inv (run valid bdefs psrc hb session ops).
  Proof. intros. apply run_from_inv; auto. apply inv_init. Qed.

  Lemma synced_before_statement : forall ops, startup_valid valid ops = true ->
    forall c s co dk bv cv evv, In (EvStmt c s co dk bv cv evv) (w_log (run valid bdefs psrc hb session ops)) -> bv = cv.
  Proof. intros ops H c s co dk bv cv evv Hin. apply (inv_log _ (run_inv ops H) _ _ _ _ _ _ _ Hin). Qed.

  Lemma handoff_clean : forall ops, startup_valid valid ops = true -> w_oos (run valid bdefs psrc hb session ops) = false ->
    forall c s dk bv cv evv, In (EvStmt c s true dk bv cv evv) (w_log (run valid bdefs psrc hb session ops)) -> dk = [].
  Proof. intros ops H Ho c s dk bv cv evv Hin. apply (inv_log _ (run_inv ops H) _ _ _ _ _ _ _ Hin); auto. Qed.

  Lemma canon_in : forall k K, canon_tracked k = Some K -> tracked K = true.
  Proof. intros k K H. unfold canon_tracked in H. apply find_some in H. apply tracked_in. tauto. Qed.

  Lemma canon_none : forall k, canon_tracked k = None -> tracked (recase k) = false.
  Proof.
    intros k H. unfold recase. rewrite H.
    destruct (tracked k) eqn:Et; auto. apply tracked_cases in Et.
    destruct Et as [Et|[Et|[Et|[Et|Et]]]]; subst; discriminate.
  Qed.

  Lemma est_startup_agree : forall ps m e,
    (forall k, tracked k = true -> pget k m = pget k e) ->
    forall k, tracked k = true ->
    pget k (set_from_list m ps false) =
    pget k (fold_left (fun m kv => match canon_tracked (fst kv) with Some K => pset K (snd kv) m | None => m end) ps e).
  Proof.
    induction ps as [|[k1 v1] ps IH]; intros m e Hme k Hk; auto.
    unfold set_from_list in *. cbn [fold_left fst snd]. apply IH; auto.
    intros k0 H0. unfold set_param. rewrite orb_false_r.
    destruct (canon_tracked k1) as [K|] eqn:Ec.
    - unfold recase. rewrite Ec. rewrite (canon_in k1 K Ec).
      destruct (beq k0 K) eqn:E.
      + apply beq_eq in E. subst. rewrite !pget_pset_eq. auto.
      + rewrite !pget_pset_neq by auto. auto.
    - rewrite (canon_none k1 Ec). auto.
  Qed.

  Lemma startup_decode_pairs : forall raw ps, startup_decode raw = Some ps -> ps = take_pairs raw.
  Proof.
    intros raw ps H. unfold startup_decode in H. destruct (take_pairs raw) as [|p l]; [discriminate|].
    destruct (existsb (fun kv => beq (fst kv) k_user) (p :: l)); inversion H; auto.
  Qed.

  Definition EstOK (cl : cli) : Prop := forall k, tracked k = true -> pget k (c_map cl) = pget k (c_est cl).
  Definition ToldOK (cl : cli) : Prop := forall k, tracked k = true -> pget k (c_map cl) = pget k (c_told cl).

  Record Inv2 (w : world) : Prop := {
    inv2_cli : forall c cl, w_cli w c = Some cl -> EstOK cl /\ ToldOK cl;
    inv2_log : LogOK SameEst (w_log w) }.

  Lemma inv2_upd : forall w c x sv ow oos lg, Inv2 w -> (forall cl, x = Some cl -> EstOK cl /\ ToldOK cl) ->
    LogOK SameEst lg ->
    Inv2 (mkW sv (upd (w_cli w) c x) ow oos lg).
  Proof.
    intros w c x sv ow oos lg [HC HL] Hx Hlg. constructor; cbn [w_cli w_log]; auto.
    intros c' cl. unfold upd. destruct (Nat.eqb c' c); eauto.
  Qed.

  Lemma step_inv2 : forall w o, Inv2 w -> Inv2 (step valid bdefs psrc hb session w o).
  Proof.
    intros w o HI. pose proof HI as [HC HL]. destruct o as [c raw|c s0 ss|c|c]; cbn [step].
    - destruct (w_cli w c) eqn:Ec; auto. destruct (startup_decode raw) as [ps|] eqn:Ed.
      + apply inv2_upd; auto.
        * intros cl E. inversion E. split; [|intros k _; reflexivity]. intros k Hk. cbn [c_map c_est].
          rewrite (startup_decode_pairs _ _ Ed). apply est_startup_agree; auto.
        * apply logok_cons; [exact I|exact HL].
      + constructor; auto. apply logok_cons; [exact I|exact HL].
    - destruct (w_cli w c) as [cl|] eqn:Ec; auto.
      destruct (match c_held cl with
                | Some s => Some (s, false)
                | None => match w_owner w s0 with None => Some (s0, true) | Some _ => None end
                end) as [[s checkout]|]; auto.
      set (sv1 := if checkout then sync_parameters valid (bdefs s) (w_srv w s) (c_map cl) else w_srv w s).
      pose proof (be_query_keys valid (bdefs s) ss (truth sv1)) as Hkeys.
      destruct (be_query valid (bdefs s) (truth sv1) ss) as [b' evs]. cbn [snd] in Hkeys.
      rewrite recv_all_spec.
      assert (He : forall h cl', Some (mkC (set_from_list (c_map cl) (frames evs) false)
                                         (pset_all (c_told cl) (frames evs)) (pset_all (c_est cl) (frames evs)) h)
                                 = Some cl' -> EstOK cl' /\ ToldOK cl').
      { intros h cl' E. inversion E. destruct (HC c cl Ec) as [He Ht].
        split; intros k Hk; apply told_step; auto; intros k0 v0 Hf; eapply recase_reported; eauto. }
      match goal with |- Inv2 (if _ then mkW _ _ _ _ ?lg else _) => assert (Hlog : LogOK SameEst lg) end.
      { apply logok_log_if; [exact I|]. apply logok_cons; [apply tvals_ext, (proj1 (HC c cl Ec))|].
        apply logok_log_if; [exact I|exact HL]. }
      destruct (_ || session c); [|rewrite release_spec]; apply inv2_upd; eauto.
      apply logok_log_if; [exact I|exact Hlog].
    - destruct (w_cli w c) as [cl|]; auto.
      destruct (c_held cl); [rewrite release_spec|]; apply inv2_upd; auto; try discriminate.
      apply logok_log_if; [exact I|exact HL].
    - destruct (w_cli w c) as [cl|]; auto.
      destruct (c_held cl) as [s|]; [destruct (hb _)|]; apply inv2_upd; auto; try discriminate.
      apply logok_cons; [exact I|exact HL].
  Qed.

  Lemma run_from_inv2 : forall ops w, Inv2 w -> Inv2 (run_from valid bdefs psrc hb session w ops).
  Proof.
    intros ops w. apply (run_from_ind Inv2 (fun _ => True)); [intros; apply step_inv2; auto|].
    apply Forall_forall. auto.
  Qed.

  Lemma run_inv2 : forall ops, Inv2 (run valid bdefs psrc hb session ops).
  Proof. intros. apply run_from_inv2. constructor; [discriminate|apply logok_nil]. Qed.

  Lemma established : forall ops,
    forall c s co dk bv cv evv, In (EvStmt c s co dk bv cv evv) (w_log (run valid bdefs psrc hb session ops)) -> cv = evv.
  Proof. intros ops. exact (inv2_log _ (run_inv2 ops)). Qed.

  Lemma told_same : forall ops c cl, w_cli (run valid bdefs psrc hb session ops) c = Some cl ->
    forall k, tracked k = true -> pget k (c_map cl) = pget k (c_told cl).
  Proof. intros ops c cl Hc. exact (proj2 (inv2_cli _ (run_inv2 ops) c cl Hc)). Qed.

  Definition op_client (o : op) : nat :=
    match o with OConnect c _ => c | OQuery c _ _ => c | ODisconnect c => c | OAbort c => c end.

  Lemma step_frame : forall w o c, op_client o <> c -> w_cli (step valid bdefs psrc hb session w o) c = w_cli w c.
  Proof.
    intros w o c Hne. destruct o as [c0 raw|c0 s0 ss|c0|c0]; cbn [op_client] in Hne; cbn [step].
    - destruct (w_cli w c0); auto. destruct (startup_decode raw); cbn [w_cli]; auto. apply upd_neq. auto.
    - destruct (w_cli w c0) as [cl|]; auto.
      destruct (match c_held cl with
                | Some s => Some (s, false)
                | None => match w_owner w s0 with None => Some (s0, true) | Some _ => None end
                end) as [[s checkout]|]; auto.
      destruct (be_query valid _ _ ss) as [b' evs].
      destruct (recv_all _ _ evs) as [cm' p'].
      destruct (in_txn p' || session c0); [|rewrite release_spec]; cbn [w_cli]; apply upd_neq; auto.
    - destruct (w_cli w c0) as [cl|]; auto. destruct (c_held cl); [rewrite release_spec|]; cbn [w_cli]; apply upd_neq; auto.
    - destruct (w_cli w c0) as [cl|]; auto.
      destruct (c_held cl); [destruct (hb _)|]; cbn [w_cli]; apply upd_neq; auto.
  Qed.

  (** the ParameterStatus frames sent at startup are exactly the client's map *)
  Lemma connect_told : forall w c raw ps, w_cli w c = None -> startup_decode raw = Some ps ->
    let w' := step valid bdefs psrc hb session w (OConnect c raw) in
    exists cl, w_cli w' c = Some cl /\ c_told cl = c_map cl /\ c_map cl = set_from_list (wpool bdefs psrc) ps false /\
               w_log w' = EvTold c (c_map cl) :: w_log w.
  Proof.
    intros w c raw ps Hc Hd. cbn [step]. rewrite Hc, Hd. cbn [w_cli w_log].
    eexists. rewrite upd_eq. split; [reflexivity|]. cbn [c_told c_map]. auto.
  Qed.
End World.

(** the order in which the statements of the batch are generated (HashMap order) is irrelevant *)
Lemma batch_order : forall scs d d', Permutation d d' -> keys_ok d = true -> NoDup (map fst d) ->
  apply_set_batch scs (gen_batch d') = Some d' /\
  forall m k, pget k (pset_all m d') = pget k (pset_all m d).
Proof.
  intros scs d d' Hp Hk Hd. split.
  - apply no_injection. unfold keys_ok in *. rewrite forallb_forall in *. intros x Hx. apply Hk.
    eapply Permutation_in; [apply Permutation_sym|]; eauto.
  - assert (Hd' : NoDup (map fst d')). { eapply Permutation_NoDup; [apply Permutation_map|]; eauto. }
    intros m k. destruct (in_dec (list_eq_dec N.eq_dec) k (map fst d)) as [Hin|Hnin].
    + apply in_map_iff in Hin. destruct Hin as [[k2 v2] [Hf Hin]]. cbn [fst] in Hf. subst k2.
      rewrite (pset_all_in d m k v2) by auto.
      apply pset_all_in; auto. eapply Permutation_in; eauto.
    + rewrite (pset_all_notin d) by auto. apply pset_all_notin.
      intros Hc. apply Hnin. eapply Permutation_in; [apply Permutation_sym; apply Permutation_map|]; eauto.
Qed.
