(** C10 — the property theorems.  Each follows in a line or two from the lemmas of Proofs.v (the
    mutants: by running the schedule defined there) and is audited with [Print Assumptions];
    [Example]s pin the model's behaviour on the schedules the property text talks about and show
    that hypotheses and guards are not vacuous.

    Reading guide.  [E : env] gives every client its key and every server connection its
    (pid, secret, address).  [ops] is ANY schedule: a list of any length of the atomic accesses
    (checkout+claim, release, 'X', the two accesses of an error exit, idle close, the lookup of
    a CancelRequest and the drop of the value that served it, a CancelRequest that is refused or
    waits between accept and handle, a reload, the start of a shutdown) of any number of clients,
    in any interleaving.  [run E v ops] is the state after the schedule under code variant [v];
    [code_variant] is the code as it is (entry removed before the connection is put back on
    every exit; serving a CancelRequest does not touch the target's entry).
    [cancel_out st k] is what a CancelRequest carrying [k] does in state [st]. *)
From Coq Require Import ZArith NArith List Bool Arith.
From PV Require Import Cancel.Model Cancel.Proofs.
Import ListNotations.

(** * The code as it is *)

(** A CancelRequest is forwarded only to the server connection that the owner of the key is
    borrowing at that instant (running, checked out, not yet released), with that connection's
    own (pid, secret, address).  No exit-window guard: on every exit the entry goes first. *)
Theorem c10_cancel_targets_holder : forall E ops k t,
  cancel_out (run E code_variant ops) k = Contact t ->
  exists c s, key E c = k /\ tgt E s = t /\ held (cl (run E code_variant ops) c) = Some s /\
              cphase (cl (run E code_variant ops) c) = Running /\ sv (run E code_variant ops) s = HeldBy c.
Proof. intros E ops k t. apply targets_running. left. reflexivity. Qed.
Print Assumptions c10_cancel_targets_holder.

(** Positive half: the borrower's key does reach the borrowed session, however many cancel
    requests were served before.  Distinct client keys are an explicit hypothesis (keys are
    random i32 pairs). *)
Theorem c10_cancel_reaches_holder : forall E, key_inj E -> forall ops c s,
  sv (run E code_variant ops) s = HeldBy c ->
  cancel_out (run E code_variant ops) (key E c) = Contact (tgt E s).
Proof. intros E INJ. apply reaches_holder; auto. Qed.
Print Assumptions c10_cancel_reaches_holder.

(** Both halves as one equation: the effect of a CancelRequest with c's key is a function of what
    c holds at that instant — its own session while it runs with a server checked out, nothing
    in every other situation (never checked out, waiting for the pool, between transactions,
    after 'X', in or after an error exit). *)
Theorem c10_cancel_exact : forall E, key_inj E -> forall ops c,
  cancel_out (run E code_variant ops) (key E c) =
  match held (cl (run E code_variant ops) c), cphase (cl (run E code_variant ops) c) with
  | Some s, Running => Contact (tgt E s)
  | _, _ => Silent
  end.
Proof. intros E INJ. apply cancel_exact; auto. Qed.
Print Assumptions c10_cancel_exact.

(** Lookup and delivery are ONE step in the code as it is (server.rs:856-880 [Server::cancel]: one
    [TcpStream::connect]; on error the request is dropped — [CancelRefused] changes nothing): no
    request is ever waiting to be delivered later, so the only packets that ever reach a backend
    are those of [c10_cancel_targets_holder], sent while the owner borrows the session. *)
Theorem c10_no_late_delivery : forall E ops,
  pending (run E code_variant ops) = [] /\ late_out (run E code_variant ops) = Silent /\
  (forall st k, step E code_variant st (CancelRefused k) = st).
Proof.
  intros E ops. split; [apply no_pending; reflexivity|].
  split; [apply no_late_delivery; reflexivity|]. intros st k. apply single_attempt. reflexivity.
Qed.
Print Assumptions c10_no_late_delivery.

(** The map is read when the request's [handle] runs — after [client_entrypoint]'s
    [drain.send(1).await], where the task may have waited — not when its connection was accepted
    ([Client::cancel] only copies the key out of the packet): accepting leaves no trace, acting
    is a lookup in the state of THAT instant, so it reaches the session the key's owner borrows
    then, or nobody. *)
Theorem c10_lookup_when_handled : forall E ops k,
  step E code_variant (run E code_variant ops) (CancelAccept k) = run E code_variant ops /\
  act_out code_variant (run E code_variant ops) k = cancel_out (run E code_variant ops) k /\
  (forall t, act_out code_variant (run E code_variant ops) k = Contact t ->
     exists c s, key E c = k /\ tgt E s = t /\ held (cl (run E code_variant ops) c) = Some s /\
                 cphase (cl (run E code_variant ops) c) = Running /\ sv (run E code_variant ops) s = HeldBy c).
Proof.
  intros E ops k. split; [apply accept_inert; reflexivity|].
  rewrite act_is_lookup by reflexivity. split; auto.
  intros t. apply targets_running. left. reflexivity.
Qed.
Print Assumptions c10_lookup_when_handled.

(** Cancel handling does not depend on a graceful shutdown being in progress ([client_entrypoint]
    passes [admin_only] to [Client::startup] only; the CancelQuery arm does not look at it): what a
    CancelRequest does is [cancel_out] whether or not [Shutdown] happened, and [Shutdown] changes
    neither the map nor who borrows what — a client whose transaction is allowed to finish can
    cancel it exactly as before ([c10_cancel_exact] holds in every state, [Shutdown] is one of the
    ops of its schedules). *)
Theorem c10_shutdown_irrelevant : forall E ops k,
  cancel_eff code_variant (run E code_variant ops) k = cancel_out (run E code_variant ops) k /\
  cancel_out (step E code_variant (run E code_variant ops) Shutdown) k = cancel_out (run E code_variant ops) k /\
  sv (step E code_variant (run E code_variant ops) Shutdown) = sv (run E code_variant ops).
Proof. intros E ops k. split; [apply cancel_eff_plain; reflexivity|]. split; reflexivity. Qed.
Print Assumptions c10_shutdown_irrelevant.

(** * Every order on exits, every variant *)

(** What is sent to the server is a server connection's own key ... *)
Theorem c10_uses_server_key : forall E v ops k t,
  cancel_out (run E v ops) k = Contact t -> exists s, t = tgt E s.
Proof. intros E v ops k t H. destruct (targets_holder E v _ _ _ H) as (c & s & _ & T & _). eauto. Qed.
Print Assumptions c10_uses_server_key.

(** ... and never the client's (when no client key equals a server key). *)
Theorem c10_never_client_key : forall E v,
  (forall c s, key E c <> (fst (fst (tgt E s)), snd (fst (tgt E s)))) ->
  forall ops k t, cancel_out (run E v ops) k = Contact t -> (fst (fst t), snd (fst t)) <> k.
Proof.
  intros E v D ops k t H. destruct (targets_holder E v _ _ _ H) as (c & s & K & T & _). subst.
  intros X. apply (D c s). auto.
Qed.
Print Assumptions c10_never_client_key.

(** A key nobody was issued contacts no server. *)
Theorem c10_unknown_key_silent : forall E v ops k,
  (forall c, key E c <> k) -> cancel_out (run E v ops) k = Silent.
Proof.
  intros E v ops k U. destruct (cancel_out (run E v ops) k) eqn:X; auto.
  destruct (targets_holder E v _ _ _ X) as (c & _ & K & _). destruct (U c K).
Qed.
Print Assumptions c10_unknown_key_silent.

(** A client that holds no server connection cannot make the pooler contact any server. *)
Theorem c10_no_server_no_contact : forall E v, key_inj E -> forall ops c,
  held (cl (run E v ops) c) = None -> cancel_out (run E v ops) (key E c) = Silent.
Proof.
  intros E v INJ ops c Hn. destruct (cancel_out (run E v ops) (key E c)) eqn:X; auto.
  destruct (targets_holder E v _ _ _ X) as (c' & s & K & _ & Hh & _).
  apply INJ in K. subst c'. rewrite Hn in Hh. discriminate.
Qed.
Print Assumptions c10_no_server_no_contact.

Theorem c10_gone_holds_nothing : forall E v ops c,
  cphase (cl (run E v ops) c) = Gone -> held (cl (run E v ops) c) = None.
Proof. exact gone_holds_nothing. Qed.
Print Assumptions c10_gone_holds_nothing.

(** After the transaction ends (normal release) or after 'X', the key is dead, and stays dead
    whatever anybody does, until a client with that key checks a server out again. *)
Theorem c10_after_release_dead : forall E v ops c clean ops' s,
  held (cl (run E v ops) c) = Some s -> cphase (cl (run E v ops) c) = Running ->
  no_checkout_key E (key E c) ops' = true ->
  cancel_out (run E v (ops ++ ReleaseNormal c clean :: ops')) (key E c) = Silent /\
  cancel_out (run E v (ops ++ Terminate c clean :: ops')) (key E c) = Silent.
Proof.
  intros E v ops c clean ops' s H1 H2 N.
  destruct (release_kills E v (run E v ops) c clean s H1 H2). split; apply dead_after; auto.
Qed.
Print Assumptions c10_after_release_dead.

(** The same once the last access of an error exit (the drop of the Client value) has run. *)
Theorem c10_after_exit_dead : forall E v ops c ops',
  cphase (cl (run E v ops) c) = Exiting ->
  no_checkout_key E (key E c) ops' = true ->
  cancel_out (run E v (ops ++ ExitDropClient c :: ops')) (key E c) = Silent.
Proof. intros E v ops c ops' H N. apply dead_after; auto. apply exit_kills; auto. Qed.
Print Assumptions c10_after_exit_dead.

(** Exclusive ownership (how "the session currently borrowed by X" is read). *)
Theorem c10_ownership : forall E v ops c s,
  sv (run E v ops) s = HeldBy c <->
  (held (cl (run E v ops) c) = Some s /\ cphase (cl (run E v ops) c) = Running).
Proof. exact run_own. Qed.
Print Assumptions c10_ownership.

(** Whatever the order on exits: a contacted connection is one the key's owner checked out, and
    the owner still borrows it — or is inside the exit window (phase [Exiting]). *)
Theorem c10_cancel_targets_holder_any_order : forall E v ops k t,
  cancel_out (run E v ops) k = Contact t ->
  exists c s, key E c = k /\ tgt E s = t /\ held (cl (run E v ops) c) = Some s /\
              (sv (run E v ops) s = HeldBy c \/ cphase (cl (run E v ops) c) = Exiting).
Proof.
  intros E v ops k t H. destruct (targets_holder E v _ _ _ H) as (c & s & K & T & Hh & D).
  exists c, s. tauto.
Qed.
Print Assumptions c10_cancel_targets_holder_any_order.

(** ... so outside the class "some client is in the exit window" (computable guard) the strong
    statement holds for every order. *)
Theorem c10_cancel_targets_holder_guarded : forall E v ops k t,
  known_exit_window E v ops = false ->
  cancel_out (run E v ops) k = Contact t ->
  exists c s, key E c = k /\ tgt E s = t /\ held (cl (run E v ops) c) = Some s /\
              cphase (cl (run E v ops) c) = Running /\ sv (run E v ops) s = HeldBy c.
Proof. intros E v ops k t G. apply targets_running. right. apply known_exit_window_false, G. Qed.
Print Assumptions c10_cancel_targets_holder_guarded.

(** What the repair rests on: the order "remove the entry, then drop the guard" gives the strong
    statement for every schedule, whatever the other switch is. *)
Theorem c10_entry_first_strong : forall E v, exit_entry_first v = true -> forall ops k t,
  cancel_out (run E v ops) k = Contact t ->
  exists c s, key E c = k /\ tgt E s = t /\ held (cl (run E v ops) c) = Some s /\
              cphase (cl (run E v ops) c) = Running /\ sv (run E v ops) s = HeldBy c.
Proof. intros E v EF ops k t. apply targets_running. left. exact EF. Qed.
Print Assumptions c10_entry_first_strong.

(** Completeness outside the class "a CancelRequest with this key was already served since the
    checkout" (computable guard), for every variant ... *)
Theorem c10_cancel_reaches_holder_guarded : forall E v, key_inj E -> reload_prunes v = false ->
  claim_needs_positive_pid v = false -> forall ops c s,
  sv (run E v ops) s = HeldBy c -> known_cancel_once E v ops c = false ->
  cancel_out (run E v ops) (key E c) = Contact (tgt E s).
Proof. exact reaches_holder_guarded. Qed.
Print Assumptions c10_cancel_reaches_holder_guarded.

(** ... and unguarded as soon as serving a CancelRequest leaves the map alone. *)
Theorem c10_cancel_drop_inert_complete : forall E v, key_inj E -> cancel_drop_removes v = false ->
  reload_prunes v = false -> claim_needs_positive_pid v = false -> forall ops c s, sv (run E v ops) s = HeldBy c ->
  cancel_out (run E v ops) (key E c) = Contact (tgt E s).
Proof. exact reaches_holder. Qed.
Print Assumptions c10_cancel_drop_inert_complete.

(** A configuration reload touches neither the map nor who borrows what ... *)
Theorem c10_reload_inert : forall E v, reload_prunes v = false -> forall st l,
  csm (step E v st (Reload l)) = csm st /\ cl (step E v st (Reload l)) = cl st /\
  gcancel (step E v st (Reload l)) = gcancel st /\
  (forall s c, sv (step E v st (Reload l)) s = HeldBy c <-> sv st s = HeldBy c).
Proof. exact reload_inert. Qed.
Print Assumptions c10_reload_inert.

(** ... so the entry of a holder survives any number of reloads until it releases: every key does
    after the reloads exactly what it did before, and the same clients borrow the same sessions.
    (With [c10_cancel_exact]/[c10_cancel_reaches_holder], whose schedules include [Reload] at any
    position: the holder's key still reaches the holder's own session, nobody else's.) *)
Theorem c10_holder_survives_reloads : forall E v, reload_prunes v = false -> forall ops ls,
  (forall k, cancel_out (run E v (ops ++ map Reload ls)) k = cancel_out (run E v ops) k) /\
  (forall s c, sv (run E v (ops ++ map Reload ls)) s = HeldBy c <-> sv (run E v ops) s = HeldBy c).
Proof.
  intros E v RP ops ls. rewrite run_app. destruct (reloads_inert E v RP ls (run E v ops)) as [A B].
  split; auto. intros k. unfold cancel_out. rewrite A. reflexivity.
Qed.
Print Assumptions c10_holder_survives_reloads.

(** For every variant that reads the map in [handle]: nothing is remembered from accept time. *)
Theorem c10_lookup_in_handle_no_memory : forall E v, lookup_at_accept v = false -> forall ops k,
  accepted (run E v ops) = [] /\ act_out v (run E v ops) k = cancel_out (run E v ops) k.
Proof. intros E v LA ops k. split; [exact (no_accepted E v LA ops)|exact (act_is_lookup v LA (run E v ops) k)]. Qed.
Print Assumptions c10_lookup_in_handle_no_memory.

(** For every variant that does not retry: nothing is ever pending. *)
Theorem c10_single_attempt_no_pending : forall E v, cancel_retries v = false -> forall ops,
  pending (run E v ops) = [] /\ late_out (run E v ops) = Silent.
Proof. intros E v CR ops. split; [exact (no_pending E v CR ops)|exact (no_late_delivery E v CR ops)]. Qed.
Print Assumptions c10_single_attempt_no_pending.

(** * The mutants *)

(** F13, the exit window: with the order "connection back to the pool, then entry removed"
    another client borrows the connection and a CancelRequest with the FIRST client's key is
    forwarded to it. *)
Theorem c10_exit_window_refuted : forall cd rp cr la sr cp,
  exists ops c1 c2 s, c1 <> c2 /\ key ex_env c1 <> key ex_env c2 /\
    sv (run ex_env (mkVariant cd false rp cr la sr cp) ops) s = HeldBy c2 /\
    cphase (cl (run ex_env (mkVariant cd false rp cr la sr cp) ops) c1) = Exiting /\
    cancel_out (run ex_env (mkVariant cd false rp cr la sr cp) ops) (key ex_env c1) = Contact (tgt ex_env s).
Proof.
  intros cd rp cr la sr cp. exists window_ops, 0, 1, 0.
  destruct cp; vm_compute; repeat split; try discriminate; reflexivity.
Qed.
Print Assumptions c10_exit_window_refuted.

(** F28, cancel once: when the drop of the value that served a CancelRequest removes the key it
    carried, a second CancelRequest during the same checkout is silently ignored. *)
Theorem c10_cancel_once_refuted : forall ef rp cr la sr cp,
  exists ops c s, sv (run ex_env (mkVariant true ef rp cr la sr cp) ops) s = HeldBy c /\
    outcomes ex_env (mkVariant true ef rp cr la sr cp) ops = [Contact (tgt ex_env s)] /\
    cancel_out (run ex_env (mkVariant true ef rp cr la sr cp) ops) (key ex_env c) = Silent.
Proof. intros ef rp cr la sr cp. exists once_ops, 0, 0. destruct sr, cp; vm_compute; repeat split; reflexivity. Qed.
Print Assumptions c10_cancel_once_refuted.

(** Reload pruning (not in the code; the mutant the check must notice): if a configuration
    reload dropped the entries that point to an address which left the configuration, a client
    still running a statement on the old pool's connection could no longer cancel it. *)
Theorem c10_reload_prune_refuted : forall cd ef cr la sr cp,
  exists ops c s, sv (run ex_env (mkVariant cd ef true cr la sr cp) ops) s = HeldBy c /\
    cancel_out (run ex_env (mkVariant cd ef true cr la sr cp) ops) (key ex_env c) = Silent.
Proof. intros cd ef cr la sr cp. exists reload_ops, 0, 0. destruct cp; vm_compute; split; reflexivity. Qed.
Print Assumptions c10_reload_prune_refuted.

(** Late delivery (not in the code; the mutant the check must notice): if a request whose
    connection was refused were retried with the target copied at lookup time, it would reach the
    session after it changed hands — c1 holds nothing any more, its key is dead in the map, and
    the packet arrives at the session now borrowed by c2. *)
Theorem c10_late_delivery_refuted : forall cd ef rp la sr cp,
  exists ops c1 c2 s, c1 <> c2 /\ key ex_env c1 <> key ex_env c2 /\
    held (cl (run ex_env (mkVariant cd ef rp true la sr cp) ops) c1) = None /\
    cancel_out (run ex_env (mkVariant cd ef rp true la sr cp) ops) (key ex_env c1) = Silent /\
    sv (run ex_env (mkVariant cd ef rp true la sr cp) ops) s = HeldBy c2 /\
    late_out (run ex_env (mkVariant cd ef rp true la sr cp) ops) = Contact (tgt ex_env s).
Proof.
  intros cd ef rp la sr cp. exists late_ops, 0, 1, 0.
  destruct cp; vm_compute; repeat split; try discriminate; reflexivity.
Qed.
Print Assumptions c10_late_delivery_refuted.

(** Stale lookup (not in the code; the mutant the check must notice): if the target were looked up
    when the connection is accepted and used when [handle] finally runs, a request that waited in
    between would reach the session after it changed hands. *)
Theorem c10_stale_lookup_refuted : forall cd ef rp cr sr cp,
  exists ops c1 c2 s, c1 <> c2 /\ key ex_env c1 <> key ex_env c2 /\
    held (cl (run ex_env (mkVariant cd ef rp cr true sr cp) ops) c1) = None /\
    cancel_out (run ex_env (mkVariant cd ef rp cr true sr cp) ops) (key ex_env c1) = Silent /\
    sv (run ex_env (mkVariant cd ef rp cr true sr cp) ops) s = HeldBy c2 /\
    act_out (mkVariant cd ef rp cr true sr cp) (run ex_env (mkVariant cd ef rp cr true sr cp) ops) (key ex_env c1)
      = Contact (tgt ex_env s).
Proof.
  intros cd ef rp cr sr cp. exists stale_ops, 0, 1, 0.
  destruct cp; vm_compute; repeat split; try discriminate; reflexivity.
Qed.
Print Assumptions c10_stale_lookup_refuted.

(** Shutdown refusal (not in the code; mutant): a holder's CancelRequest is dropped once the
    graceful shutdown has begun although the map still leads to its session. *)
Theorem c10_shutdown_refusal_refuted : forall cd ef rp cr la cp,
  exists ops c s, sv (run ex_env (mkVariant cd ef rp cr la true cp) ops) s = HeldBy c /\
    cancel_out (run ex_env (mkVariant cd ef rp cr la true cp) ops) (key ex_env c) = Contact (tgt ex_env s) /\
    cancel_eff (mkVariant cd ef rp cr la true cp) (run ex_env (mkVariant cd ef rp cr la true cp) ops) (key ex_env c) = Silent.
Proof. intros cd ef rp cr la cp. exists shutdown_ops, 0, 0. destruct cp; vm_compute; repeat split; reflexivity. Qed.
Print Assumptions c10_shutdown_refusal_refuted.

(** Claim only for positive pids (not in the code; mutant): with servers whose BackendKeyData pid
    is negative the borrower's key reaches nothing.  ([c10_cancel_reaches_holder] and
    [c10_cancel_exact] are for EVERY [E]: any i32 pid / secret, equal across backends or not.) *)
Theorem c10_claim_positive_only_refuted : forall cd ef rp cr la sr,
  exists ops c s, sv (run ex_env_neg (mkVariant cd ef rp cr la sr true) ops) s = HeldBy c /\
    cancel_out (run ex_env_neg (mkVariant cd ef rp cr la sr true) ops) (key ex_env_neg c) = Silent.
Proof. intros cd ef rp cr la sr. exists [Checkout 0 0], 0, 0. vm_compute. split; reflexivity. Qed.
Print Assumptions c10_claim_positive_only_refuted.

(** * Examples *)

Notation k0 := (key ex_env 0).
Notation k1 := (key ex_env 1).
Notation t0 := (tgt ex_env 0).
Notation t1 := (tgt ex_env 1).

(** The hypotheses used above are satisfiable. *)
Example ex_keys_distinct : key_inj ex_env.
Proof. exact ex_env_inj. Qed.
Example ex_keys_disjoint : forall c s, key ex_env c <> (fst (fst (tgt ex_env s)), snd (fst (tgt ex_env s))).
Proof. exact ex_env_disjoint. Qed.

(** before checkout / during / twice during / between transactions / random key / next checkout *)
Example ex_timing : outcomes ex_env code_variant
  [Cancel k0; Checkout 0 0; Cancel k0; CancelDrop k0; Cancel k0; CancelDrop k0; ReleaseNormal 0 true;
   Cancel k0; Cancel (5, 5)%Z; Checkout 0 1; Cancel k0]
  = [Silent; Contact t0; Contact t0; Silent; Silent; Contact t1].
Proof. vm_compute. reflexivity. Qed.

(** one connection changing hands: each key reaches it only while its owner borrows it *)
Example ex_hand_over : outcomes ex_env code_variant
  [Checkout 0 0; Cancel k1; Cancel k0; CancelDrop k0; ReleaseNormal 0 true;
   Checkout 1 0; Cancel k0; Cancel k1; CancelDrop k1; Terminate 1 true; Cancel k1]
  = [Silent; Contact t0; Silent; Contact t0; Silent].
Proof. vm_compute. reflexivity. Qed.

(** error exit, the other client takes the connection between the two accesses of the exit *)
Example ex_window_code : outcomes ex_env code_variant
  (window_ops ++ [Cancel k0; Cancel k1; ExitDropClient 0; Cancel k0; Cancel k1])
  = [Silent; Contact t0; Silent; Contact t0].
Proof. vm_compute. reflexivity. Qed.
Example ex_window_mutant : outcomes ex_env v_orig (window_ops ++ [Cancel k0]) = [Contact t0].
Proof. vm_compute. reflexivity. Qed.
Example ex_window_unclean_closed :
  sv (run ex_env code_variant [Checkout 0 0; ExitDropGuard 0 false; Checkout 1 0]) 0 = Closed.
Proof. vm_compute. reflexivity. Qed.

(** cancel twice during one checkout *)
Example ex_twice_code : outcomes ex_env code_variant [Checkout 0 0; Cancel k0; CancelDrop k0; Cancel k0] = [Contact t0; Contact t0].
Proof. vm_compute. reflexivity. Qed.
Example ex_twice_mutant : outcomes ex_env v_orig [Checkout 0 0; Cancel k0; CancelDrop k0; Cancel k0] = [Contact t0; Silent].
Proof. vm_compute. reflexivity. Qed.

(** reload while a statement runs: the pool moves away from s0's address, c0 keeps s0 until it
    releases; its key reaches s0 before and after the reload, and its next checkout is elsewhere *)
Example ex_reload_code : outcomes ex_env code_variant
  [Checkout 0 0; Cancel k0; CancelDrop k0; Reload [0]; Cancel k0; CancelDrop k0; Cancel k1; Reload [0];
   Cancel k0; ReleaseNormal 0 true; Cancel k0; Checkout 0 1; Cancel k0]
  = [Contact t0; Contact t0; Silent; Contact t0; Silent; Contact t1].
Proof. vm_compute. reflexivity. Qed.
Example ex_reload_idle_retired :
  sv (run ex_env code_variant [Checkout 0 0; ReleaseNormal 0 true; Reload [0; 1]; Checkout 1 0]) 0 = Closed.
Proof. vm_compute. reflexivity. Qed.
Example ex_reload_mutant : outcomes ex_env (mkVariant false true true false false false false)
  [Checkout 0 0; Cancel k0; Reload [0]; Cancel k0] = [Contact t0; Silent].
Proof. vm_compute. reflexivity. Qed.

(** the connection of a CancelRequest is refused, the server changes hands, the listener is back *)
Example ex_refused_code : outcomes ex_env code_variant
  (late_ops ++ [DeliverLate; Cancel k0; Cancel k1]) = [Silent; Silent; Silent; Contact t0].
Proof. vm_compute. reflexivity. Qed.
Example ex_refused_mutant : outcomes ex_env (mkVariant false true false true false false false)
  (late_ops ++ [DeliverLate; Cancel k0; Cancel k1]) = [Silent; Contact t0; Silent; Contact t0].
Proof. vm_compute. reflexivity. Qed.

(** the request's task waits between accept and handle while the server changes hands *)
Example ex_stale_code : outcomes ex_env code_variant
  (stale_ops ++ [CancelAct k0; Cancel k1; CancelAccept k1; CancelAct k1]) = [Silent; Contact t0; Contact t0].
Proof. vm_compute. reflexivity. Qed.
Example ex_stale_mutant : outcomes ex_env (mkVariant false true false false true false false)
  (stale_ops ++ [CancelAct k0; Cancel k1; CancelAccept k1; CancelAct k1]) = [Contact t0; Contact t0; Contact t0].
Proof. vm_compute. reflexivity. Qed.

(** shutdown while a statement runs; servers with negative BackendKeyData *)
Example ex_shutdown_code : outcomes ex_env code_variant
  [Checkout 0 0; Cancel k0; Shutdown; Cancel k0; Cancel k1; ReleaseNormal 0 true; Cancel k0] = [Contact t0; Contact t0; Silent; Silent].
Proof. vm_compute. reflexivity. Qed.
Example ex_shutdown_mutant : outcomes ex_env (mkVariant false true false false false true false)
  [Checkout 0 0; Cancel k0; Shutdown; Cancel k0] = [Contact t0; Silent].
Proof. vm_compute. reflexivity. Qed.
Example ex_negative_pid_code : outcomes ex_env_neg code_variant
  [Checkout 0 0; Cancel k0; ReleaseNormal 0 true; Cancel k0] = [Contact (tgt ex_env_neg 0); Silent].
Proof. vm_compute. reflexivity. Qed.
Example ex_negative_pid_mutant : outcomes ex_env_neg (mkVariant false true false false false false true)
  [Checkout 0 0; Cancel k0] = [Silent].
Proof. vm_compute. reflexivity. Qed.

(** the guards separate exactly these schedules *)
Example ex_guard_window : known_exit_window ex_env v_orig window_ops = true
  /\ known_exit_window ex_env v_orig [Checkout 0 0; ExitDropGuard 0 true; ExitDropClient 0; Checkout 1 0] = false
  /\ known_exit_window ex_env v_orig [Checkout 0 0; ReleaseNormal 0 true; Checkout 1 0] = false.
Proof. vm_compute. repeat split; reflexivity. Qed.
Example ex_guard_once : known_cancel_once ex_env v_orig once_ops 0 = true
  /\ known_cancel_once ex_env v_orig [Checkout 0 0; Cancel k0; CancelDrop k0; ReleaseNormal 0 true; Checkout 0 0] 0 = false
  /\ known_cancel_once ex_env code_variant once_ops 0 = false.
Proof. vm_compute. repeat split; reflexivity. Qed.
