(** C10 — lemmas about coq/Cancel/Model.v.  All statements are for every schedule (list of
    ops of any length over any number of clients and server connections).  Three invariants of
    [step] carry them: [Own] ties the locations of the connections to the clients' records; [Safe]
    (an entry leads to the connection its key's owner holds) and [Compl] (a borrower has its
    entry) tie the map to the clients' records alone. *)
From Coq Require Import ZArith NArith List Bool Arith Lia.
From PV Require Import Cancel.Model.
Import ListNotations.

Lemma ckey_eqb_spec : forall a b : ckey, reflect (a = b) (ckey_eqb a b).
Proof.
  intros [a1 a2] [b1 b2]. unfold ckey_eqb. cbn [fst snd].
  destruct (Z.eqb_spec a1 b1), (Z.eqb_spec a2 b2); cbn; constructor; congruence.
Qed.

Lemma lookup_remove_eq : forall k m, csm_lookup k (csm_remove k m) = None.
Proof.
  induction m as [|[k' t] r IH]; cbn; auto.
  destruct (ckey_eqb_spec k' k); cbn; auto.
  destruct (ckey_eqb_spec k' k); [contradiction|auto].
Qed.

Lemma lookup_remove_neq : forall k k' m, k <> k' -> csm_lookup k' (csm_remove k m) = csm_lookup k' m.
Proof.
  induction m as [|[k0 t] r IH]; cbn; intros; auto.
  destruct (ckey_eqb_spec k0 k); cbn.
  - subst. destruct (ckey_eqb_spec k k'); [contradiction|auto].
  - destruct (ckey_eqb_spec k0 k'); auto.
Qed.

Lemma lookup_remove_some : forall k k' m t,
  csm_lookup k' (csm_remove k m) = Some t -> k <> k' /\ csm_lookup k' m = Some t.
Proof.
  intros k k' m t H. destruct (ckey_eqb_spec k k') as [->|N].
  - rewrite lookup_remove_eq in H. discriminate.
  - split; auto. rewrite lookup_remove_neq in H; auto.
Qed.

Lemma lookup_remove_none : forall k k' m, csm_lookup k' m = None -> csm_lookup k' (csm_remove k m) = None.
Proof.
  intros k k' m H. destruct (csm_lookup k' (csm_remove k m)) eqn:X; auto.
  apply lookup_remove_some in X. destruct X. congruence.
Qed.

Lemma lookup_insert_eq : forall k t m, csm_lookup k (csm_insert k t m) = Some t.
Proof. intros. unfold csm_insert. cbn. destruct (ckey_eqb_spec k k); congruence. Qed.

Lemma lookup_insert_neq : forall k k' t m, k <> k' -> csm_lookup k' (csm_insert k t m) = csm_lookup k' m.
Proof.
  intros. unfold csm_insert. cbn. destruct (ckey_eqb_spec k k'); [contradiction|].
  apply lookup_remove_neq; auto.
Qed.

Lemma lookup_remove_all_some : forall ks k m t,
  csm_lookup k (csm_remove_all ks m) = Some t -> csm_lookup k m = Some t.
Proof.
  induction ks as [|k0 r IH]; cbn; intros k m t H; auto.
  apply IH in H. apply lookup_remove_some in H. tauto.
Qed.

Lemma lookup_remove_all_none : forall ks k m,
  csm_lookup k m = None -> csm_lookup k (csm_remove_all ks m) = None.
Proof.
  intros ks k m H. destruct (csm_lookup k (csm_remove_all ks m)) eqn:X; auto.
  apply lookup_remove_all_some in X. congruence.
Qed.

Lemma retire_held : forall f l s c, retire_sv f l s = HeldBy c <-> f s = HeldBy c.
Proof.
  intros. unfold retire_sv. destruct (f s); try tauto.
  destruct (existsb (Nat.eqb s) l); split; discriminate.
Qed.

Lemma claim_cases : forall E v c s m,
  claim E v c s m = m \/ claim E v c s m = csm_insert (key E c) (tgt E s) m.
Proof. intros. unfold claim. destruct (claim_needs_positive_pid v && _); auto. Qed.

Lemma claim_always : forall E v c s m, claim_needs_positive_pid v = false ->
  claim E v c s m = csm_insert (key E c) (tgt E s) m.
Proof. intros E v c s m H. unfold claim. rewrite H. reflexivity. Qed.

Lemma lookup_claim_some : forall E v c s m k t, csm_lookup k (claim E v c s m) = Some t ->
  key E c = k /\ tgt E s = t \/ csm_lookup k m = Some t.
Proof.
  intros E v c s m k t L. destruct (claim_cases E v c s m) as [X|X]; rewrite X in L; auto.
  destruct (ckey_eqb_spec (key E c) k) as [<-|N].
  - rewrite lookup_insert_eq in L. left. split; congruence.
  - rewrite lookup_insert_neq in L; auto.
Qed.

Lemma updc_eq : forall f c x, updc f c x c = x.
Proof. intros. unfold updc. rewrite Nat.eqb_refl. reflexivity. Qed.
Lemma updc_neq : forall f c x c', c' <> c -> updc f c x c' = f c'.
Proof. intros. unfold updc. destruct (Nat.eqb_spec c' c); [contradiction|reflexivity]. Qed.
Lemma upds_eq : forall f s x, upds f s x s = x.
Proof. intros. unfold upds. rewrite Nat.eqb_refl. reflexivity. Qed.
Lemma upds_neq : forall f s x s', s' <> s -> upds f s x s' = f s'.
Proof. intros. unfold upds. destruct (Nat.eqb_spec s' s); [contradiction|reflexivity]. Qed.
Lemma updg_eq : forall f k x, updg f k x k = x.
Proof. intros. unfold updg. destruct (ckey_eqb_spec k k); congruence. Qed.
Lemma updg_neq : forall f k x k', k' <> k -> updg f k x k' = f k'.
Proof. intros. unfold updg. destruct (ckey_eqb_spec k' k); [contradiction|reflexivity]. Qed.

Lemma back_not_held : forall clean c, back clean <> HeldBy c.
Proof. destruct clean; discriminate. Qed.

(** The client whose record is [x] borrows connection [s]. *)
Definition holds (x : client) (s : sid) : Prop := held x = Some s /\ cphase x = Running.

Section Invariants.
Variable E : env.
Variable v : variant.

(** Exclusive ownership: a connection is borrowed by c iff c is running and holds it.  The only
    invariant that speaks of [sv]; the others relate the map to the clients' records. *)
Definition Own (st : state) : Prop := forall c s, sv st s = HeldBy c <-> holds (cl st c) s.

(** Every map entry is the entry of a client for the connection it checked out; that client
    still runs with it or — only with the order "connection back first" — is in the exit window. *)
Definition Safe (st : state) : Prop :=
  forall k t, csm_lookup k (csm st) = Some t ->
    exists c s, key E c = k /\ tgt E s = t /\ held (cl st c) = Some s /\
                (cphase (cl st c) = Running \/ exit_entry_first v = false /\ cphase (cl st c) = Exiting).

(** Completeness: the borrower's key leads to the borrowed connection, unless a CancelDrop
    removed the entry since the checkout. *)
Definition Compl (st : state) : Prop :=
  forall c s, holds (cl st c) s -> gcancel st (key E c) = false ->
    csm_lookup (key E c) (csm st) = Some (tgt E s).

Definition GhostOff (st : state) : Prop := forall k, gcancel st k = false.

Definition key_inj : Prop := forall c c', key E c = key E c' -> c = c'.

Lemma fold_inv : forall (P : state -> Prop),
  (forall st o, P st -> P (step E v st o)) ->
  forall ops st, P st -> P (fold_left (step E v) ops st).
Proof. intros P HP. induction ops; cbn; intros; auto. Qed.

Lemma run_inv : forall P : state -> Prop,
  P init -> (forall st o, P st -> P (step E v st o)) -> forall ops, P (run E v ops).
Proof. intros P H0 HS ops. unfold run. apply fold_inv; auto. Qed.

Lemma run_app : forall ops ops', run E v (ops ++ ops') = fold_left (step E v) ops' (run E v ops).
Proof. intros. apply fold_left_app. Qed.

(** What an op does when it does anything, by the kind of op; [s_book] stands for the five ops
    that touch nothing but the bookkeeping of the mutants and the shutdown flag. *)
Inductive stepped (st : state) : op -> state -> Prop :=
| s_same o : stepped st o st
| s_take c s (Hc : held (cl st c) = None) (Hs : sv st s = Idle) :
    stepped st (Checkout c s)
      (mkState (claim E v c s (csm st)) (updc (cl st) c (mkClient (Some s) Running)) (upds (sv st) s (HeldBy c))
               (updg (gcancel st) (key E c) false) (pending st) (accepted st) (admin_only st))
| s_give o c s clean p (Ho : In c (op_clients o)) (Hc : holds (cl st c) s) :
    stepped st o
      (mkState (csm_remove (key E c) (csm st)) (updc (cl st) c (mkClient None p)) (upds (sv st) s (back clean))
               (gcancel st) (pending st) (accepted st) (admin_only st))
| s_guard c s clean (Hc : holds (cl st c) s) :
    stepped st (ExitDropGuard c clean)
      (mkState (if exit_entry_first v then csm_remove (key E c) (csm st) else csm st)
               (updc (cl st) c (mkClient (Some s) Exiting)) (upds (sv st) s (back clean))
               (gcancel st) (pending st) (accepted st) (admin_only st))
| s_leave c (Hc : forall s, ~ holds (cl st c) s) :
    stepped st (ExitDropClient c)
      (mkState (csm_remove (key E c) (csm st)) (updc (cl st) c (mkClient None Gone)) (sv st)
               (gcancel st) (pending st) (accepted st) (admin_only st))
| s_close s (Hs : sv st s = Idle) :
    stepped st (SrvClose s)
      (mkState (csm st) (cl st) (upds (sv st) s Closed) (gcancel st) (pending st) (accepted st) (admin_only st))
| s_cdrop k (Hd : cancel_drop_removes v = true) :
    stepped st (CancelDrop k)
      (mkState (csm_remove k (csm st)) (cl st) (sv st) (updg (gcancel st) k true) (pending st) (accepted st)
               (admin_only st))
| s_reload l : stepped st (Reload l) (step E v st (Reload l))
| s_book o p a ad (Hp : p = pending st \/ cancel_retries v = true \/ p = tl (pending st))
    (Ha : a = accepted st \/ lookup_at_accept v = true \/ exists k, a = acc_remove k (accepted st)) :
    stepped st o (mkState (csm st) (cl st) (sv st) (gcancel st) p a ad).

Lemma step_view : forall st o, stepped st o (step E v st o).
Proof.
  intros st o. destruct o; cbn [step];
    repeat match goal with
           | |- context [match held (cl st ?c) with _ => _ end] =>
               destruct (cl st c) as [[?|] []] eqn:Hc; cbn [held cphase]
           | |- context [match sv st ?s with _ => _ end] => destruct (sv st s) eqn:Hs
           end; try apply s_same.
  - apply s_take; [rewrite Hc|]; auto.
  - apply s_give; [left|rewrite Hc; split]; reflexivity.
  - apply s_give; [left|rewrite Hc; split]; reflexivity.
  - apply s_guard. rewrite Hc. split; reflexivity.
  - apply s_leave. intros s' [_ X]. rewrite Hc in X. discriminate.
  - apply s_leave. intros s' [X _]. rewrite Hc in X. discriminate.
  - apply s_leave. intros s' [_ X]. rewrite Hc in X. discriminate.
  - apply s_close, Hs.
  - destruct (cancel_drop_removes v) eqn:Hd; [apply s_cdrop, Hd|apply s_same].
  - destruct (cancel_retries v) eqn:Hr; [destruct (csm_lookup k (csm st))|]; try apply s_same. apply s_book; auto.
  - apply s_book; auto.
  - destruct (lookup_at_accept v) eqn:Hl; [apply s_book; auto|apply s_same].
  - apply s_book; eauto.
  - apply s_book; auto.
  - apply s_reload.
Qed.

(** One client record and one connection change together: [c] borrows nothing but [s] and [s] is
    borrowed by nobody but [c], before and after. *)
Lemma own_upd : forall st c x s l m g p a ad, Own st ->
  (forall s', s' <> s -> ~ holds (cl st c) s' /\ ~ holds x s') ->
  (forall c', c' <> c -> sv st s <> HeldBy c' /\ l <> HeldBy c') ->
  (l = HeldBy c <-> holds x s) ->
  Own (mkState m (updc (cl st) c x) (upds (sv st) s l) g p a ad).
Proof.
  intros st c x s l m g p a ad H Nc Ns B c' s'. cbn [sv cl]. unfold updc, upds.
  destruct (Nat.eqb_spec c' c) as [->|Dc]; destruct (Nat.eqb_spec s' s) as [->|Ds].
  - exact B.
  - specialize (Nc _ Ds). specialize (H c s'). tauto.
  - specialize (Ns _ Dc). specialize (H c' s). tauto.
  - apply H.
Qed.

Lemma own_step : forall st o, Own st -> Own (step E v st o).
Proof.
  intros st o H.
  (* a borrower gives its connection back *)
  assert (give : forall c s x clean m g p a ad, holds (cl st c) s -> (forall s', ~ holds x s') ->
            Own (mkState m (updc (cl st) c x) (upds (sv st) s (back clean)) g p a ad)).
  { intros c s x clean m g p a ad Hc Nx. pose proof (proj2 (H c s) Hc) as Hs. apply own_upd; auto.
    - intros s' D. split; auto. intros [X _]. destruct Hc. congruence.
    - intros c' D. split; [congruence|apply back_not_held].
    - split; intros X; [destruct (back_not_held _ _ X)|destruct (Nx _ X)]. }
  destruct (step_view st o); auto.
  - apply own_upd; auto.
    + intros s' D. split; intros [X _]; cbn in X; congruence.
    + intros c' D. split; congruence.
    + split; [split|]; reflexivity.
  - apply give; auto. intros s' [X _]. discriminate.
  - apply give; auto. intros s' [_ X]. discriminate.
  - (* the last access of an exit: c borrows nothing before or after *)
    intros c' s'. cbn [sv cl]. unfold updc. destruct (Nat.eqb_spec c' c) as [->|]; [|apply H].
    split; intros X; [apply H in X; destruct (Hc _ X)|destruct X; discriminate].
  - intros c' s'. cbn [sv cl]. unfold upds. destruct (Nat.eqb_spec s' s) as [->|]; [|apply H].
    split; [discriminate|]. intros X. apply H in X. congruence.
  - intros c' s'. split; intros X; [apply retire_held in X; apply H, X|apply retire_held, H, X].
Qed.

Lemma run_own : forall ops, Own (run E v ops).
Proof.
  apply run_inv; [|apply own_step].
  intros c s; cbn; split; [discriminate|intros [X _]; discriminate].
Qed.

(** Frame: [Safe] passes to a state whose entries were all there before, when the clients with
    the key of such an entry have not moved. *)
Lemma safe_frame : forall st st', Safe st ->
  (forall k t, csm_lookup k (csm st') = Some t ->
     csm_lookup k (csm st) = Some t /\
     forall c, key E c = k -> cl st' c = cl st c) ->
  Safe st'.
Proof.
  intros st st' H F k t L. destruct (F _ _ L) as [L0 Fc].
  destruct (H _ _ L0) as (c & s & K & T & Hh & D).
  exists c, s. rewrite Fc; auto.
Qed.

Lemma safe_step : forall st o, Safe st -> Safe (step E v st o).
Proof.
  intros st o H.
  (* an op that removes the entry of c's key may do to c's record what it likes *)
  assert (drop : forall c x g l p a ad,
            Safe (mkState (csm_remove (key E c) (csm st)) (updc (cl st) c x) l g p a ad)).
  { intros. apply (safe_frame st); auto. intros k t L. cbn [csm cl] in *.
    apply lookup_remove_some in L. destruct L as [N L]. split; auto.
    intros c1 K. apply updc_neq. congruence. }
  destruct (step_view st o); auto; try apply drop.
  - (* Checkout c s: the new entry is c's, for s; c held nothing, so no other entry rests on it *)
    intros k t L. cbn [csm cl] in *. apply lookup_claim_some in L. destruct L as [[K T]|L].
    + exists c, s. rewrite updc_eq. cbn. auto.
    + destruct (H _ _ L) as (c1 & s1 & K & T & Hh & D). exists c1, s1.
      rewrite updc_neq; auto. intros ->. congruence.
  - (* ExitDropGuard c, connection back first: c's entry stays and c is in the exit window *)
    destruct (exit_entry_first v) eqn:EF; [apply drop|].
    intros k t L. destruct (H _ _ L) as (c1 & s1 & K & T & Hh & D). exists c1, s1. cbn [cl].
    destruct (Nat.eq_dec c1 c) as [->|N]; [|rewrite updc_neq; auto].
    rewrite updc_eq. destruct Hc as [Hc _]. cbn. repeat split; auto. congruence.
  - apply (safe_frame st); auto. intros k0 t L. apply lookup_remove_some in L. tauto.
  - (* Reload: pruning only takes entries away *)
    apply (safe_frame st); auto. cbn. intros k0 t L.
    destruct (reload_prunes v); [apply lookup_remove_all_some in L|]; auto.
Qed.

Lemma run_safe : forall ops, Safe (run E v ops).
Proof. apply run_inv; [|apply safe_step]. intros k t; cbn; discriminate. Qed.

(** Frame: an op on client c, with distinct keys, leaves alone the entry and the ghost of every
    other client; so [Compl] has to be shown for c only. *)
Lemma compl_upd : key_inj -> forall st c x m g l p a ad, Compl st ->
  (forall k, k <> key E c -> csm_lookup k m = csm_lookup k (csm st) /\ g k = gcancel st k) ->
  (forall s, holds x s -> g (key E c) = false -> csm_lookup (key E c) m = Some (tgt E s)) ->
  Compl (mkState m (updc (cl st) c x) l g p a ad).
Proof.
  intros INJ st c x m g l p a ad H F B c' s' Hh Hg. cbn [csm cl gcancel] in *.
  destruct (Nat.eq_dec c' c) as [->|N].
  - rewrite updc_eq in Hh. auto.
  - rewrite updc_neq in Hh by auto.
    destruct (F (key E c')) as [A G]. { intros X. apply INJ in X. auto. }
    rewrite A. rewrite G in Hg. apply H; auto.
Qed.

Lemma compl_step : key_inj -> reload_prunes v = false -> claim_needs_positive_pid v = false ->
  forall st o, Compl st -> Compl (step E v st o).
Proof.
  intros INJ RP CP st o H.
  (* the ops after which c borrows nothing *)
  assert (quit : forall c x m l p a ad, m = csm st \/ m = csm_remove (key E c) (csm st) ->
            (forall s, ~ holds x s) -> Compl (mkState m (updc (cl st) c x) l (gcancel st) p a ad)).
  { intros c x m l p a ad M N. apply compl_upd; auto.
    - intros k D. split; auto. destruct M as [->| ->]; auto. apply lookup_remove_neq; auto.
    - intros s X. destruct (N _ X). }
  destruct (step_view st o); auto; try (apply quit; [auto|intros s' [X Y]; discriminate]).
  - rewrite claim_always by auto. apply compl_upd; auto.
    + intros k D. rewrite lookup_insert_neq, updg_neq by auto. auto.
    + intros s' [X _] _. inversion X. apply lookup_insert_eq.
  - destruct (exit_entry_first v); auto.
  - (* CancelDrop k, removing: the ghost says so *)
    intros c' s' Hh Hg. cbn [csm cl gcancel] in *.
    destruct (ckey_eqb_spec (key E c') k) as [<-|N].
    + rewrite updg_eq in Hg. discriminate.
    + rewrite updg_neq in Hg by auto. rewrite lookup_remove_neq by auto. auto.
  - cbn [step]. rewrite RP. exact H.
Qed.

Lemma run_compl : key_inj -> reload_prunes v = false -> claim_needs_positive_pid v = false ->
  forall ops, Compl (run E v ops).
Proof.
  intros INJ RP CP. apply run_inv; [|apply compl_step; auto]. intros c s [X _]. discriminate.
Qed.

Lemma ghost_off_step : cancel_drop_removes v = false ->
  forall st o, GhostOff st -> GhostOff (step E v st o).
Proof.
  intros CD st o H. destruct (step_view st o); auto; try congruence. intros k'. cbn [gcancel].
  unfold updg. destruct (ckey_eqb k' (key E c)); auto.
Qed.

Lemma run_ghost_off : cancel_drop_removes v = false -> forall ops, GhostOff (run E v ops).
Proof. intros CD. apply run_inv; [intros k; reflexivity|apply ghost_off_step; auto]. Qed.

Lemma cancel_out_contact : forall st k t, cancel_out st k = Contact t <-> csm_lookup k (csm st) = Some t.
Proof.
  intros. unfold cancel_out. destruct (csm_lookup k (csm st)); split; intros X; inversion X; auto; discriminate.
Qed.

Lemma cancel_out_silent : forall st k, cancel_out st k = Silent <-> csm_lookup k (csm st) = None.
Proof.
  intros. unfold cancel_out. destruct (csm_lookup k (csm st)); split; intros X; auto; discriminate.
Qed.

(** A cancel reaches only a connection that the key's owner checked out; that owner is running
    and borrows it, or — only with the order "connection back first" — is in the exit window. *)
Lemma targets_holder : forall ops k t, cancel_out (run E v ops) k = Contact t ->
  exists c s, key E c = k /\ tgt E s = t /\ held (cl (run E v ops) c) = Some s /\
              (cphase (cl (run E v ops) c) = Running /\ sv (run E v ops) s = HeldBy c \/
               exit_entry_first v = false /\ cphase (cl (run E v ops) c) = Exiting).
Proof.
  intros ops k t H. apply cancel_out_contact in H.
  destruct (run_safe ops _ _ H) as (c & s & K & T & Hh & D). exists c, s. repeat split; auto.
  destruct D as [D|D]; auto. left. split; auto. apply run_own. split; auto.
Qed.

(** So with the order "entry first", or at an instant at which no client is in the exit window,
    the owner is running and borrows the connection. *)
Lemma targets_running : forall ops k t,
  exit_entry_first v = true \/ (forall c, cphase (cl (run E v ops) c) <> Exiting) ->
  cancel_out (run E v ops) k = Contact t ->
  exists c s, key E c = k /\ tgt E s = t /\ held (cl (run E v ops) c) = Some s /\
              cphase (cl (run E v ops) c) = Running /\ sv (run E v ops) s = HeldBy c.
Proof.
  intros ops k t G H. destruct (targets_holder _ _ _ H) as (c & s & K & T & Hh & [D|[EF D]]).
  - exists c, s. tauto.
  - destruct G as [G|G]; [congruence|destruct (G _ D)].
Qed.

Lemma untouched_step : forall st o c, ~ In c (op_clients o) -> cl (step E v st o) c = cl st c.
Proof.
  intros st o c N. destruct (step_view st o); cbn in *; auto; rewrite updc_neq; auto; intros ->; tauto.
Qed.

Lemma untouched : forall ops st c, ~ In c (mentioned ops) -> cl (fold_left (step E v) ops st) c = cl st c.
Proof.
  induction ops as [|o r IH]; cbn [fold_left mentioned flat_map]; intros; auto.
  rewrite IH by (intros X; apply H; apply in_or_app; auto).
  apply untouched_step. intros X; apply H; apply in_or_app; auto.
Qed.

Lemma exiting_mentioned : forall ops c, cphase (cl (run E v ops) c) = Exiting -> In c (mentioned ops).
Proof.
  intros ops c H. destruct (in_dec Nat.eq_dec c (mentioned ops)); auto.
  unfold run in H. rewrite untouched in H by auto. cbn in H. discriminate.
Qed.

Lemma known_exit_window_false : forall ops, known_exit_window E v ops = false ->
  forall c, cphase (cl (run E v ops) c) <> Exiting.
Proof.
  intros ops H c X. unfold known_exit_window in H.
  assert (existsb (fun c => is_exiting (cphase (cl (run E v ops) c))) (mentioned ops) = true).
  { apply existsb_exists. exists c. split; [apply exiting_mentioned; auto|rewrite X; reflexivity]. }
  congruence.
Qed.

Lemma gone_holds_nothing : forall ops c, cphase (cl (run E v ops) c) = Gone -> held (cl (run E v ops) c) = None.
Proof.
  apply (run_inv (fun st => forall c, cphase (cl st c) = Gone -> held (cl st c) = None)).
  - intros c; cbn; discriminate.
  - intros st o H. destruct (step_view st o); auto; intros c' G; cbn [cl] in *;
      unfold updc in *; destruct (Nat.eqb c' c); auto; discriminate.
Qed.

Lemma dead_stays_dead : forall k ops st, csm_lookup k (csm st) = None -> no_checkout_key E k ops = true ->
  csm_lookup k (csm (fold_left (step E v) ops st)) = None.
Proof.
  induction ops as [|o r IH]; cbn; intros st H N; auto.
  apply andb_prop in N. destruct N as [N1 N2]. apply IH; auto. clear IH N2.
  destruct (csm_lookup k (csm (step E v st o))) eqn:L; auto. exfalso. revert L.
  destruct (step_view st o); cbn [csm step]; try congruence; intros L;
    try (apply lookup_remove_some in L; destruct L; congruence).
  - apply lookup_claim_some in L. destruct L as [[K _]|L]; [|congruence].
    rewrite K in N1. destruct (ckey_eqb_spec k k); [discriminate|congruence].
  - destruct (exit_entry_first v); [apply lookup_remove_some in L; destruct L|]; congruence.
  - destruct (reload_prunes v); [apply lookup_remove_all_some in L|]; congruence.
Qed.

Lemma dead_after : forall ops o ops' k,
  csm_lookup k (csm (step E v (run E v ops) o)) = None -> no_checkout_key E k ops' = true ->
  cancel_out (run E v (ops ++ o :: ops')) k = Silent.
Proof.
  intros ops o ops' k H N. apply cancel_out_silent. rewrite run_app. cbn [fold_left]. apply dead_stays_dead; auto.
Qed.

Lemma release_kills : forall st c clean s, held (cl st c) = Some s -> cphase (cl st c) = Running ->
  csm_lookup (key E c) (csm (step E v st (ReleaseNormal c clean))) = None /\
  csm_lookup (key E c) (csm (step E v st (Terminate c clean))) = None.
Proof. intros st c clean s H1 H2. cbn. rewrite H1, H2. cbn. split; apply lookup_remove_eq. Qed.

Lemma exit_kills : forall st c, cphase (cl st c) = Exiting ->
  csm_lookup (key E c) (csm (step E v st (ExitDropClient c))) = None.
Proof. intros st c H. cbn. rewrite H. destruct (held (cl st c)); cbn; apply lookup_remove_eq. Qed.

Lemma reaches_holder_guarded : key_inj -> reload_prunes v = false -> claim_needs_positive_pid v = false ->
  forall ops c s,
  sv (run E v ops) s = HeldBy c -> known_cancel_once E v ops c = false ->
  cancel_out (run E v ops) (key E c) = Contact (tgt E s).
Proof.
  intros INJ RP CP ops c s H G. apply cancel_out_contact. apply run_compl; auto. apply run_own; auto.
Qed.

Lemma reaches_holder : key_inj -> cancel_drop_removes v = false -> reload_prunes v = false ->
  claim_needs_positive_pid v = false -> forall ops c s,
  sv (run E v ops) s = HeldBy c -> cancel_out (run E v ops) (key E c) = Contact (tgt E s).
Proof.
  intros INJ CD RP CP ops c s H. apply reaches_holder_guarded; auto.
  unfold known_cancel_once. apply run_ghost_off; auto.
Qed.

(** Both directions in one equation, for every variant that has the order "entry first" and whose
    map is touched by checkout and release only: what a CancelRequest with c's key does is a
    function of what c holds right now. *)
Lemma cancel_exact : key_inj -> exit_entry_first v = true -> cancel_drop_removes v = false ->
  reload_prunes v = false -> claim_needs_positive_pid v = false -> forall ops c,
  cancel_out (run E v ops) (key E c) =
  match held (cl (run E v ops) c), cphase (cl (run E v ops) c) with
  | Some s, Running => Contact (tgt E s)
  | _, _ => Silent
  end.
Proof.
  intros INJ EF CD RP CP ops c. destruct (cancel_out (run E v ops) (key E c)) eqn:X.
  - destruct (held (cl (run E v ops) c)) as [s|] eqn:Hh; auto.
    destruct (cphase (cl (run E v ops) c)) eqn:Hp; auto.
    rewrite (reaches_holder INJ CD RP CP ops c s) in X; [discriminate|]. apply run_own. split; auto.
  - destruct (targets_running ops _ _ (or_introl EF) X) as (c' & s & K & T & Hh & Hp & _).
    apply INJ in K. subst. rewrite Hh, Hp. reflexivity.
Qed.

Lemma reload_inert : reload_prunes v = false -> forall st l,
  csm (step E v st (Reload l)) = csm st /\ cl (step E v st (Reload l)) = cl st /\
  gcancel (step E v st (Reload l)) = gcancel st /\
  (forall s c, sv (step E v st (Reload l)) s = HeldBy c <-> sv st s = HeldBy c).
Proof.
  intros RP st l. cbn. rewrite RP. repeat split; try apply retire_held.
Qed.

Lemma reloads_inert : reload_prunes v = false -> forall ls st,
  csm (fold_left (step E v) (map Reload ls) st) = csm st /\
  (forall s c, sv (fold_left (step E v) (map Reload ls) st) s = HeldBy c <-> sv st s = HeldBy c).
Proof.
  intros RP. induction ls as [|l r IH]; intros st; cbn [map fold_left].
  - split; [reflexivity|tauto].
  - destruct (IH (step E v st (Reload l))) as [A B].
    destruct (reload_inert RP st l) as (C & _ & _ & D).
    split; [congruence|]. intros s c. rewrite B. apply D.
Qed.

(** Lookup and the single delivery attempt are one step: a request whose connection cannot be
    established leaves no trace ... *)
Lemma single_attempt : cancel_retries v = false -> forall st k, step E v st (CancelRefused k) = st.
Proof. intros CR st k. cbn. rewrite CR. reflexivity. Qed.

(** ... so nothing is ever waiting to be delivered later. *)
Lemma no_pending : cancel_retries v = false -> forall ops, pending (run E v ops) = [].
Proof.
  intros CR. apply (run_inv (fun st => pending st = [])); [reflexivity|].
  intros st o H. destruct (step_view st o); auto. cbn [pending].
  destruct Hp as [->|[X| ->]]; [auto|congruence|rewrite H; reflexivity].
Qed.

Lemma no_late_delivery : cancel_retries v = false -> forall ops, late_out (run E v ops) = Silent.
Proof. intros CR ops. unfold late_out. rewrite no_pending; auto. Qed.

(** The map is read when [handle] runs, not when the connection is accepted: accepting leaves no
    trace and acting is a lookup in the state of that instant. *)
Lemma accept_inert : lookup_at_accept v = false -> forall st k, step E v st (CancelAccept k) = st.
Proof. intros LA st k. cbn. rewrite LA. reflexivity. Qed.

Lemma act_is_lookup : lookup_at_accept v = false -> forall st k, act_out v st k = cancel_out st k.
Proof. intros LA st k. unfold act_out. rewrite LA. reflexivity. Qed.

Lemma no_accepted : lookup_at_accept v = false -> forall ops, accepted (run E v ops) = [].
Proof.
  intros LA. apply (run_inv (fun st => accepted st = [])); [reflexivity|].
  intros st o H. destruct (step_view st o); auto. cbn [accepted].
  destruct Ha as [->|[X|[k ->]]]; [auto|congruence|rewrite H; reflexivity].
Qed.

(** A graceful shutdown touches nothing that cancel handling reads. *)
Lemma shutdown_inert : forall st,
  csm (step E v st Shutdown) = csm st /\ cl (step E v st Shutdown) = cl st /\
  sv (step E v st Shutdown) = sv st /\ pending (step E v st Shutdown) = pending st /\
  accepted (step E v st Shutdown) = accepted st /\ admin_only (step E v st Shutdown) = true.
Proof. intros st. cbn. repeat split. Qed.

Lemma cancel_eff_plain : shutdown_refuses_cancel v = false -> forall st k, cancel_eff v st k = cancel_out st k.
Proof. intros SR st k. unfold cancel_eff. rewrite SR. reflexivity. Qed.

End Invariants.

Lemma ex_env_inj : key_inj ex_env.
Proof. intros c c' H. unfold ex_env in H. cbn [key] in H. apply (f_equal fst) in H. cbn [fst] in H. lia. Qed.

Lemma ex_env_disjoint : forall c s, key ex_env c <> (fst (fst (tgt ex_env s)), snd (fst (tgt ex_env s))).
Proof.
  intros c s. unfold ex_env. cbn [key tgt fst snd]. intros H.
  pose proof (f_equal fst H) as H1. pose proof (f_equal snd H) as H2. cbn [fst snd] in H1, H2. lia.
Qed.

(** The schedules below are evaluated under the statements of Props.v.  Each shows what one
    switch does whatever the others are; of those only [claim_needs_positive_pid] (read by every
    [Checkout]) and, where [outcomes] is taken, [shutdown_refuses_cancel] are read along the way. *)

(** The exit window of the order "put the connection back, then remove the entry" (the code
    before 1e593b9; kept as a mutant of the model): c0 checks out s0, its task ends on an error
    path (connection clean: back to the pool), c1 checks the same connection out, and a
    CancelRequest carrying c0's key is forwarded to the session now executing c1's work. *)
Definition window_ops : list op := [Checkout 0 0; ExitDropGuard 0 true; Checkout 1 0].

(** The cancel-once defect of "the drop of the value that served a CancelRequest removes the key
    it carried" (the code before 1e593b9; kept as a mutant): c0 holds s0; a first CancelRequest is
    served (and its Client value dropped); a second one is silently ignored although c0 still
    holds s0. *)
Definition once_ops : list op := [Checkout 0 0; Cancel (key ex_env 0); CancelDrop (key ex_env 0)].

(** A reload that prunes the map by address (a mutant; the code does not do this): c0 runs a
    statement on s0, the configuration is reloaded so that s0's address leaves it, and a
    CancelRequest with c0's key is silently ignored although c0 still borrows s0 (the old pool's
    connection lives until the transaction ends). *)
Definition reload_ops : list op := [Checkout 0 0; Reload [0]].

(** Retrying the throw-away connection with the target copied at lookup time (a mutant; the code
    makes one attempt): c0 runs a statement on s0, the connection of its CancelRequest is refused,
    c0's statement ends, c1 borrows s0, and the retry then delivers c0's request to the session
    that now executes c1's work. *)
Definition late_ops : list op :=
  [Checkout 0 0; CancelRefused (key ex_env 0); ReleaseNormal 0 true; Checkout 1 0].

(** Looking the target up when the connection is accepted and using it when [handle] runs (a
    mutant; the code reads the map in [handle]): c0 runs a statement on s0, its CancelRequest is
    accepted and its task waits (for the accounting channel), c0's statement ends, c1 borrows s0,
    and the request then goes to the session that now executes c1's work. *)
Definition stale_ops : list op :=
  [Checkout 0 0; CancelAccept (key ex_env 0); ReleaseNormal 0 true; Checkout 1 0].

(** Refusing CancelRequests once a graceful shutdown has begun (a mutant): c0 is in the middle of
    a statement when the shutdown starts (its transaction may finish); its CancelRequest would
    reach s0 by the map, and is dropped. *)
Definition shutdown_ops : list op := [Checkout 0 0; Shutdown].
