(** C05 — writes and transactions go to the primary; explicit role choices are honoured.
    Property theorems only: each is a lemma of Proofs.v or a corollary of a few lines, audited with
    [Print Assumptions]; Examples validate the specification and show non-vacuity. *)
From Coq Require Import List Bool Arith.
From PV Require Import Route.Model Route.Spec Route.Proofs.
Import ListNotations.

(** The test the code applies to a Query statement (has_locks || is_mutation_query, a
    recursive walk) is exactly the specification's "not a plain read" (a statement about
    every node of the flattened query). *)
Theorem c05_write_test_is_spec : forall q, is_write_query q = negb (plain_query q).
Proof. exact is_write_query_spec. Qed.
Print Assumptions c05_write_test_is_spec.

(** With read/write splitting on, a message of ANY length that contains, at ANY position, a
    statement that is not a plain read (transaction start, non-Query statement, Query with a
    lock / Insert / Update / SELECT INTO at any depth) leaves [infer] with role Primary —
    whatever the previous role, the overrides, the activity oracle, and whatever stands
    before or after that statement.  ([has_non_plain] is an [existsb]: every order is
    covered; the message is non-empty by the hypothesis.) *)
Theorem c05_writes_to_primary : forall cfg act st ss,
  s_splitting cfg = true -> override_off st = false -> has_non_plain ss = true ->
  active_role (fst (infer_act cfg act st ss)) = Some Primary.
Proof. exact infer_writes_primary. Qed.
Print Assumptions c05_writes_to_primary.

(** the same through the gating of client.rs, for a 'Q' or a 'P' message *)
Theorem c05_client_writes_to_primary : forall cfg st act ss,
  parser_on cfg st = true -> s_splitting cfg = true -> has_non_plain ss = true ->
  active_role (route_parsed cfg st (PAcc act ss)) = Some Primary.
Proof. exact route_parsed_writes. Qed.
Print Assumptions c05_client_writes_to_primary.

(** the empty message (no statement) goes to the primary and infer reports an error *)
Theorem c05_empty_message_primary : forall cfg act st,
  s_splitting cfg = true -> override_off st = false -> infer_act cfg act st [] = (set_role st (Some Primary), true).
Proof. intros cfg act st. exact (infer_spec cfg act st []). Qed.
Print Assumptions c05_empty_message_primary.

(** The role decision does not depend on shard inference: whatever infer_shard /
    infer_shard_on_write deliver for each statement (no key, any shard, an error) and whether
    automatic_sharding_key is set or not, the router state after [infer] is the one of the
    shard-free model — in particular a shard conflict BEFORE a write (SELECT .. id=5; SELECT ..
    id=6; DELETE ..) cannot leave the message on a replica. *)
Theorem c05_role_independent_of_shards : forall cfg act auto sho st shard ss,
  fst (fst (infer_sh cfg act auto sho st shard ss)) = fst (infer_act cfg act st ss).
Proof. intros. rewrite infer_sh_spec. reflexivity. Qed.
Print Assumptions c05_role_independent_of_shards.

(** (C06, F39 repair) With an automatic sharding key the shard a message selects, and whether it is
    refused as multi-shard, depend on the statements' keys alone: not on recent database activity
    (Initializing window, mutation cache), not on the role state.  False of the code before the
    repair, where a read pinned to the primary by activity skipped shard inference. *)
Theorem c05_shard_independent_of_activity : forall cfg auto sho st st' shard ss act act',
  s_splitting cfg = true -> override_off st = false -> override_off st' = false -> ss <> [] ->
  snd (fst (infer_sh cfg act auto sho st shard ss)) = snd (fst (infer_sh cfg act' auto sho st' shard ss)) /\
  snd (infer_sh cfg act auto sho st shard ss) = snd (infer_sh cfg act' auto sho st' shard ss).
Proof.
  intros cfg auto sho st st' shard ss act act' Hs Ho Ho' Hne.
  rewrite !infer_sh_spec. cbn [fst snd]. rewrite Hs, Ho, Ho', !infer_spec by assumption.
  destruct ss; [contradiction|]. split; reflexivity.
Qed.
Print Assumptions c05_shard_independent_of_activity.

Theorem c05_no_sharding_key_no_shard_effect : forall cfg act sho st shard ss,
  infer_sh cfg act false sho st shard ss = (fst (infer_act cfg act st ss), shard, snd (infer_act cfg act st ss)).
Proof.
  intros. rewrite infer_sh_spec. cbv zeta. rewrite shard_loop_off. destruct (_ && _); cbn; rewrite orb_false_r; reflexivity.
Qed.
Print Assumptions c05_no_sharding_key_no_shard_effect.

(** Plain reads only, no activity pin: Replica, or "any" when primary reads are enabled
    (pool setting or session override). *)
Theorem c05_reads_not_pinned : forall cfg act st ss,
  s_splitting cfg = true -> override_off st = false -> ss <> [] -> is_quiet act -> forallb plain_read ss = true ->
  active_role (fst (infer_act cfg act st ss)) = (if preads_on cfg st then None else Some Replica).
Proof. exact infer_reads. Qed.
Print Assumptions c05_reads_not_pinned.

(** activity-based routing, database Initializing: everything goes to the primary *)
Theorem c05_activity_pin_primary : forall cfg act st ss,
  s_splitting cfg = true -> override_off st = false -> a_init act = true ->
  active_role (fst (infer_act cfg act st ss)) = Some Primary.
Proof.
  intros cfg act st ss Hs Ho Hi. rewrite infer_spec by assumption. destruct ss; [reflexivity|]. rewrite Hi. reflexivity.
Qed.
Print Assumptions c05_activity_pin_primary.

(** The decision is recomputed: with splitting on, the role after [infer] is a function of
    (settings, primary-reads override, activity oracle, statements) — two router states
    that differ in the previous role (and parser override) get the same role.  Holds for
    every message including the empty one.  What does NOT recompute is listed in the
    Examples [c05_stale_*] below. *)
Theorem c05_recomputed : forall cfg act st st' ss,
  s_splitting cfg = true -> override_off st = false -> override_off st' = false -> o_preads st = o_preads st' ->
  active_role (fst (infer_act cfg act st ss)) = active_role (fst (infer_act cfg act st' ss)).
Proof. exact infer_recomputed. Qed.
Print Assumptions c05_recomputed.

Theorem c05_client_recomputed : forall cfg st st' act ss,
  parser_on cfg st = true -> parser_on cfg st' = true -> s_splitting cfg = true ->
  o_preads st = o_preads st' ->
  active_role (route_parsed cfg st (PAcc act ss)) = active_role (route_parsed cfg st' (PAcc act ss)).
Proof.
  intros cfg st st' act ss Hp Hp' Hs Ho. rewrite !route_parsed_on by assumption.
  apply infer_recomputed; eauto using parser_on_override.
Qed.
Print Assumptions c05_client_recomputed.

(** After SET SERVER ROLE TO 'primary' | 'replica' | 'any', every later transaction (simple
    query, extended batch, accepted or rejected by the parser, plain read or write) and
    every SET PRIMARY READS leaves the role at the chosen value, until the next SET SERVER
    ROLE: the role after each item of the session is the chosen one. *)
Theorem c05_explicit_role_sticky : forall cfg st a its,
  explicit_arg a = true -> forallb not_set_role its = true ->
  Forall (fun st' => active_role st' = role_of_arg a)
         (session_trace cfg (exec_role_cmd cfg st (SetServerRole a)) its).
Proof. intros cfg st a its Ha Hn. apply pinned_session; [apply set_role_pins; exact Ha|exact Hn]. Qed.
Print Assumptions c05_explicit_role_sticky.

(** The step behind it: while the session's parser override is Some(false) (set by SET SERVER ROLE
    primary|replica|any) NO message changes the router state — accepted or rejected, empty (";",
    a comment, an empty Parse), read or write, whether or not the pool's plugins make client.rs
    parse it, with or without read/write splitting. *)
Theorem c05_explicit_role_survives_any_message : forall cfg st p,
  override_off st = true -> route_parsed cfg st p = st.
Proof. exact route_parsed_off. Qed.
Print Assumptions c05_explicit_role_survives_any_message.

Theorem c05_explicit_role_sticky_end : forall cfg st a its,
  explicit_arg a = true -> forallb not_set_role its = true ->
  active_role (session cfg (exec_role_cmd cfg st (SetServerRole a)) its) = role_of_arg a.
Proof.
  intros cfg st a its Ha Hn. apply (pinned_session cfg (role_of_arg a) its); [apply set_role_pins; exact Ha|exact Hn].
Qed.
Print Assumptions c05_explicit_role_sticky_end.

(** pool.get hands out only servers of the requested role and of the selected shard; a
    banned / unreachable / unhealthy candidate is skipped, never replaced by a server of
    another role; no usable candidate = checkout error. *)
Theorem c05_no_substitute : forall nshards d usable sh r addrs a,
  In (GServer a) (pool_get nshards d usable sh (Some r) addrs) ->
  a_role a = r /\ In a addrs /\
  (forall s, retain_shard nshards sh d = Some (Some s) -> a_shard a = s).
Proof.
  intros nshards d usable sh r addrs a H. apply pool_get_server in H as (keep & Hk & Hc & _).
  apply candidates_sound in Hc as (Hin & Hr & Hs).
  split; [apply Hr; reflexivity|]. split; [exact Hin|]. intros s Hs'. apply Hs. congruence.
Qed.
Print Assumptions c05_no_substitute.

Theorem c05_no_candidate_is_error : forall nshards d usable sh want addrs keep,
  retain_shard nshards sh d = Some keep ->
  filter usable (candidates want keep addrs) = [] ->
  pool_get nshards d usable sh want addrs = [GAllDown].
Proof. intros nshards d usable sh want addrs keep Hk He. unfold pool_get. rewrite Hk, He. reflexivity. Qed.
Print Assumptions c05_no_candidate_is_error.

Theorem c05_candidates_exact : forall want keep addrs a,
  In a (candidates want keep addrs) ->
  In a addrs /\ (forall r, want = Some r -> a_role a = r) /\ (forall s, keep = Some s -> a_shard a = s).
Proof. exact candidates_sound. Qed.
Print Assumptions c05_candidates_exact.

(** Extended protocol, standard batch (one accepted Parse, then Bind/Describe/Execute of
    that statement, Sync): if the bound statement is not a plain read the checkout asks for
    the primary.  The guard [known_c05] excludes the recorded class F17. *)
Theorem c05_batch_to_primary : forall cfg st g b,
  parser_on cfg st = true -> s_splitting cfg = true ->
  known_c05 b = false -> batch_has_write g b = true ->
  active_role (client_route cfg st (IBatch b)) = Some Primary.
Proof. exact batch_to_primary. Qed.
Print Assumptions c05_batch_to_primary.

(** * Concrete statements (definitions in Spec.v) *)

(** The three witnesses of the former defect F3 (fixed in bd1691c) and the four of its
    follow-up (fixed in 8b40d89) go to the primary; so does every order of write / read. *)
Example c05_former_witnesses :
  role_after false [SQuery sel_for_update; SQuery sel] = Some Primary /\
  role_after false [SQuery sel_into] = Some Primary /\
  role_after false [SQuery insert_cte] = Some Primary /\
  role_after false [SQuery paren_lock] = Some Primary /\
  role_after false [SQuery cte_lock] = Some Primary /\
  role_after false [SQuery derived_lock] = Some Primary /\
  role_after false [SQuery union_into] = Some Primary /\
  role_after false [SQuery with_insert] = Some Primary.
Proof. vm_compute. repeat split. Qed.

Example c05_orders :
  role_after false [SQuery sel; SOther] = Some Primary /\
  role_after false [SOther; SQuery sel] = Some Primary /\
  role_after false [SQuery sel_for_update; SQuery sel; SQuery sel] = Some Primary /\
  role_after false [SQuery sel; SQuery sel; SQuery sel_into] = Some Primary /\
  role_after false [SStartTxn] = Some Primary /\
  role_after false [SQuery sel; SStartTxn; SQuery sel] = Some Primary /\
  role_after false [SQuery sel; SQuery sel; SStartTxn] = Some Primary /\
  role_after true [SQuery sel; SOther; SQuery sel] = Some Primary.
Proof. vm_compute. repeat split. Qed.

(** the specification classifies the examples as intended *)
Example c05_spec_examples :
  map plain_query [sel; read_cte_union; sel_for_update; sel_into; insert_cte; paren_lock; cte_lock;
                   derived_lock; union_into; with_insert]
  = [true; true; false; false; false; false; false; false; false; false] /\
  plain_read SStartTxn = false /\ plain_read SOther = false.
Proof. vm_compute. repeat split. Qed.

(** non-vacuity of c05_reads_not_pinned; the session override beats the pool setting *)
Example c05_reads :
  role_after false [SQuery sel] = Some Replica /\
  role_after false [SQuery sel; SQuery read_cte_union] = Some Replica /\
  role_after true [SQuery sel] = None /\
  active_role (fst (infer (cfg_split true)
                 (exec_role_cmd (cfg_split true) st_replica (SetPrimaryReads POff)) [SQuery sel])) = Some Replica /\
  is_quiet quiet.
Proof. vm_compute. repeat split. Qed.

(** * What is NOT recomputed (the previous role is used as it stands) *)

Example c05_stale_role_cases :
  (* the parser rejects the SQL (e.g. VACUUM, LOCK TABLE, a DELETE in a CTE): role unchanged *)
  route_parsed (cfg_split false) st_replica PRej = st_replica /\
  (* parser on, splitting off: infer does nothing *)
  active_role (route_parsed {| s_parser := true; s_splitting := false; s_primary_reads := false; s_default_role := None; s_plugins := false |}
                            st_replica (PAcc quiet [SOther])) = Some Replica /\
  (* a batch without Parse (Bind/Execute of a named statement) carries no SQL *)
  client_route (cfg_split false) st_replica (IBatch [BBind 7; BOther]) = st_replica.
Proof. vm_compute. repeat split. Qed.

(** * Known class F17: the role of a batch is the one of its LAST accepted Parse (or stale) *)
Theorem c05_batch_refuted :
  (exists cfg st g b, parser_on cfg st = true /\ s_splitting cfg = true /\ known_c05 b = true /\
     batch_has_write g b = true /\ active_role (client_route cfg st (IBatch b)) <> Some Primary) /\
  (* Parse(INSERT) Bind Execute Parse(SELECT) Bind Execute Sync *)
  active_role (client_route (cfg_split false) st_primary
      (IBatch [BParse 1 (PAcc quiet [SOther]); BBind 1; BOther;
               BParse 2 (PAcc quiet [SQuery sel]); BBind 2; BOther])) = Some Replica /\
  (* earlier: Parse s7 (INSERT) ... ; now, after a plain SELECT: Bind s7, Execute, Sync *)
  batch_has_write [(7, Some [SOther])] [BBind 7; BOther] = true /\
  active_role (client_route (cfg_split false) st_replica (IBatch [BBind 7; BOther])) = Some Replica.
Proof.
  split; [|vm_compute; repeat split].
  exists (cfg_split false), st_primary, [],
    [BParse 1 (PAcc quiet [SOther]); BBind 1; BOther; BParse 2 (PAcc quiet [SQuery sel]); BBind 2; BOther].
  vm_compute. repeat split; discriminate.
Qed.
Print Assumptions c05_batch_refuted.

Example c05_batch_std_example :
  known_c05 [BParse 1 (PAcc quiet [SOther]); BBind 1; BOther] = false /\
  batch_has_write [] [BParse 1 (PAcc quiet [SOther]); BBind 1; BOther] = true /\
  active_role (client_route (cfg_split false) st_replica
                 (IBatch [BParse 1 (PAcc quiet [SOther]); BBind 1; BOther])) = Some Primary.
Proof. vm_compute. repeat split. Qed.

(** * Explicit role: honoured even for writes; 'auto' / 'default' resume inference *)
Example c05_explicit_examples :
  let c := cfg_split false in
  let s0 := init_state c in
  active_role (session c s0 [ICmd (SetServerRole RReplica); ISimple (PAcc quiet [SOther])]) = Some Replica /\
  active_role (session c s0 [ICmd (SetServerRole RPrimary); ISimple (PAcc quiet [SQuery sel]);
                             IBatch [BParse 1 (PAcc quiet [SQuery sel]); BBind 1]]) = Some Primary /\
  active_role (session c s0 [ICmd (SetServerRole RAny); ICmd (SetPrimaryReads POff); ISimple (PAcc quiet [SOther])]) = None /\
  active_role (session c s0 [ICmd (SetServerRole RPrimary); ICmd (SetServerRole RAuto); ISimple (PAcc quiet [SQuery sel])]) = Some Replica /\
  active_role (session c s0 [ICmd (SetServerRole RReplica); ICmd (SetServerRole RDefault); ISimple (PAcc quiet [SOther])]) = Some Primary.
Proof. vm_compute. repeat split. Qed.

(** * pool.get: a 2-shard pool; shard 1 has no replica *)
Definition A (i s : nat) (r : role) : addr := {| a_id := i; a_shard := s; a_role := r |}.
Definition pool2 : list addr := [A 0 0 Primary; A 1 0 Replica; A 2 0 Replica; A 3 1 Primary].
Definition all_up (a : addr) := true.

Example c05_pool_examples :
  pool_get 2 (DShard 0) all_up (Some 0) (Some Primary) pool2 = [GServer (A 0 0 Primary)] /\
  pool_get 2 (DShard 0) all_up (Some 0) (Some Replica) pool2 = [GServer (A 1 0 Replica); GServer (A 2 0 Replica)] /\
  pool_get 2 (DShard 0) all_up (Some 0) None pool2 = [GServer (A 0 0 Primary); GServer (A 1 0 Replica); GServer (A 2 0 Replica)] /\
  (* no replica on shard 1: an error, not the primary *)
  pool_get 2 (DShard 0) all_up (Some 1) (Some Replica) pool2 = [GAllDown] /\
  (* both replicas of shard 0 banned: an error, not the primary *)
  pool_get 2 (DShard 0) (fun a => role_eqb (a_role a) Primary) (Some 0) (Some Replica) pool2 = [GAllDown] /\
  pool_get 2 (DShard 0) all_up (Some 2) (Some Primary) pool2 = [GInvalidShard] /\
  role_matches Replica None = true /\ role_matches Replica (Some Primary) = false /\ role_matches Mirror None = true.
Proof. vm_compute. repeat split. Qed.

(** Known class F23 lives below the model: for [SELECT * FROM (TABLE t FOR UPDATE) AS d]
    sqlparser 0.52 delivers this lock-free AST (parse_as_table swallows [FOR UPDATE]); on
    it the code and the model rightly answer "plain read".  Only the monitor, which works
    from the generator's label, sees the lost lock. *)
Example c05_f23_delivered_ast_is_plain :
  let q := MkQuery [] [MkQuery [] [] BTable false] (BSelect false) false in
  plain_query q = true /\ role_after false [SQuery q] = Some Replica.
Proof. vm_compute. repeat split. Qed.

(** two reads on different shards, then a write: Primary, first shard kept, Err returned;
    the assignment error of the write ("Sharding key cannot be updated") likewise *)
Example c05_shard_conflict_before_write :
  infer_sh (cfg_split false) quiet true (fun i => nth i [ShSome 0; ShSome 1; ShSome 2] ShNone) st_replica None
           [SQuery sel; SQuery sel; SOther]
  = ({| active_role := Some Primary; o_parser := None; o_preads := None |}, Some 0, true) /\
  infer_sh (cfg_split false) quiet true (fun i => nth i [ShSome 2; ShErr] ShNone) st_replica (Some 1)
           [SQuery sel; SOther; SQuery sel]
  = ({| active_role := Some Primary; o_parser := None; o_preads := None |}, Some 2, true) /\
  infer_sh (cfg_split false) quiet true (fun i => nth i [ShSome 1; ShNone; ShSome 1] ShNone) st_replica None
           [SQuery sel; SQuery sel; SQuery sel]
  = ({| active_role := Some Replica; o_parser := None; o_preads := None |}, Some 1, false).
Proof. vm_compute. repeat split. Qed.

(** A pool with plugins keeps parsing after SET SERVER ROLE; an empty message (";", a comment,
    an empty Parse) must not flip the session to the primary. *)
Example c05_empty_message_after_explicit_role :
  let c := cfg_plug false in
  let s0 := init_state c in
  parses_messages c (exec_role_cmd c s0 (SetServerRole RReplica)) = true /\
  active_role (session c s0 [ICmd (SetServerRole RReplica); ISimple (PAcc quiet [])]) = Some Replica /\
  active_role (session c s0 [ICmd (SetServerRole RAny); IBatch [BParse 0 (PAcc quiet []); BBind 0];
                             ISimple (PAcc quiet [SQuery sel])]) = None /\
  active_role (session c s0 [ICmd (SetServerRole RReplica); ISimple (PAcc quiet []); ISimple (PAcc quiet [SOther]);
                             ISimple (PAcc quiet [SQuery sel])]) = Some Replica /\
  (* without an explicit role the empty message goes to the primary, as before *)
  active_role (session c s0 [ISimple (PAcc quiet [SQuery sel]); ISimple (PAcc quiet [])]) = Some Primary /\
  active_role (session c s0 [ICmd (SetServerRole RReplica); ICmd (SetServerRole RAuto); ISimple (PAcc quiet [])]) = Some Primary.
Proof. vm_compute. repeat split. Qed.
