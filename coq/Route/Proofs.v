(** C05 — the walk [q_writes] against the flattened specification ([writes_spec]); [infer] in
    closed form ([loop_spec], [infer_spec]), from which the role theorems follow; the shard side
    of [infer_sh] as a loop of its own ([loop_sh]); an explicit role as an invariant of the session
    ([pinned_to]); pool.get by two equivalences ([candidates_In], [pool_get_server]). *)
From Coq Require Import List Bool Arith.
From PV Require Import Route.Model Route.Spec.
Import ListNotations.

(** * Induction over the nested / mutual AST *)
Section QueryInd.
  Variable P : query -> Prop.
  Variable Pb : body -> Prop.
  Hypothesis Hq : forall ctes subs b lk, Forall P ctes -> Forall P subs -> Pb b -> P (MkQuery ctes subs b lk).
  Hypothesis Hsel : forall into, Pb (BSelect into).
  Hypothesis Hins : Pb BInsert.
  Hypothesis Hupd : Pb BUpdate.
  Hypothesis Hval : Pb BValues.
  Hypothesis Htab : Pb BTable.
  Hypothesis Hset : forall l r, Pb l -> Pb r -> Pb (BSetOp l r).
  Hypothesis Hnest : forall q, P q -> Pb (BNested q).

  Fixpoint query_ind2 (q : query) : P q :=
    match q with
    | MkQuery ctes subs b lk =>
        Hq ctes subs b lk
           ((fix go (l : list query) : Forall P l :=
               match l with [] => Forall_nil P | x :: r => Forall_cons x (query_ind2 x) (go r) end) ctes)
           ((fix go (l : list query) : Forall P l :=
               match l with [] => Forall_nil P | x :: r => Forall_cons x (query_ind2 x) (go r) end) subs)
           (body_ind2 b)
    end
  with body_ind2 (b : body) : Pb b :=
    match b with
    | BSelect i => Hsel i
    | BInsert => Hins
    | BUpdate => Hupd
    | BValues => Hval
    | BTable => Htab
    | BSetOp l r => Hset l r (body_ind2 l) (body_ind2 r)
    | BNested q => Hnest q (query_ind2 q)
    end.

  Lemma query_body_ind : (forall q, P q) /\ (forall b, Pb b).
  Proof. split; [exact query_ind2 | exact body_ind2]. Qed.
End QueryInd.

(** * The code's recursive "writes" test is the specification's "some node is not harmless" *)

Lemma negb_forallb {A} (f : A -> bool) l : negb (forallb f l) = existsb (fun x => negb (f x)) l.
Proof. induction l as [|x r IH]; simpl; [reflexivity|]. rewrite negb_andb, IH. reflexivity. Qed.

Lemma existsb_flat_map {A B} (p : B -> bool) (g : A -> list B) (f : A -> bool) l :
  Forall (fun x => f x = negb (forallb p (g x))) l -> existsb f l = negb (forallb p (flat_map g l)).
Proof.
  induction 1 as [|x r Hx _ IH]; simpl; [reflexivity|]. rewrite forallb_app, negb_andb, Hx, IH. reflexivity.
Qed.

Lemma writes_spec :
  (forall q, q_writes q = negb (plain_query q)) /\
  (forall b, b_writes b = negb (forallb leaf_reads (leaves b) && forallb node_reads (bnodes b))).
Proof.
  apply query_body_ind; try reflexivity.
  - intros ctes subs b lk Hc Hs Hb. unfold plain_query. cbn [q_writes qnodes forallb].
    rewrite (existsb_flat_map _ _ _ _ Hc), (existsb_flat_map _ _ _ _ Hs), Hb, !forallb_app.
    change (node_reads (MkQuery ctes subs b lk)) with (negb lk && forallb leaf_reads (leaves b)).
    destruct lk; [reflexivity|]. destruct (forallb leaf_reads (leaves b)); cbn [negb andb orb].
    + rewrite !negb_andb, orb_assoc. reflexivity.
    + rewrite !orb_true_r. reflexivity.
  - intros []; reflexivity.
  - intros l r Hl Hr. cbn [b_writes leaves bnodes]. rewrite Hl, Hr, !forallb_app.
    destruct (forallb leaf_reads (leaves l)), (forallb node_reads (bnodes l)),
      (forallb leaf_reads (leaves r)), (forallb node_reads (bnodes r)); reflexivity.
  - intros q Hq. exact Hq.
Qed.

Lemma q_writes_locks q : q_locks q = true -> q_writes q = true.
Proof. destruct q as [c s b lk]. simpl. intros ->. reflexivity. Qed.

(** has_locks || has_mutation is exactly "not a plain read" *)
Lemma is_write_query_spec q : is_write_query q = negb (plain_query q).
Proof.
  unfold is_write_query, is_mutation. rewrite <- (proj1 writes_spec).
  destruct (q_locks q) eqn:L; [rewrite (q_writes_locks q L)|]; reflexivity.
Qed.

(** * infer *)

Lemma set_role_role st r : active_role (set_role st r) = r.
Proof. reflexivity. Qed.
Lemma set_role_preads cfg st r : preads_on cfg (set_role st r) = preads_on cfg st.
Proof. reflexivity. Qed.
Lemma read_role_set cfg st r : read_role cfg (set_role st r) = read_role cfg st.
Proof. reflexivity. Qed.
Lemma set_role_same st : set_role st (active_role st) = st.
Proof. destruct st; reflexivity. Qed.

(** What the loop computes: it assigns nothing but the role, and that is Primary as soon as the
    activity pin is set or some statement is not a plain read or is hot; otherwise
    the first plain read assigns [read_role], unless a write was visited before.  The
    hypothesis: the code sets [pin] only together with the role Primary. *)
Lemma loop_spec cfg act ss : forall i pin visited st,
  (pin = true -> active_role st = Some Primary) ->
  infer_loop cfg act i pin visited st ss =
  set_role st (if pin || has_non_plain ss || existsb (a_hot act) (seq i (length ss)) then Some Primary
               else if visited then active_role st
               else match ss with [] => active_role st | _ => read_role cfg st end).
Proof.
  induction ss as [|s r IH]; intros i pin visited st Hpin.
  - destruct pin, visited; simpl; rewrite <- ?Hpin by reflexivity; symmetry; apply set_role_same.
  - destruct s as [|q|]; simpl infer_loop.
    + destruct pin; reflexivity.
    + destruct pin; [rewrite IH by assumption; reflexivity|].
      pose proof (is_write_query_spec q) as W. unfold has_non_plain. simpl.
      destruct (a_hot act i); [rewrite IH, orb_true_r by reflexivity; reflexivity|].
      destruct (is_write_query q), (plain_query q); try discriminate W; simpl.
      * (* a write: Primary now, and [visited] keeps it *)
        rewrite IH by discriminate. simpl. destruct (_ || _); reflexivity.
      * (* a plain read: skipped after a write, else it assigns [read_role], which the rest keeps or raises *)
        destruct visited; rewrite IH by discriminate; [reflexivity|].
        simpl. destruct (_ || _); [reflexivity|]. destruct r; reflexivity.
    + rewrite IH by reflexivity. destruct pin; [reflexivity|]. simpl. destruct (_ || _); reflexivity.
Qed.

(** [infer] as a whole, when it runs: the previous role plays no part. *)
Lemma infer_spec cfg act st ss :
  s_splitting cfg = true -> override_off st = false ->
  infer_act cfg act st ss =
  match ss with
  | [] => (set_role st (Some Primary), true)
  | _ => (set_role st (if a_init act || has_non_plain ss || existsb (a_hot act) (seq 0 (length ss))
                       then Some Primary else read_role cfg st), false)
  end.
Proof.
  intros Hs Ho. unfold infer_act. rewrite Hs, Ho. cbn [negb]. destruct ss as [|s r]; [reflexivity|].
  rewrite loop_spec by (destruct (a_init act); [reflexivity|discriminate]).
  destruct (a_init act); reflexivity.
Qed.

(** ... and when it does not: splitting off, or the client chose the role itself — whatever is
    parsed (the pool may run plugins), nothing is inferred. *)
Lemma infer_idle cfg act st ss :
  s_splitting cfg = false \/ override_off st = true -> infer_act cfg act st ss = (st, false).
Proof. unfold infer_act. intros [-> | ->]; [|destruct (negb _)]; reflexivity. Qed.

Lemma infer_writes_primary cfg act st ss :
  s_splitting cfg = true -> override_off st = false -> has_non_plain ss = true ->
  active_role (fst (infer_act cfg act st ss)) = Some Primary.
Proof.
  intros Hs Ho Hw. rewrite infer_spec by assumption. destruct ss; [discriminate|].
  rewrite Hw, orb_true_r. reflexivity.
Qed.

(** plain reads, no activity pin *)
Lemma infer_reads cfg act st ss :
  s_splitting cfg = true -> override_off st = false -> ss <> [] -> is_quiet act -> forallb plain_read ss = true ->
  active_role (fst (infer_act cfg act st ss)) = (if preads_on cfg st then None else Some Replica).
Proof.
  intros Hs Ho Hne [Hi Hh] Hp. rewrite infer_spec by assumption. destruct ss; [congruence|].
  unfold has_non_plain. rewrite Hi, <- negb_forallb, Hp.
  destruct (existsb _ _) eqn:E; [|reflexivity]. apply existsb_exists in E as [j [_ Hj]]. congruence.
Qed.

Lemma infer_recomputed cfg act st st' ss :
  s_splitting cfg = true -> override_off st = false -> override_off st' = false -> o_preads st = o_preads st' ->
  active_role (fst (infer_act cfg act st ss)) = active_role (fst (infer_act cfg act st' ss)).
Proof.
  intros Hs Ho Ho' Hp. rewrite !infer_spec by assumption. unfold read_role, preads_on. rewrite Hp.
  destruct ss; reflexivity.
Qed.

(** infer never touches the overrides *)
Lemma infer_overrides cfg act st ss :
  o_parser (fst (infer_act cfg act st ss)) = o_parser st /\
  o_preads (fst (infer_act cfg act st ss)) = o_preads st.
Proof.
  destruct (s_splitting cfg) eqn:Hs, (override_off st) eqn:Ho;
    rewrite ?infer_idle, ?infer_spec by auto; destruct ss; split; reflexivity.
Qed.

(** * Shard inference *)

(** The shard side of [infer_sh_loop], written on its own: it reads the statements' kinds and
    keys and nothing else — not the activity oracle, not the router state, not the role decisions
    (since the F39 repair). *)
Fixpoint shard_loop (auto : bool) (sho : nat -> shres) (i : nat) (sh : shst) (ss : list stmt) : shst :=
  match ss with
  | [] | SStartTxn :: _ => sh
  | _ :: rest => shard_loop auto sho (S i) (shard_step auto (sho i) sh) rest
  end.

Lemma loop_sh cfg act auto sho ss : forall i pin visited st sh,
  infer_sh_loop cfg act auto sho i pin visited st sh ss =
  (infer_loop cfg act i pin visited st ss, shard_loop auto sho i sh ss).
Proof.
  induction ss as [|s r IH]; intros i pin visited st sh; simpl; [reflexivity|].
  destruct s as [|q|]; [reflexivity| |apply IH].
  destruct pin; [apply IH|]. destruct (a_hot act i); [apply IH|].
  destruct (is_write_query q); [apply IH|]. destruct visited; apply IH.
Qed.

(** without automatic_sharding_key the shard state is untouched *)
Lemma shard_step_off r s : shard_step false r s = s.
Proof. reflexivity. Qed.

Lemma shard_loop_off sho ss : forall i sh, shard_loop false sho i sh ss = sh.
Proof. induction ss as [|[] r IH]; intros i sh; simpl; rewrite ?IH; reflexivity. Qed.

(** [infer_sh] is [infer_act] for the role, and [shard_loop] for the shard whenever it runs. *)
Lemma infer_sh_spec cfg act auto sho st shard ss :
  infer_sh cfg act auto sho st shard ss =
  let sh0 := {| sh_active := shard; sh_prev := None; sh_err := false |} in
  let sh := if s_splitting cfg && negb (override_off st) then shard_loop auto sho 0 sh0 ss else sh0 in
  (fst (infer_act cfg act st ss), sh_active sh, snd (infer_act cfg act st ss) || sh_err sh).
Proof.
  unfold infer_sh, infer_act. destruct (s_splitting cfg); [|reflexivity].
  destruct (override_off st); [reflexivity|]. destruct ss; [reflexivity|].
  cbn [negb andb fst snd orb]. rewrite loop_sh. reflexivity.
Qed.

(** * client.rs gating *)

Lemma parser_on_override cfg st : parser_on cfg st = true -> override_off st = false.
Proof. unfold parser_on, override_off. destruct (o_parser st) as [[|]|]; intros H; try reflexivity; discriminate. Qed.

Lemma parser_on_parses cfg st : parser_on cfg st = true -> parses_messages cfg st = true.
Proof. intros H. unfold parses_messages. rewrite H. reflexivity. Qed.

Lemma route_parsed_on cfg st act ss :
  parser_on cfg st = true -> route_parsed cfg st (PAcc act ss) = fst (infer_act cfg act st ss).
Proof. intros H. unfold route_parsed. rewrite (parser_on_parses _ _ H). reflexivity. Qed.

Lemma route_parsed_off cfg st p : override_off st = true -> route_parsed cfg st p = st.
Proof.
  intros H. unfold route_parsed. destruct (parses_messages cfg st), p; try reflexivity.
  rewrite infer_idle by auto. reflexivity.
Qed.

(** not parsed at all (parser off for the session and no plugins): nothing changes either *)
Lemma route_parsed_unparsed cfg st p : parses_messages cfg st = false -> route_parsed cfg st p = st.
Proof. intros H. unfold route_parsed. rewrite H. reflexivity. Qed.

Lemma route_parsed_writes cfg st act ss :
  parser_on cfg st = true -> s_splitting cfg = true -> has_non_plain ss = true ->
  active_role (route_parsed cfg st (PAcc act ss)) = Some Primary.
Proof.
  intros Hp Hs Hw. rewrite route_parsed_on by exact Hp.
  apply infer_writes_primary; [assumption|exact (parser_on_override _ _ Hp)|assumption].
Qed.

Lemma route_parsed_reads cfg st act ss :
  parser_on cfg st = true -> s_splitting cfg = true -> ss <> [] -> is_quiet act ->
  forallb plain_read ss = true ->
  active_role (route_parsed cfg st (PAcc act ss)) = (if preads_on cfg st then None else Some Replica).
Proof.
  intros Hp Hs Hne Hq Hr. rewrite route_parsed_on by exact Hp.
  apply infer_reads; try assumption. exact (parser_on_override _ _ Hp).
Qed.

Lemma fold_left_fixed {A B} (f : A -> B -> A) l a : (forall b, In b l -> f a b = a) -> fold_left f l a = a.
Proof.
  induction l as [|b l IH]; intros H; simpl; [reflexivity|].
  rewrite H by (left; reflexivity). apply IH. intros b' Hb'. apply H. right. exact Hb'.
Qed.

Lemma batch_off cfg b st : override_off st = true -> fold_left (route_bmsg cfg) b st = st.
Proof.
  intros H. apply fold_left_fixed. intros [n p|n|] _; [apply route_parsed_off; exact H|reflexivity|reflexivity].
Qed.

(** * SET SERVER ROLE is sticky *)

Definition role_of_arg (a : role_arg) : option role :=
  match a with RPrimary => Some Primary | RReplica => Some Replica | _ => None end.

Definition explicit_arg (a : role_arg) : bool :=
  match a with RPrimary | RReplica | RAny => true | _ => false end.

Definition not_set_role (it : item) : bool :=
  match it with ICmd (SetServerRole _) => false | _ => true end.

Definition pinned_to (r : option role) (st : rstate) : Prop :=
  o_parser st = Some false /\ active_role st = r.

Lemma set_role_pins cfg st a :
  explicit_arg a = true -> pinned_to (role_of_arg a) (exec_role_cmd cfg st (SetServerRole a)).
Proof. destruct a; try discriminate; intros _; split; reflexivity. Qed.

Lemma pinned_step cfg r st it :
  pinned_to r st -> not_set_role it = true -> pinned_to r (client_route cfg st it).
Proof.
  intros [Hp Hr] Hn.
  assert (Hoff : override_off st = true) by (unfold override_off; rewrite Hp; reflexivity).
  destruct it as [c|p|b]; simpl.
  - destruct c as [a|a]; [discriminate|]. destruct a; split; assumption.
  - rewrite route_parsed_off by exact Hoff. split; assumption.
  - rewrite batch_off by exact Hoff. split; assumption.
Qed.

Lemma pinned_session cfg r its : forall st,
  pinned_to r st -> forallb not_set_role its = true ->
  pinned_to r (session cfg st its) /\ Forall (fun st' => active_role st' = r) (session_trace cfg st its).
Proof.
  induction its as [|it rest IH]; intros st Hpin Hn; simpl; [split; [exact Hpin|constructor]|].
  apply andb_true_iff in Hn as [H1 H2]. pose proof (pinned_step cfg r st it Hpin H1) as Hp'.
  destruct (IH _ Hp' H2) as [He Ht]. split; [exact He|constructor; [exact (proj2 Hp')|exact Ht]].
Qed.

(** * Extended-protocol batches *)

Lemma bound_std g n v rest :
  forallb (fun m => match m with BParse _ _ => false | BBind k => Nat.eqb k n | BOther => true end) rest = true ->
  forall o, In o (batch_bound ((n, v) :: g) rest) -> o = v.
Proof.
  induction rest as [|m r IH]; intros H o Hin; simpl in *; [contradiction|].
  apply andb_true_iff in H. destruct H as [Hm Hr].
  destruct m as [k p|k|]; try discriminate.
  - apply Nat.eqb_eq in Hm. subst k. rewrite Nat.eqb_refl in Hin.
    destruct Hin as [<-|Hin]; [reflexivity|]. apply IH; assumption.
  - apply IH; assumption.
Qed.

(** A standard batch is routed by its one Parse (nothing after it reaches the router) and binds
    only that statement. *)
Lemma batch_to_primary cfg st g b :
  parser_on cfg st = true -> s_splitting cfg = true ->
  known_c05 b = false -> batch_has_write g b = true ->
  active_role (client_route cfg st (IBatch b)) = Some Primary.
Proof.
  intros Hp Hs Hk Hw. apply negb_false_iff in Hk.
  destruct b as [|[n [|act ss]|k|] rest]; try discriminate. simpl in Hk.
  apply existsb_exists in Hw as [o [Hin Ho]]. simpl in Hin.
  rewrite (bound_std g n (Some ss) rest Hk o Hin) in Ho.
  simpl. rewrite fold_left_fixed; [apply route_parsed_writes; assumption|].
  intros m Hm. apply (proj1 (forallb_forall _ _) Hk) in Hm. destruct m; [discriminate|reflexivity|reflexivity].
Qed.

(** * pool.get *)

Lemma role_eqb_eq a b : role_eqb a b = true <-> a = b.
Proof. destruct a, b; simpl; split; intros H; try reflexivity; discriminate. Qed.

Lemma candidates_In want keep addrs a :
  In a (candidates want keep addrs) <->
  In a addrs /\ role_matches (a_role a) want = true /\ (forall s, keep = Some s -> a_shard a = s).
Proof.
  unfold candidates. rewrite !filter_In, and_assoc. apply and_iff_compat_l, and_iff_compat_l.
  destruct keep as [k|].
  - rewrite Nat.eqb_eq. split; [intros <- s [= <-]; reflexivity|auto].
  - split; [discriminate|reflexivity].
Qed.

Lemma candidates_sound want keep addrs a :
  In a (candidates want keep addrs) ->
  In a addrs /\ (forall r, want = Some r -> a_role a = r) /\ (forall s, keep = Some s -> a_shard a = s).
Proof.
  intros H. apply candidates_In in H as (Hin & Hr & Hs). split; [exact Hin|]. split; [|exact Hs].
  intros r ->. apply role_eqb_eq. exact Hr.
Qed.

(** the servers pool.get may return: exactly the usable candidates *)
Lemma pool_get_server nshards d usable sh want addrs a :
  In (GServer a) (pool_get nshards d usable sh want addrs) <->
  exists keep, retain_shard nshards sh d = Some keep /\ In a (candidates want keep addrs) /\ usable a = true.
Proof.
  unfold pool_get. destruct (retain_shard nshards sh d) as [keep|].
  - transitivity (In a (filter usable (candidates want keep addrs))).
    + destruct (filter usable _) as [|x l]; [split; [intros [[=]|[]]|intros []]|].
      split; [intros H; apply in_map_iff in H as (y & [= ->] & H); exact H|apply in_map].
    + rewrite filter_In. split; [intros H; exists keep; auto|intros (k & [= <-] & H); exact H].
  - split; [intros [[=]|[]]|intros (k & [=] & _)].
Qed.

Lemma any_role_all nshards d usable sh addrs a keep :
  retain_shard nshards sh d = Some keep -> In a addrs -> usable a = true ->
  (forall s, keep = Some s -> a_shard a = s) ->
  In (GServer a) (pool_get nshards d usable sh None addrs).
Proof.
  intros Hk Hin Hu Hs. apply pool_get_server. exists keep. split; [exact Hk|]. split; [|exact Hu].
  apply candidates_In. auto.
Qed.
