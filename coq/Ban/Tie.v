(** C07 — executable helpers for the correspondence check (of Props.v only c07_tie_orders_wf,
    c07_tie_trace_is_contacted and the example ex_tie_get depend on this file).  The wire harness
    observes one checkout at a time; the environment choices the model quantifies over (candidate
    order, outcome per address, clock reading) are only partly visible in a trace, so the driver
    asks for EVERY observation the model allows under the choices that remain open and checks
    membership. *)
From Coq Require Import ZArith List Bool Arith Permutation.
From PV Require Import Ban.Model.
Import ListNotations.
Open Scope Z_scope.

Fixpoint insert_all {A : Type} (x : A) (l : list A) : list (list A) :=
  match l with
  | [] => [[x]]
  | y :: r => (x :: y :: r) :: map (cons y) (insert_all x r)
  end.

Fixpoint perms {A : Type} (l : list A) : list (list A) :=
  match l with
  | [] => [[]]
  | x :: r => flat_map (insert_all x) (perms r)
  end.

(** every way of picking one outcome per address *)
Fixpoint assigns (l : list (addr * list outcome)) : list (list (addr * outcome)) :=
  match l with
  | [] => [[]]
  | (a, os) :: r => flat_map (fun o => map (cons (a, o)) (assigns r)) os
  end.

Fixpoint outs_of (l : list (addr * outcome)) (a : addr) : outcome :=
  match l with
  | [] => ConnFail
  | (b, o) :: r => if addr_eq_dec b a then o else outs_of r a
  end.

(** Observations are printed with address ids only. *)
Inductive pres : Type := POk (id : nat) | PAllDown | PInvalid.
Definition obs : Type := (pres * list nat * list (nat * reason * Z))%type.

Definition proj_bl (bl : banlist) : list (nat * reason * Z) :=
  map (fun e => (a_id (fst e), fst (snd e), snd (snd e))) bl.

Definition proj (r : gres * list addr * banlist) : obs :=
  let '(g, ct, bl) := r in
  (match g with Ok a => POk (a_id a) | ErrAllDown => PAllDown | ErrInvalidShard => PInvalid end,
   map a_id ct, proj_bl bl).

Definition reason_eq_dec : forall x y : reason, {x = y} + {x <> y}.
Proof. decide equality; apply Z.eq_dec. Defined.

Definition obs_eq_dec : forall x y : obs, {x = y} + {x <> y}.
Proof.
  decide equality.
  - apply list_eq_dec. decide equality; [apply Z.eq_dec|]. decide equality; [apply reason_eq_dec|apply Nat.eq_dec].
  - decide equality; [apply list_eq_dec, Nat.eq_dec|]. decide equality. apply Nat.eq_dec.
Defined.

(** Which contacted address was health-checked: the same loop as [get_loop], recording for each
    contact whether [require_healthcheck] held ([trace_loop_ct] below ties it to [get_loop]). *)
Definition checked (force : bool) (o : outcome) : bool :=
  match o with ConnFail => false | Conn fresh _ => force || negb fresh end.

Fixpoint trace_loop (c : cfg) (tc bc : addr -> Z) (outs : addr -> outcome) (todo : list addr) (bl : banlist)
  : list (addr * bool) :=
  match todo with
  | [] => []
  | a :: rest =>
      match gate c (tc a) a bl with
      | None => trace_loop c tc bc outs rest bl
      | Some (f, bl1) =>
          match contact (bc a) outs a f bl1 with
          | Skip b => trace_loop c tc bc outs rest b      (* [contact] never skips *)
          | Fail b => (a, checked f (outs a)) :: trace_loop c tc bc outs rest b
          | Done _ => [(a, checked f (outs a))]
          end
      end
  end.

Definition tobs : Type := (obs * list bool)%type.

Definition tobs_eq_dec : forall x y : tobs, {x = y} + {x <> y}.
Proof. decide equality; [apply list_eq_dec, Bool.bool_dec|apply obs_eq_dec]. Defined.

Fixpoint is_prefix (p l : list addr) : bool :=
  match p, l with
  | [], _ => true
  | x :: p', y :: l' => if addr_eq_dec x y then is_prefix p' l' else false
  | _ :: _, [] => false
  end.

(** All observations of one client transaction from ban list [bl]: the checkout over every order
    of the candidates, every choice of one outcome per address among the listed ones, every listed
    clock reading; [after]: what happened on the handed-out server afterwards ([ExecFail],
    [OobPrepare]).  Each observation carries, per contacted address, whether it was health-checked.
    [first]: addresses known to be popped first, in this order (least-outstanding-connections mode
    with strictly fewer busy connections than every other candidate); [[]] = nothing known. *)
Definition tie_txn (c : cfg) (bl : banlist) (req : option role) (shard : option nat)
                   (opts : list (addr * list outcome)) (nows : list Z) (after : option (addr -> Z -> op))
                   (first : list addr) : list tobs :=
  nodup tobs_eq_dec
    (flat_map (fun now =>
       flat_map (fun asg =>
         map (fun order =>
                let '(g, ct, bl1) := get c req shard order (outs_of asg) (fun _ => now) (fun _ => now) bl in
                let hcs := match effective_sel c shard with
                           | SInvalid => []
                           | _ => map snd (trace_loop c (fun _ => now) (fun _ => now) (outs_of asg) (rev order) bl)
                           end in
                match g, after with
                | Ok a, Some f => (proj (g, ct, step c bl1 (f a now)), hcs)
                | _, _ => (proj (g, ct, bl1), hcs)
                end)
             (filter (fun order => is_prefix first (rev order)) (perms (candidates c req (effective_sel c shard)))))
         (assigns opts))
       nows).

Definition tie_get (c : cfg) (bl : banlist) (req : option role) (shard : option nat)
                   (opts : list (addr * list outcome)) (nows : list Z) : list obs :=
  nodup obs_eq_dec (map fst (tie_txn c bl req shard opts nows None [])).

Definition tie_step (c : cfg) (bl : banlist) (o : op) : list (nat * reason * Z) := proj_bl (step c bl o).

Lemma trace_loop_ct : forall c tc bc outs todo bl,
  map fst (trace_loop c tc bc outs todo bl) = snd (fst (get_loop c tc bc outs todo bl)).
Proof.
  induction todo as [|a rest IH]; intros bl; cbn; [reflexivity|]. unfold visit.
  destruct (gate c (tc a) a bl) as [[f bl1]|]; [|apply IH].
  destruct (contact (bc a) outs a f bl1) as [b|b|b]; cbn.
  - apply IH.
  - rewrite IH. destruct (get_loop c tc bc outs rest b) as [[r ct] b2]. reflexivity.
  - reflexivity.
Qed.

(** [perms] enumerates rearrangements only, so every printed observation is one of a
    well-formed [Get]. *)
Lemma insert_all_perm : forall (A : Type) (x : A) l p, In p (insert_all x l) -> Permutation (x :: l) p.
Proof.
  induction l as [|y r IH]; cbn; intros p [<-|H]; try reflexivity; [destruct H|].
  apply in_map_iff in H. destruct H as [q [<- I]]. rewrite perm_swap. apply perm_skip, IH, I.
Qed.

Lemma perms_perm : forall (A : Type) (l p : list A), In p (perms l) -> Permutation l p.
Proof.
  induction l as [|x r IH]; cbn; intros p H.
  - destruct H as [<-|[]]. reflexivity.
  - apply in_flat_map in H. destruct H as [q [Q I]]. rewrite (IH q Q). apply insert_all_perm, I.
Qed.

Lemma tie_orders_wf : forall c req shard order, NoDup (servers c) ->
  In order (perms (candidates c req (effective_sel c shard))) -> wf_order c req shard order.
Proof.
  intros c req shard order W H. apply perms_perm in H. split.
  - apply (Permutation_NoDup H), NoDup_filter, W.
  - intros a. split; apply Permutation_in; [symmetry|]; exact H.
Qed.
