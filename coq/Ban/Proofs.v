(** C07 — proofs about the ban-list model: every operation sequence, every candidate order,
    every outcome function, every clock reading. *)
From Coq Require Import ZArith List Bool Arith Lia.
From PV Require Import Ban.Model.
Import ListNotations.
Open Scope Z_scope.

(** * Association-list facts *)

Lemma find_ban_None : forall a bl, find_ban a bl = None <-> ~ In a (keys bl).
Proof.
  induction bl as [|[b w] r IH]; cbn.
  - split; auto.
  - destruct (addr_eq_dec b a) as [E|N].
    + split; [discriminate|tauto].
    + rewrite IH. split; intros H; [intros [E|I]; [contradiction|auto]|intros I; apply H; right; exact I].
Qed.

Lemma keys_find : forall a bl, In a (keys bl) <-> find_ban a bl <> None.
Proof. intros a bl. rewrite find_ban_None. destruct (in_dec addr_eq_dec a (keys bl)); tauto. Qed.

Lemma find_ban_In : forall a bl v, find_ban a bl = Some v -> In a (keys bl).
Proof. intros a bl v H. apply keys_find. congruence. Qed.

Lemma is_banned_In : forall a bl, is_banned a bl = true <-> In a (keys bl).
Proof. intros a bl. rewrite keys_find. unfold is_banned. destruct (find_ban a bl); intuition congruence. Qed.

Lemma is_banned_false : forall a bl, is_banned a bl = false <-> ~ In a (keys bl).
Proof.
  intros a bl. rewrite <- is_banned_In. destruct (is_banned a bl); split; congruence.
Qed.

Lemma find_filter : forall (p : addr -> bool) x bl,
  find_ban x (filter (fun e => p (fst e)) bl) = if p x then find_ban x bl else None.
Proof.
  induction bl as [|[b w] r IH]; cbn.
  - destruct (p x); reflexivity.
  - destruct (p b) eqn:Pb; cbn.
    + destruct (addr_eq_dec b x) as [E|N]; [subst; rewrite Pb; reflexivity|exact IH].
    + destruct (addr_eq_dec b x) as [E|N]; [subst; rewrite Pb in *; exact IH|exact IH].
Qed.

Lemma keys_filter_fst : forall (p : addr -> bool) bl, keys (filter (fun e => p (fst e)) bl) = filter p (keys bl).
Proof.
  unfold keys. induction bl as [|[b w] r IH]; cbn; [reflexivity|].
  destruct (p b); cbn; rewrite IH; reflexivity.
Qed.

Lemma keys_filter_incl : forall (f : entry -> bool) bl x, In x (keys (filter f bl)) -> In x (keys bl).
Proof.
  intros f bl x I. apply in_map_iff in I. destruct I as [e [<- I]]. apply in_map. apply filter_In in I. apply I.
Qed.

Lemma NoDup_keys_filter : forall (f : entry -> bool) bl, NoDup (keys bl) -> NoDup (keys (filter f bl)).
Proof.
  induction bl as [|[b w] r IH]; cbn; intros H; [constructor|]. inversion H as [|? ? NI ND]; subst.
  destruct (f (b, w)); [|exact (IH ND)]. cbn. constructor; [|exact (IH ND)].
  intros I. apply NI. eapply keys_filter_incl, I.
Qed.

Definition not_a (a : addr) : addr -> bool := fun b => if addr_eq_dec b a then false else true.
Definition not_sh (sh : nat) : addr -> bool := fun b => negb (Nat.eqb (a_shard b) sh).
Definition is_sh (sh : nat) : addr -> bool := fun b => Nat.eqb (a_shard b) sh.

Lemma remove_ban_eq : forall a bl, remove_ban a bl = filter (fun e => not_a a (fst e)) bl.
Proof. reflexivity. Qed.
Lemma clear_shard_eq : forall sh bl, clear_shard bl sh = filter (fun e => not_sh sh (fst e)) bl.
Proof. reflexivity. Qed.
Lemma shard_bl_eq : forall sh bl, shard_bl bl sh = filter (fun e => is_sh sh (fst e)) bl.
Proof. reflexivity. Qed.

Lemma find_remove : forall a x bl,
  find_ban x (remove_ban a bl) = if addr_eq_dec x a then None else find_ban x bl.
Proof.
  intros. rewrite remove_ban_eq, find_filter. unfold not_a. destruct (addr_eq_dec x a); reflexivity.
Qed.

Lemma keys_remove : forall a x bl, In x (keys (remove_ban a bl)) <-> In x (keys bl) /\ x <> a.
Proof. intros. rewrite !keys_find, find_remove. destruct (addr_eq_dec x a); intuition congruence. Qed.

Lemma find_clear : forall sh x bl,
  find_ban x (clear_shard bl sh) = if Nat.eqb (a_shard x) sh then None else find_ban x bl.
Proof.
  intros. rewrite clear_shard_eq, find_filter. unfold not_sh. destruct (Nat.eqb (a_shard x) sh); reflexivity.
Qed.

Lemma keys_clear : forall sh x bl, In x (keys (clear_shard bl sh)) <-> In x (keys bl) /\ a_shard x <> sh.
Proof. intros. rewrite !keys_find, find_clear. destruct (Nat.eqb_spec (a_shard x) sh); intuition congruence. Qed.

Lemma shard_bl_clear : forall sh bl, shard_bl (clear_shard bl sh) sh = [].
Proof.
  intros sh. unfold shard_bl, clear_shard. induction bl as [|e r IH]; cbn; [reflexivity|].
  destruct (Nat.eqb (a_shard (fst e)) sh) eqn:E; cbn; [|rewrite E]; exact IH.
Qed.

Lemma find_insert : forall a v x bl,
  find_ban x (insert_ban a v bl) = if addr_eq_dec a x then Some v else find_ban x bl.
Proof.
  intros. unfold insert_ban. cbn. destruct (addr_eq_dec a x) as [E|N]; [reflexivity|].
  rewrite find_remove. destruct (addr_eq_dec x a); [congruence|reflexivity].
Qed.

Lemma keys_insert : forall a v x bl, In x (keys (insert_ban a v bl)) <-> x = a \/ In x (keys bl).
Proof. intros. rewrite !keys_find, find_insert. destruct (addr_eq_dec a x); intuition congruence. Qed.

Lemma ban_primary : forall a r now bl, a_role a = Primary -> ban a r now bl = bl.
Proof. intros a r now bl R. unfold ban. rewrite R. reflexivity. Qed.

Lemma find_ban_role : forall a r now x bl,
  find_ban x (ban a r now bl) =
    match a_role a with
    | Primary => find_ban x bl
    | Replica => if addr_eq_dec a x then Some (r, now) else find_ban x bl
    end.
Proof. intros. unfold ban. destruct (a_role a); [reflexivity|apply find_insert]. Qed.

Lemma find_ban_self : forall a r now bl, a_role a = Replica -> find_ban a (ban a r now bl) = Some (r, now).
Proof. intros a r now bl R. rewrite find_ban_role, R. destruct (addr_eq_dec a a); congruence. Qed.

Lemma find_ban_other : forall a r now x bl, x <> a -> find_ban x (ban a r now bl) = find_ban x bl.
Proof.
  intros a r now x bl N. rewrite find_ban_role. destruct (a_role a); [reflexivity|].
  destruct (addr_eq_dec a x); congruence.
Qed.

Lemma keys_ban : forall a r now x bl,
  In x (keys (ban a r now bl)) <-> (x = a /\ a_role a = Replica) \/ In x (keys bl).
Proof.
  intros a r now x bl. unfold ban. destruct (a_role a); [|rewrite keys_insert]; intuition discriminate.
Qed.

Lemma in_servers_iff : forall c a, in_servers c a = true <-> In a (servers c).
Proof. intros c a. unfold in_servers. destruct (in_dec addr_eq_dec a (servers c)); intuition discriminate. Qed.

(** [is_banned] and [expired] look at the entry of their address only. *)
Lemma is_banned_ext : forall bl bl' a, find_ban a bl' = find_ban a bl -> is_banned a bl' = is_banned a bl.
Proof. intros. unfold is_banned. rewrite H. reflexivity. Qed.

Lemma expired_ext : forall c now bl bl' a, find_ban a bl' = find_ban a bl -> expired c now bl' a = expired c now bl a.
Proof. intros. unfold expired. rewrite H. reflexivity. Qed.

Lemma expired_none : forall c now bl a, find_ban a bl = None -> expired c now bl a = true.
Proof. intros. unfold expired. rewrite H. reflexivity. Qed.

(** * The two invariants *)

(** Holds after ANY operation sequence. *)
Definition Inv (bl : banlist) : Prop :=
  NoDup (keys bl) /\ forall a, In a (keys bl) -> a_role a = Replica.

(** Holds after well-formed sequences: only addresses of the pool are banned. *)
Definition Sub (c : cfg) (bl : banlist) : Prop := forall a, In a (keys bl) -> In a (servers c).

Lemma Inv_nil : Inv [].
Proof. split; [constructor|intros a []]. Qed.

Lemma Inv_filter : forall f bl, Inv bl -> Inv (filter f bl).
Proof.
  intros f bl [N R]. split; [apply NoDup_keys_filter; exact N|].
  intros a I. apply R. eapply keys_filter_incl, I.
Qed.

Lemma Inv_ban : forall a r now bl, Inv bl -> Inv (ban a r now bl).
Proof.
  intros a r now bl [N R]. split.
  - unfold ban, insert_ban. destruct (a_role a); [exact N|]. cbn. constructor; [|apply NoDup_keys_filter, N].
    rewrite keys_remove. intros [_ H]. congruence.
  - intros x I. apply keys_ban in I. destruct I as [[-> Ra]|I]; auto.
Qed.

(** The one induction over [fold_left]: the admin commands and [run] are folds. *)
Lemma fold_left_inv : forall (A B : Type) (f : A -> B -> A) (P : A -> Prop) l,
  (forall s x, In x l -> P s -> P (f s x)) -> forall s, P s -> P (fold_left f l s).
Proof.
  induction l as [|x r IH]; cbn; intros F s H; [exact H|].
  apply IH; [intros s' y Y; apply F; right; exact Y|apply F; [left; reflexivity|exact H]].
Qed.

(** * The count in [try_unban] is exact (question (a)) *)

Definition wfc (c : cfg) : Prop := NoDup (servers c).

Definition every_replica_banned (c : cfg) (bl : banlist) (sh : nat) : Prop :=
  forall r, In r (servers c) -> a_role r = Replica -> a_shard r = sh -> In r (keys bl).

Lemma keys_shard_bl : forall sh bl, keys (shard_bl bl sh) = filter (is_sh sh) (keys bl).
Proof. intros. rewrite shard_bl_eq. apply keys_filter_fst. Qed.

(** The banned addresses of the shard are among its configured replicas and are without
    repetition: if the lengths agree the replicas are all among the banned, and conversely when the
    configured addresses are without repetition too. *)
Lemma all_banned_spec : forall c bl sh, Inv bl -> Sub c bl ->
  (all_replicas_banned c bl sh = true -> every_replica_banned c bl sh) /\
  (wfc c -> every_replica_banned c bl sh -> all_replicas_banned c bl sh = true).
Proof.
  intros c bl sh [N R] S. unfold all_replicas_banned, nreplicas, every_replica_banned.
  replace (length (shard_bl bl sh)) with (length (keys (shard_bl bl sh))) by apply map_length.
  rewrite keys_shard_bl, Nat.eqb_eq.
  assert (INR : forall r, In r (filter (fun a => is_replica a && Nat.eqb (a_shard a) sh) (servers c)) <->
                          In r (servers c) /\ a_role r = Replica /\ a_shard r = sh).
  { intros r. unfold is_replica. rewrite filter_In, andb_true_iff, Nat.eqb_eq.
    destruct (a_role r); intuition discriminate. }
  assert (LR : incl (filter (is_sh sh) (keys bl)) (filter (fun a => is_replica a && Nat.eqb (a_shard a) sh) (servers c))).
  { intros x I. apply filter_In in I. destruct I as [I P]. apply INR. repeat split; [apply S, I|apply R, I|apply Nat.eqb_eq, P]. }
  split.
  - intros H r I1 I2 I3. refine (proj1 (proj1 (filter_In _ _ _) _)).
    exact (NoDup_length_incl (NoDup_filter _ N) (Nat.eq_le_incl _ _ (eq_sym H)) LR r (proj2 (INR r) (conj I1 (conj I2 I3)))).
  - intros W H. apply Nat.le_antisymm; apply NoDup_incl_length; [apply NoDup_filter, N|exact LR|apply NoDup_filter, W|].
    intros r I. apply INR in I. apply filter_In. split; [apply H|apply Nat.eqb_eq]; apply I.
Qed.

(** * [gate], [contact] *)

Inductive gate_view (c : cfg) (now : Z) (a : addr) (bl : banlist) : option (bool * banlist) -> Prop :=
| gate_unbanned : is_banned a bl = false -> gate_view c now a bl (Some (false, bl))
| gate_primary : is_banned a bl = true -> a_role a = Primary -> gate_view c now a bl (Some (true, bl))
| gate_reset : is_banned a bl = true -> a_role a = Replica -> all_replicas_banned c bl (a_shard a) = true ->
    gate_view c now a bl (Some (true, clear_shard bl (a_shard a)))
| gate_expired : is_banned a bl = true -> a_role a = Replica -> all_replicas_banned c bl (a_shard a) = false ->
    expired c now bl a = true -> gate_view c now a bl (Some (true, remove_ban a bl))
| gate_closed : is_banned a bl = true -> a_role a = Replica -> all_replicas_banned c bl (a_shard a) = false ->
    expired c now bl a = false -> gate_view c now a bl None.

Lemma gate_spec : forall c now a bl g, gate c now a bl = g -> gate_view c now a bl g.
Proof.
  intros c now a bl g <-. unfold gate. destruct (is_banned a bl) eqn:B; [|constructor; exact B].
  unfold try_unban. destruct (a_role a) eqn:R; [constructor; assumption|].
  destruct (all_replicas_banned c bl (a_shard a)) eqn:AB; [constructor; assumption|].
  unfold is_banned in B. destruct (find_ban a bl) eqn:F; [|discriminate].
  destruct (expired c now bl a) eqn:E; constructor; unfold is_banned; try rewrite F; auto.
Qed.

(** At the gate of [a] another address keeps its entry, or loses it to the reset of their shard. *)
Lemma gate_other : forall c now a bl f bl1 x, gate c now a bl = Some (f, bl1) -> x <> a ->
  find_ban x bl1 = find_ban x bl \/ (find_ban x bl1 = None /\ all_replicas_banned c bl (a_shard x) = true).
Proof.
  intros c now a bl f bl1 x G N. apply gate_spec in G. inversion G; subst; auto.
  - rewrite find_clear. destruct (Nat.eqb_spec (a_shard x) (a_shard a)) as [->|]; auto.
  - rewrite find_remove. destruct (addr_eq_dec x a); [contradiction|auto].
Qed.
Arguments gate_other {c now a bl f bl1} x.

Lemma gate_keys : forall c now a bl f bl1 x, gate c now a bl = Some (f, bl1) -> In x (keys bl1) -> In x (keys bl).
Proof. intros c now a bl f bl1 x G I. apply gate_spec in G. inversion G; subst; auto; eapply keys_filter_incl, I. Qed.

Lemma gate_self_out : forall c now a bl f bl1, Inv bl -> gate c now a bl = Some (f, bl1) -> ~ In a (keys bl1).
Proof.
  intros c now a bl f bl1 [_ R] G. apply gate_spec in G. inversion G; subst.
  - apply is_banned_false. assumption.
  - intros I. specialize (R a I). congruence.
  - rewrite keys_clear. intros [_ H]. congruence.
  - rewrite keys_remove. intros [_ H]. congruence.
Qed.

Lemma gate_banned_unexpired : forall c now a bl f bl1, Inv bl -> gate c now a bl = Some (f, bl1) ->
  is_banned a bl = true -> expired c now bl a = false -> all_replicas_banned c bl (a_shard a) = true.
Proof.
  intros c now a bl f bl1 [_ R] G B E. apply gate_spec in G. inversion G; subst; try congruence.
  apply is_banned_In in B. specialize (R a B). congruence.
Qed.

Lemma gate_usable : forall c now a bl, expired c now bl a = true \/ a_role a = Primary -> gate c now a bl <> None.
Proof. intros c now a bl U G. apply gate_spec in G. inversion G. destruct U; congruence. Qed.

Lemma Inv_gate : forall c now a bl f bl1, Inv bl -> gate c now a bl = Some (f, bl1) -> Inv bl1.
Proof. intros c now a bl f bl1 I G. apply gate_spec in G. inversion G; subst; auto; apply Inv_filter; exact I. Qed.

Definition good (o : outcome) : bool := match o with Conn _ HcOk => true | _ => false end.

(** The checkout did not fail and, if the connection was not fresh, the health check passed. *)
Definition passes (o : outcome) : Prop :=
  match o with ConnFail => False | Conn false h => h = HcOk | Conn true _ => True end.

(** The outcome makes a contact fail when the check is run. *)
Definition failing (o : outcome) : Prop :=
  match o with ConnFail => True | Conn _ h => h <> HcOk end.

Lemma good_not_failing : forall o, good o = true -> ~ failing o.
Proof. intros [|fresh []]; cbn; congruence. Qed.

Lemma contact_spec : forall now outs a f bl1,
  match contact now outs a f bl1 with
  | Skip _ => False
  | Done b => b = bl1 /\ passes (outs a) /\ (f = true -> good (outs a) = true)
  | Fail b => failing (outs a) /\ exists r, b = ban a r now bl1 /\ (r = FailedCheckout \/ r = FailedHealthCheck)
  end.
Proof.
  intros. unfold contact. destruct (outs a) as [|fresh h]; cbn.
  - split; [exact I|]. eexists; split; [reflexivity|auto].
  - destruct f, fresh, h; cbn; repeat split; auto; try discriminate;
      try (eexists; split; [reflexivity|auto]).
Qed.

Lemma contact_good : forall now outs a f bl1, good (outs a) = true -> contact now outs a f bl1 = Done bl1.
Proof.
  intros. unfold contact. destruct (outs a) as [|fresh h]; [discriminate|]. destruct h; try discriminate.
  destruct (f || negb fresh); reflexivity.
Qed.

(** * The loop *)

(** Evidence that a whole shard is down: every replica of the shard was banned before this [get]
    or was contacted by it and not handed out. *)
Definition shard_down (c : cfg) (sh : nat) (bl : banlist) (ct : list addr) (res : gres) : Prop :=
  forall r, In r (servers c) -> a_role r = Replica -> a_shard r = sh ->
            In r (keys bl) \/ (In r ct /\ res <> Ok r).

Lemma shard_down_of_all : forall c sh bl ct res, Inv bl -> Sub c bl ->
  all_replicas_banned c bl sh = true -> shard_down c sh bl ct res.
Proof.
  intros c sh bl ct res I S AB r I1 I2 I3. left. apply (proj1 (all_banned_spec c bl sh I S) AB r); auto.
Qed.

Lemma shard_down_step : forall c sh bl b y ct res,
  (forall r, In r (keys b) -> r = y \/ In r (keys bl)) -> res <> Ok y ->
  shard_down c sh b ct res -> shard_down c sh bl (y :: ct) res.
Proof.
  intros c sh bl b y ct res K NY D r I1 I2 I3. destruct (D r I1 I2 I3) as [I|[I N]].
  - destruct (K r I) as [E|I']; [subst; right; split; [left; reflexivity|exact NY]|left; exact I'].
  - right. split; [right; exact I|exact N].
Qed.

(** What a checkout with result [res], contacts [ct] and ban lists [bl], [bl'] before and after
    does to the entry of an address [x], short of evidence that the shard of [x] is down: if
    banned and not expired it is not contacted; if not contacted its entry is untouched; if
    contacted and not handed out it is banned afterwards (a replica). *)
Record entry_fate (c : cfg) (tc : addr -> Z) (bl : banlist) (res : gres) (ct : list addr) (bl' : banlist)
                  (x : addr) : Prop := {
  fate_bypassed : In x ct -> is_banned x bl = true -> expired c (tc x) bl x = false ->
                  shard_down c (a_shard x) bl ct res;
  fate_untouched : ~ In x ct -> find_ban x bl' = find_ban x bl \/ shard_down c (a_shard x) bl ct res;
  fate_banned : In x ct -> res <> Ok x -> a_role x = Replica ->
                In x (keys bl') \/ shard_down c (a_shard x) bl ct res
}.

Lemma entry_fate_nil : forall c tc bl res x, entry_fate c tc bl res [] bl x.
Proof. intros. split; [intros []|left; reflexivity|intros []]. Qed.

Section Loop.
  Variable c : cfg.
  Variables tc bc : addr -> Z.
  Variable outs : addr -> outcome.

  (** [get_loop] as a relation, one constructor per way through an iteration: the popped address
      is skipped at the gate, is contacted and fails (and is banned, if a replica), or is handed
      out.  Everything below is an induction on it. *)
  Inductive loop : list addr -> banlist -> gres -> list addr -> banlist -> Prop :=
  | loop_nil : forall bl, loop [] bl ErrAllDown [] bl
  | loop_skip : forall a rest bl res ct bl', gate c (tc a) a bl = None ->
      loop rest bl res ct bl' -> loop (a :: rest) bl res ct bl'
  | loop_fail : forall a rest bl f bl1 r res ct bl', gate c (tc a) a bl = Some (f, bl1) -> failing (outs a) ->
      loop rest (ban a r (bc a) bl1) res ct bl' -> loop (a :: rest) bl res (a :: ct) bl'
  | loop_done : forall a rest bl f bl1, gate c (tc a) a bl = Some (f, bl1) -> passes (outs a) ->
      loop (a :: rest) bl (Ok a) [a] bl1.

  Lemma get_loop_loop : forall todo bl res ct bl',
    get_loop c tc bc outs todo bl = (res, ct, bl') -> loop todo bl res ct bl'.
  Proof.
    induction todo as [|a rest IH]; cbn; intros bl res ct bl' H.
    - inversion H. constructor.
    - unfold visit in H. destruct (gate c (tc a) a bl) as [[f bl1]|] eqn:G; [|apply loop_skip; auto].
      pose proof (contact_spec (bc a) outs a f bl1) as C.
      destruct (contact (bc a) outs a f bl1) as [b|b|b]; [contradiction| |].
      + destruct C as [F [r [-> _]]].
        destruct (get_loop c tc bc outs rest (ban a r (bc a) bl1)) as [[r' ct'] b2] eqn:L.
        inversion H; subst. eapply loop_fail; eauto.
      + destruct C as [-> [P _]]. inversion H; subst. eapply loop_done; eauto.
  Qed.

  Lemma loop_ct : forall todo bl res ct bl', loop todo bl res ct bl' -> incl ct todo.
  Proof. induction 1; intros x I; cbn in *; intuition. Qed.

  Lemma loop_result : forall todo bl res ct bl', loop todo bl res ct bl' ->
    match res with
    | Ok a => In a ct /\ passes (outs a) /\ (Inv bl -> ~ In a (keys bl'))
    | ErrAllDown => True
    | ErrInvalidShard => False
    end.
  Proof.
    induction 1 as [| |a rest bl f bl1 r res ct bl' G F L IH|a rest bl f bl1 G P]; auto.
    - destruct res; auto. destruct IH as [I1 [I2 I3]]. repeat split; [right; exact I1|exact I2|].
      intros I. eapply I3, Inv_ban, Inv_gate; eauto.
    - repeat split; [left; reflexivity|exact P|]. intros I. eapply gate_self_out; eauto.
  Qed.

  Lemma loop_failing : forall todo bl res ct bl', loop todo bl res ct bl' ->
    forall a, In a ct -> res <> Ok a -> failing (outs a).
  Proof.
    induction 1; intros x I N; auto.
    - destruct I.
    - destruct I as [<-|I]; auto.
    - destruct I as [<-|[]]. congruence.
  Qed.

  Lemma loop_new_keys : forall todo bl res ct bl', loop todo bl res ct bl' ->
    forall x, In x (keys bl') -> In x (keys bl) \/ (a_role x = Replica /\ In x ct /\ failing (outs x)).
  Proof.
    induction 1 as [| |a rest bl f bl1 r res ct bl' G F L IH|a rest bl f bl1 G P]; intros x I; auto.
    - destruct (IH x I) as [K|[R [K F']]]; [|right; repeat split; [|right|]; assumption].
      apply keys_ban in K. destruct K as [[-> R]|K]; [right; repeat split; [|left|]; auto|left; eapply gate_keys; eauto].
    - left. eapply gate_keys; eauto.
  Qed.

  Lemma loop_Inv : forall todo bl res ct bl', loop todo bl res ct bl' -> Inv bl -> Inv bl'.
  Proof. induction 1; intros I; auto; [eapply IHloop, Inv_ban|]; eapply Inv_gate; eauto. Qed.

  Definition usable (bl : banlist) (b : addr) : Prop :=
    good (outs b) = true /\ (expired c (tc b) bl b = true \/ a_role b = Primary).

  (** c07_failover_silent and c07_refused_only_if_none_usable, on the loop.  A usable address
      that is not popped stays usable: its entry stays or goes. *)
  Lemma loop_progress : forall todo bl res ct bl', loop todo bl res ct bl' ->
    (exists b, In b todo /\ usable bl b) -> exists b', res = Ok b'.
  Proof.
    induction 1 as [|a rest bl res ct bl' G L IH|a rest bl f bl1 r res ct bl' G F L IH|];
      intros [b [Ib [Gb Ub]]]; [destruct Ib| | |eauto].
    - destruct Ib as [->|Ib]; [exfalso; eapply gate_usable; eauto|]. apply IH. exists b. repeat split; auto.
    - destruct (addr_eq_dec b a) as [->|N]; [exfalso; eapply good_not_failing; eauto|].
      destruct Ib as [->|Ib]; [contradiction|].
      apply IH. exists b. repeat split; auto. destruct Ub as [Ub|Ub]; [left|right; exact Ub].
      rewrite (expired_ext c (tc b) bl1) by (apply find_ban_other; exact N).
      destruct (gate_other b G N) as [E|[E _]]; [rewrite (expired_ext c (tc b) bl); assumption|].
      apply expired_none, E.
  Qed.

  (** Entries of addresses other than the popped one go only in a reset of their shard, which
      takes all its replicas banned — each before this [get] or by it. *)
  Theorem loop_entries : forall todo bl res ct bl', loop todo bl res ct bl' ->
    NoDup todo -> incl todo (servers c) -> Inv bl -> Sub c bl -> forall x, entry_fate c tc bl res ct bl' x.
  Proof.
    induction 1 as [bl|y rest bl res ct bl' G L IH|y rest bl f bl1 r res ct bl' G F L IH|y rest bl f bl1 G P];
      intros ND T I S x.
    - apply entry_fate_nil.
    - apply IH; auto; [inversion ND; assumption|eapply incl_cons_inv, T].
    - inversion ND as [|? ? NY ND']; subst. apply incl_cons_inv in T. destruct T as [Iy T].
      assert (I1 : Inv bl1) by (eapply Inv_gate; eauto).
      assert (Ib : Inv (ban y r (bc y) bl1)) by apply Inv_ban, I1.
      assert (K : forall q, In q (keys (ban y r (bc y) bl1)) -> q = y \/ In q (keys bl)).
      { intros q Q. apply keys_ban in Q. destruct Q as [[Q _]|Q]; [left; exact Q|right; eapply gate_keys; eauto]. }
      assert (Sb : Sub c (ban y r (bc y) bl1)) by (intros q Q; destruct (K q Q) as [->|Q']; auto).
      assert (NC : ~ In y ct) by (intros Z; apply NY, (loop_ct _ _ _ _ _ L), Z).
      assert (D : forall sh, shard_down c sh (ban y r (bc y) bl1) ct res -> shard_down c sh bl (y :: ct) res).
      { intros sh. apply shard_down_step; [exact K|]. intros ->. apply NC. exact (proj1 (loop_result _ _ _ _ _ L)). }
      destruct (IH ND' T Ib Sb x) as [H1 H2 H3]. destruct (addr_eq_dec x y) as [->|XY].
      + split.
        * intros _ B E. apply shard_down_of_all; auto. eapply gate_banned_unexpired; eauto.
        * intros N. exfalso. apply N. left. reflexivity.
        * intros _ _ R. destruct (H2 NC) as [E|SD]; [left|right; auto].
          eapply find_ban_In. rewrite E. apply find_ban_self, R.
      + destruct (gate_other x G XY) as [E|[_ A]].
        * rewrite <- (find_ban_other y r (bc y) x bl1 XY) in E. split.
          -- intros [Z|Z] B Ex; [congruence|]. apply D, H1; [exact Z| |].
             ++ rewrite (is_banned_ext _ _ _ E). exact B.
             ++ rewrite (expired_ext _ _ _ _ _ E). exact Ex.
          -- intros N. destruct H2 as [E2|SD]; [intros Z; apply N; right; exact Z|left; congruence|right; auto].
          -- intros [Z|Z] NK R; [congruence|]. destruct (H3 Z NK R); [left|right]; auto.
        * pose proof (shard_down_of_all c _ bl (y :: ct) res I S A). split; auto.
    - destruct (addr_eq_dec x y) as [->|XY].
      + split.
        * intros _ B E. apply shard_down_of_all; auto. eapply gate_banned_unexpired; eauto.
        * intros N. exfalso. apply N. left. reflexivity.
        * congruence.
      + split; try (intros [Z|[]]; congruence). intros _.
        destruct (gate_other x G XY) as [E|[_ A]]; [left; exact E|right].
        apply shard_down_of_all; auto.
  Qed.
End Loop.

Arguments loop_ct {c tc bc outs todo bl res ct bl'}.
Arguments loop_result {c tc bc outs todo bl res ct bl'}.
Arguments loop_failing {c tc bc outs todo bl res ct bl'}.
Arguments loop_new_keys {c tc bc outs todo bl res ct bl'}.
Arguments loop_progress {c tc bc outs todo bl res ct bl'}.

(** * [get] *)

Lemma wf_order_rev : forall c req shard order, wf_order c req shard order ->
  NoDup (rev order) /\ incl (rev order) (servers c) /\
  (forall a, In a (rev order) <-> In a (candidates c req (effective_sel c shard))).
Proof.
  intros c req shard order [ND EQ]. split; [apply NoDup_rev; exact ND|]. split.
  - intros a I. apply in_rev in I. apply EQ in I. unfold candidates in I. apply filter_In in I. tauto.
  - intros a. rewrite <- in_rev. apply EQ.
Qed.
Arguments wf_order_rev {c req shard order}.

Lemma get_unfold : forall c req shard order outs tc bc bl res ct bl',
  get c req shard order outs tc bc bl = (res, ct, bl') ->
  (effective_sel c shard = SInvalid /\ res = ErrInvalidShard /\ ct = [] /\ bl' = bl) \/
  (effective_sel c shard <> SInvalid /\ loop c tc bc outs (rev order) bl res ct bl').
Proof.
  intros. unfold get in H. destruct (effective_sel c shard).
  1, 2: right; split; [discriminate|apply get_loop_loop, H].
  left. inversion H; subst. auto.
Qed.
Arguments get_unfold {c req shard order outs tc bc bl res ct bl'}.

Lemma get_Inv : forall c req shard order outs tc bc bl, Inv bl -> Inv (snd (get c req shard order outs tc bc bl)).
Proof.
  intros c req shard order outs tc bc bl I. destruct (get c req shard order outs tc bc bl) as [[res ct] bl'] eqn:H.
  destruct (get_unfold H) as [[_ [_ [_ ->]]]|[_ L]]; [exact I|eapply loop_Inv; eauto].
Qed.

Lemma get_new_keys : forall c req shard order outs tc bc bl x,
  In x (keys (snd (get c req shard order outs tc bc bl))) ->
  In x (keys bl) \/ (a_role x = Replica /\ In x order /\ failing (outs x)).
Proof.
  intros c req shard order outs tc bc bl x. destruct (get c req shard order outs tc bc bl) as [[res ct] bl'] eqn:H.
  destruct (get_unfold H) as [[_ [_ [_ ->]]]|[_ L]]; [auto|]. intros I.
  destruct (loop_new_keys L x I) as [K|[R [K F]]]; [left; exact K|right].
  repeat split; auto. apply in_rev. exact (loop_ct L x K).
Qed.

(** * Admin commands *)

Lemma host_addrs_servers : forall c h a, In a (host_addrs c h) <-> In a (servers c) /\ a_host a = h.
Proof. intros. unfold host_addrs. rewrite filter_In, Nat.eqb_eq. tauto. Qed.

Lemma unban_one : forall a bl x,
  find_ban x (if is_banned a bl then remove_ban a bl else bl) = if addr_eq_dec a x then None else find_ban x bl.
Proof.
  intros a bl x. destruct (is_banned a bl) eqn:B.
  - rewrite find_remove. destruct (addr_eq_dec x a), (addr_eq_dec a x); congruence.
  - destruct (addr_eq_dec a x) as [<-|]; [|reflexivity]. apply find_ban_None, is_banned_false, B.
Qed.

Lemma ban_one : forall d now a bl x,
  find_ban x (if is_banned a bl then bl else ban a (AdminBan d) now bl) =
  match find_ban x bl with
  | Some v => Some v
  | None => if addr_eq_dec a x then (if is_replica x then Some (AdminBan d, now) else None) else None
  end.
Proof.
  intros d now a bl x. unfold is_banned at 1. destruct (addr_eq_dec a x) as [<-|N].
  - destruct (find_ban a bl) eqn:F; [rewrite F; reflexivity|]. rewrite find_ban_role. unfold is_replica.
    destruct (a_role a); [exact F|]. destruct (addr_eq_dec a a); congruence.
  - destruct (find_ban a bl); [|rewrite find_ban_other by congruence]; destruct (find_ban x bl); reflexivity.
Qed.

(** From one address of the host to all of them: [in_dec] on a cons computes to the test of the head,
    then the tail. *)
Lemma fold_unban_spec : forall l bl x,
  find_ban x (fold_left (fun b a => if is_banned a b then remove_ban a b else b) l bl) =
  if in_dec addr_eq_dec x l then None else find_ban x bl.
Proof.
  induction l as [|a r IH]; intros bl x; cbn [fold_left]; [reflexivity|]. rewrite IH, unban_one. simpl.
  destruct (addr_eq_dec a x); destruct (in_dec addr_eq_dec x r); reflexivity.
Qed.

Lemma fold_ban_spec : forall d now l bl x,
  find_ban x (fold_left (fun b a => if is_banned a b then b else ban a (AdminBan d) now b) l bl) =
  match find_ban x bl with
  | Some v => Some v
  | None => if in_dec addr_eq_dec x l then (if is_replica x then Some (AdminBan d, now) else None) else None
  end.
Proof.
  induction l as [|a r IH]; intros bl x; cbn [fold_left]; [destruct (find_ban x bl); reflexivity|].
  rewrite IH, ban_one. destruct (find_ban x bl); [reflexivity|]. simpl.
  destruct (addr_eq_dec a x); [destruct (is_replica x)|]; destruct (in_dec addr_eq_dec x r); reflexivity.
Qed.

Lemma admin_unban_spec : forall c h bl x,
  find_ban x (admin_unban c h bl) = if in_dec addr_eq_dec x (host_addrs c h) then None else find_ban x bl.
Proof. intros. apply fold_unban_spec. Qed.

Lemma admin_ban_spec : forall c h d now bl x, d > 0 ->
  find_ban x (admin_ban c h d now bl) =
  match find_ban x bl with
  | Some v => Some v
  | None => if in_dec addr_eq_dec x (host_addrs c h) then (if is_replica x then Some (AdminBan d, now) else None) else None
  end.
Proof. intros c h d now bl x D. unfold admin_ban. destruct (Z.leb_spec d 0); [lia|apply fold_ban_spec]. Qed.

Lemma admin_ban_nonpositive : forall c h d now bl, d <= 0 -> admin_ban c h d now bl = bl.
Proof. intros. unfold admin_ban. destruct (Z.leb_spec d 0); [reflexivity|lia]. Qed.

Lemma admin_unban_keys : forall c h bl x, In x (keys (admin_unban c h bl)) -> In x (keys bl).
Proof.
  intros c h bl x I. apply is_banned_In in I. apply is_banned_In. unfold is_banned in *.
  rewrite admin_unban_spec in I. destruct (in_dec addr_eq_dec x (host_addrs c h)); [discriminate|exact I].
Qed.

Lemma admin_ban_new_keys : forall c h d now bl x, In x (keys (admin_ban c h d now bl)) ->
  In x (keys bl) \/ (a_role x = Replica /\ In x (host_addrs c h)).
Proof.
  intros c h d now bl x I. destruct (Z_le_gt_dec d 0) as [D|D]; [rewrite admin_ban_nonpositive in I; auto|].
  apply is_banned_In in I. unfold is_banned in I. rewrite admin_ban_spec in I by exact D.
  destruct (find_ban x bl) eqn:F; [left; eapply find_ban_In, F|right].
  destruct (in_dec addr_eq_dec x (host_addrs c h)); [|discriminate]. unfold is_replica in I.
  destruct (a_role x); [discriminate|auto].
Qed.

(** * Operation sequences *)

Lemma step_Inv : forall c bl o, Inv bl -> Inv (step c bl o).
Proof.
  intros c bl o I. destruct o; cbn.
  - apply get_Inv; exact I.
  - destruct (in_servers c a); [apply Inv_ban|]; exact I.
  - destruct r; try exact I. destruct (in_servers c a); [apply Inv_ban|]; exact I.
  - unfold admin_ban. destruct (d <=? 0); [exact I|]. apply fold_left_inv; [|exact I].
    intros b a _ Ib. destruct (is_banned a b); [exact Ib|apply Inv_ban; exact Ib].
  - unfold admin_unban. apply fold_left_inv; [|exact I]. intros b a _ Ib. destruct (is_banned a b); [apply Inv_filter|]; exact Ib.
Qed.

(** The ban list grows only by a failure of the address entered or by the admin's BAN of its
    host, and only by replicas of the pool. *)
Theorem step_new_key : forall c bl o x, In x (keys (step c bl o)) -> In x (keys bl) \/
  a_role x = Replica /\
  match o with
  | Get _ _ order outs _ _ => In x order /\ failing (outs x)
  | ExecFail a _ _ _ => a = x /\ In x (servers c)
  | OobPrepare a r _ => a = x /\ r = OobConnFail /\ In x (servers c)
  | AdminBan_ h _ _ => In x (host_addrs c h)
  | AdminUnban _ => False
  end.
Proof.
  intros c bl o x I. destruct o; cbn in I.
  - eapply get_new_keys, I.
  - destruct (in_servers c a) eqn:Ia; [|auto]. apply in_servers_iff in Ia. apply keys_ban in I.
    destruct I as [[-> R]|I]; auto.
  - destruct r; auto. destruct (in_servers c a) eqn:Ia; [|auto]. apply in_servers_iff in Ia. apply keys_ban in I.
    destruct I as [[-> R]|I]; auto.
  - apply admin_ban_new_keys in I. exact I.
  - left. eapply admin_unban_keys, I.
Qed.

Lemma step_Sub : forall c bl o, wf_op c o -> Sub c bl -> Sub c (step c bl o).
Proof.
  intros c bl o WF S x I. destruct (step_new_key c bl o x I) as [K|[_ K]]; [apply S, K|].
  destruct o; try tauto.
  - destruct K as [K _]. apply (proj2 WF) in K. apply filter_In in K. tauto.
  - apply host_addrs_servers in K. tauto.
Qed.

Lemma run_ind : forall c (Q : op -> Prop) (P : banlist -> Prop),
  (forall bl o, Q o -> P bl -> P (step c bl o)) -> forall ops bl, Forall Q ops -> P bl -> P (run c bl ops).
Proof.
  intros c Q P H ops bl F. apply fold_left_inv. intros s o Io. apply H. exact (proj1 (Forall_forall Q ops) F o Io).
Qed.

Lemma run_Inv : forall c ops bl, Inv bl -> Inv (run c bl ops).
Proof.
  intros c ops bl. apply (run_ind c (fun _ => True)); [intros b o _; apply step_Inv|apply Forall_forall; trivial].
Qed.

(** States reachable by well-formed operation sequences from the empty ban list of a new pool
    (pool.rs:525). *)
Definition reachable (c : cfg) (bl : banlist) : Prop :=
  exists ops, Forall (wf_op c) ops /\ bl = run c [] ops.

Lemma reachable_Inv : forall c bl, reachable c bl -> Inv bl /\ Sub c bl.
Proof.
  intros c bl [ops [F ->]]. split; [apply run_Inv, Inv_nil|].
  apply (run_ind c (wf_op c)); [apply step_Sub|exact F|intros a []].
Qed.

(** [loop_entries] for a checkout of a reachable state with a well-formed order. *)
Theorem get_entries : forall c bl req shard order outs tc bc res ct bl', reachable c bl ->
  wf_order c req shard order ->
  get c req shard order outs tc bc bl = (res, ct, bl') -> forall x, entry_fate c tc bl res ct bl' x.
Proof.
  intros c bl req shard order outs tc bc res ct bl' R WF H x.
  destruct (get_unfold H) as [[_ [_ [-> ->]]]|[_ L]].
  - apply entry_fate_nil.
  - destruct (reachable_Inv c bl R) as [I S]. destruct (wf_order_rev WF) as [ND [T _]].
    eapply loop_entries; eauto.
Qed.
Arguments get_entries {c bl req shard order outs tc bc res ct bl'}.
