(** C07 — the property theorems, each derived in a few lines from the lemmas of Proofs.v and
    audited with [Print Assumptions]; [Example]s show non-vacuity and pin the model on the
    schedules the property text and the review questions talk about.

    Quantifiers.  [reachable c bl]: [bl] is the ban list after ANY finite sequence of well-formed
    operations (checkouts with any candidate order / outcome function / clock, failures of
    checked-out servers, admin BAN / UNBAN) on a new pool with ANY address list [servers c] (any
    number of shards, replicas, primaries).  [wf_order]: the order is a rearrangement of the
    candidates — every result of shuffle / sort, i.e. both load-balancing modes.  [outs] and the
    clock readings [tc] (in try_unban) and [bc] (in ban), one pair per address: arbitrary.
    [wfc c]: the addresses of the pool are pairwise different. *)
From Coq Require Import ZArith List Bool Arith.
From PV Require Import Ban.Model Ban.Proofs Ban.Tie.
Import ListNotations.
Open Scope Z_scope.

(** The primary is never banned — after every operation sequence, well formed or not. *)
Theorem c07_primary_never_banned : forall c ops a, In a (keys (run c [] ops)) -> a_role a = Replica.
Proof.
  intros c ops a. apply (run_Inv c ops [] Inv_nil).
Qed.
Print Assumptions c07_primary_never_banned.

(** Question (a): the test [banlist[shard].len() == #replicas of the shard] in [try_unban] is
    exact — it holds iff every configured replica of that shard is banned.  (The map only ever
    holds replica addresses of this pool filed under their own shard, each once.) *)
Theorem c07_all_banned_count_exact : forall c bl sh, wfc c -> reachable c bl ->
  (all_replicas_banned c bl sh = true <-> every_replica_banned c bl sh).
Proof.
  intros c bl sh W R. destruct (reachable_Inv c bl R) as [I S]. destruct (all_banned_spec c bl sh I S). split; auto.
Qed.
Print Assumptions c07_all_banned_count_exact.

(** A handed-out server is not banned afterwards, is a candidate of the requested role / shard,
    was contacted, and its checkout passed (health check passed when one was due). *)
Theorem c07_returned_not_banned : forall c bl req shard order outs tc bc a ct bl', reachable c bl ->
  wf_order c req shard order ->
  get c req shard order outs tc bc bl = (Ok a, ct, bl') ->
  ~ In a (keys bl') /\ In a (candidates c req (effective_sel c shard)) /\ passes (outs a) /\ In a ct.
Proof.
  intros c bl req shard order outs tc bc a ct bl' R WF H.
  destruct (get_unfold H) as [[_ [E _]]|[_ L]]; [discriminate|].
  destruct (loop_result L) as [I [P N]]. destruct (wf_order_rev WF) as [_ [_ EQ]].
  repeat split; [apply N, (reachable_Inv c bl R)|apply EQ, (loop_ct L), I|exact P|exact I].
Qed.
Print Assumptions c07_returned_not_banned.

(** A banned replica whose ban has not run out is contacted (checkout, health check, hence any
    client statement) only with evidence that its whole shard is down: every replica of the shard
    was banned before this checkout or was contacted by it and not handed out. *)
Theorem c07_banned_bypassed : forall c bl req shard order outs tc bc res ct bl', wfc c -> reachable c bl ->
  wf_order c req shard order ->
  get c req shard order outs tc bc bl = (res, ct, bl') ->
  forall a, is_banned a bl = true -> expired c (tc a) bl a = false -> In a ct ->
  shard_down c (a_shard a) bl ct res.
Proof.
  intros c bl req shard order outs tc bc res ct bl' _ R WF H a B E Ia.
  destruct (get_entries R WF H a) as [X _ _]. exact (X Ia B E).
Qed.
Print Assumptions c07_banned_bypassed.

(** ... in the words of the property: as long as another replica of the shard is neither banned
    nor failing in this checkout, the banned one is not contacted at all. *)
Theorem c07_banned_bypassed_while_other_up : forall c bl req shard order outs tc bc res ct bl', wfc c -> reachable c bl ->
  wf_order c req shard order ->
  get c req shard order outs tc bc bl = (res, ct, bl') ->
  forall a r, is_banned a bl = true -> expired c (tc a) bl a = false ->
  In r (servers c) -> a_role r = Replica -> a_shard r = a_shard a ->
  ~ In r (keys bl) -> (~ In r ct \/ res = Ok r) ->
  ~ In a ct.
Proof.
  intros c bl req shard order outs tc bc res ct bl' W R WF H a r B E I1 I2 I3 NB UP Ia.
  eapply c07_banned_bypassed in Ia; eauto.
  destruct (Ia r I1 I2 I3) as [K|[K N]]; [contradiction|].
  destruct UP; contradiction.
Qed.
Print Assumptions c07_banned_bypassed_while_other_up.

(** Failover is silent, part 1: an address that was contacted and not handed out had a failing
    outcome (refused / connect timeout / busy pool, failed or timed-out health check) and, if it is
    a replica, is banned afterwards — unless the all-replicas-banned reset of its shard fired later
    in the same checkout (then the whole shard is down, see [shard_down]). *)
Theorem c07_failover_silent_banned : forall c bl req shard order outs tc bc res ct bl', wfc c -> reachable c bl ->
  wf_order c req shard order ->
  get c req shard order outs tc bc bl = (res, ct, bl') ->
  forall a, In a ct -> res <> Ok a ->
  failing (outs a) /\ (a_role a = Replica -> In a (keys bl') \/ shard_down c (a_shard a) bl ct res).
Proof.
  intros c bl req shard order outs tc bc res ct bl' _ R WF H a Ia NOK. split.
  - destruct (get_unfold H) as [[_ [_ [-> _]]]|[_ L]]; [destruct Ia|].
    eapply loop_failing; eauto.
  - destruct (get_entries R WF H a) as [_ _ X]. exact (X Ia NOK).
Qed.
Print Assumptions c07_failover_silent_banned.

(** Failover is silent, part 2: if some candidate is usable (its checkout and health check would
    succeed, and it is not banned, or its ban has run out, or it is the primary), the checkout
    succeeds with a server that passes — the client sees no error, whatever else is broken. *)
Theorem c07_failover_silent : forall c bl req shard order outs tc bc res ct bl', reachable c bl ->
  wf_order c req shard order ->
  get c req shard order outs tc bc bl = (res, ct, bl') ->
  effective_sel c shard <> SInvalid ->
  (exists b, In b (candidates c req (effective_sel c shard)) /\ usable c tc outs bl b) ->
  exists b', res = Ok b' /\ passes (outs b') /\ ~ In b' (keys bl') /\
             In b' (candidates c req (effective_sel c shard)).
Proof.
  intros c bl req shard order outs tc bc res ct bl' R WF H V [b [Ib U]].
  destruct (get_unfold H) as [[E _]|[_ L]]; [contradiction|].
  destruct (loop_progress L) as [b' ->].
  - exists b. split; [apply (wf_order_rev WF), Ib|exact U].
  - exists b'. destruct (c07_returned_not_banned c bl req shard order outs tc bc b' ct bl' R WF H) as [A [B [C _]]]. auto.
Qed.
Print Assumptions c07_failover_silent.

(** A transaction is refused at checkout only if no server of the requested role in the target
    shard is usable: each candidate either would not pass (checkout or health check fails) or is a
    replica under a ban that has not run out. *)
Theorem c07_refused_only_if_none_usable : forall c bl req shard order outs tc bc ct bl', reachable c bl ->
  wf_order c req shard order ->
  get c req shard order outs tc bc bl = (ErrAllDown, ct, bl') ->
  forall b, In b (candidates c req (effective_sel c shard)) ->
  good (outs b) = false \/ (is_banned b bl = true /\ expired c (tc b) bl b = false /\ a_role b = Replica).
Proof.
  intros c bl req shard order outs tc bc ct bl' _ WF H b Ib.
  destruct (good (outs b)) eqn:G; [right|left; reflexivity].
  assert (NU : ~ (expired c (tc b) bl b = true \/ a_role b = Primary)).
  { intros U. destruct (get_unfold H) as [[_ [X _]]|[_ L]]; [discriminate|].
    destruct (loop_progress L) as [b' X]; [|discriminate].
    exists b. split; [apply (wf_order_rev WF), Ib|split; assumption]. }
  destruct (expired c (tc b) bl b) eqn:E; [destruct NU; auto|]. destruct (a_role b); [destruct NU; auto|].
  repeat split. unfold is_banned. unfold expired in E. destruct (find_ban b bl); [reflexivity|discriminate].
Qed.
Print Assumptions c07_refused_only_if_none_usable.

(** The only other refusal is an explicit shard number outside the pool. *)
Theorem c07_invalid_shard_only : forall c bl req shard order outs tc bc ct bl',
  get c req shard order outs tc bc bl = (ErrInvalidShard, ct, bl') ->
  nshards c <> 1%nat /\ exists n, shard = Some n /\ (nshards c <= n)%nat /\ ct = [] /\ bl' = bl.
Proof.
  intros c bl req shard order outs tc bc ct bl' H.
  destruct (get_unfold H) as [[E [_ [C B]]]|[_ L]]; [|destruct (loop_result L)].
  unfold effective_sel in E. destruct (Nat.eqb_spec (nshards c) 1) as [N1|N1]; [discriminate|]. split; [assumption|].
  destruct shard as [k|]; [|destruct (default_shard c); discriminate].
  destruct (Nat.ltb_spec k (nshards c)); [discriminate|]. exists k. auto.
Qed.
Print Assumptions c07_invalid_shard_only.

(** c07_unban, 1: when not all replicas are banned, a ban ends exactly when the difference of the
    whole-second clock readings is STRICTLY greater than ban_time, or than the admin-given
    duration for an admin ban. *)
Theorem c07_unban_expiry : forall c now a bl r ts, a_role a = Replica ->
  all_replicas_banned c bl (a_shard a) = false -> find_ban a bl = Some (r, ts) ->
  fst (try_unban c now a bl) =
    match r with AdminBan d => now - ts >? d | _ => now - ts >? ban_time c end.
Proof.
  intros c now a bl r ts R AB F. unfold try_unban. rewrite R, AB, F. unfold expired. rewrite F.
  destruct r; destruct (_ >? _); reflexivity.
Qed.
Print Assumptions c07_unban_expiry.

(** 2: a successful [try_unban] of a replica leaves it unbanned; an unsuccessful one changes nothing. *)
Theorem c07_unban_removes : forall c now a bl bl', a_role a = Replica ->
  try_unban c now a bl = (true, bl') -> ~ In a (keys bl').
Proof.
  intros c now a bl bl' R H. unfold try_unban in H. rewrite R in H.
  destruct (all_replicas_banned c bl (a_shard a)).
  - inversion H; subst. rewrite keys_clear. intros [_ N]. congruence.
  - destruct (find_ban a bl) eqn:F.
    + destruct (expired c now bl a); inversion H; subst. rewrite keys_remove. intros [_ N]. congruence.
    + inversion H; subst. apply find_ban_None. exact F.
Qed.
Print Assumptions c07_unban_removes.

Theorem c07_unban_false_keeps : forall c now a bl bl', try_unban c now a bl = (false, bl') -> bl' = bl.
Proof.
  intros c now a bl bl' H. unfold try_unban in H. destruct (a_role a); [discriminate|].
  destruct (all_replicas_banned c bl (a_shard a)); [discriminate|].
  destruct (find_ban a bl); [|discriminate]. destruct (expired c now bl a); inversion H; reflexivity.
Qed.
Print Assumptions c07_unban_false_keeps.

(** 3: once all replicas of a shard are banned, the next banned candidate of that shard that is
    popped clears the shard's whole ban list (other shards untouched). *)
Theorem c07_unban_all_when_all_banned : forall c now a bl, a_role a = Replica ->
  all_replicas_banned c bl (a_shard a) = true ->
  try_unban c now a bl = (true, clear_shard bl (a_shard a)) /\ shard_bl (clear_shard bl (a_shard a)) (a_shard a) = [] /\
  (forall x, a_shard x <> a_shard a -> find_ban x (clear_shard bl (a_shard a)) = find_ban x bl).
Proof.
  intros c now a bl R AB. split; [unfold try_unban; rewrite R, AB; reflexivity|]. split; [apply shard_bl_clear|].
  intros x N. rewrite find_clear. destruct (Nat.eqb_spec (a_shard x) (a_shard a)); [contradiction|reflexivity].
Qed.
Print Assumptions c07_unban_all_when_all_banned.

(** 4: UNBAN host removes exactly the bans of that host's addresses. *)
Theorem c07_admin_unban : forall c h bl x,
  find_ban x (admin_unban c h bl) = if in_dec addr_eq_dec x (host_addrs c h) then None else find_ban x bl.
Proof. exact admin_unban_spec. Qed.
Print Assumptions c07_admin_unban.

(** 5: BAN host d (d > 0) bans exactly the not yet banned REPLICAS of that host with reason
    [AdminBan d] stamped now (so by [c07_unban_expiry] the duration d is honoured); existing bans
    and primaries are untouched; d <= 0 is refused. *)
Theorem c07_admin_ban : forall c h d now bl x, wfc c -> d > 0 ->
  find_ban x (admin_ban c h d now bl) =
  match find_ban x bl with
  | Some v => Some v
  | None => if in_dec addr_eq_dec x (host_addrs c h) then (if is_replica x then Some (AdminBan d, now) else None) else None
  end.
Proof.
  intros c h d now bl x _. apply admin_ban_spec.
Qed.
Print Assumptions c07_admin_ban.

Theorem c07_admin_ban_nonpositive : forall c h d now bl, d <= 0 -> admin_ban c h d now bl = bl.
Proof. exact admin_ban_nonpositive. Qed.
Print Assumptions c07_admin_ban_nonpositive.

(** 6: the admin commands name a HOST.  After UNBAN h no address of the pool with host h is banned;
    after BAN h d (d > 0) every replica of the pool with host h is banned — each of them, however
    many servers share the host string and in whichever shard they are; and nothing else is added. *)
Theorem c07_unban_host_clears : forall c h bl x, In x (servers c) -> a_host x = h -> ~ In x (keys (admin_unban c h bl)).
Proof.
  intros c h bl x I H. apply find_ban_None. rewrite admin_unban_spec.
  destruct (in_dec addr_eq_dec x (host_addrs c h)) as [_|N]; [reflexivity|].
  destruct N. apply host_addrs_servers. auto.
Qed.
Print Assumptions c07_unban_host_clears.

Theorem c07_ban_host_covers : forall c h d now bl x, wfc c -> d > 0 -> In x (servers c) -> a_host x = h ->
  a_role x = Replica -> In x (keys (admin_ban c h d now bl)).
Proof.
  intros c h d now bl x _ D I H R. apply is_banned_In. unfold is_banned. rewrite admin_ban_spec by exact D.
  destruct (find_ban x bl); [reflexivity|].
  destruct (in_dec addr_eq_dec x (host_addrs c h)) as [_|N]; [unfold is_replica; rewrite R; reflexivity|].
  destruct N. apply host_addrs_servers. auto.
Qed.
Print Assumptions c07_ban_host_covers.

Theorem c07_ban_host_only : forall c h d now bl x, wfc c -> d > 0 -> ~ In x (keys bl) ->
  In x (keys (admin_ban c h d now bl)) -> In x (servers c) /\ a_host x = h /\ a_role x = Replica.
Proof.
  intros c h d now bl x _ _ N I. destruct (admin_ban_new_keys _ _ _ _ _ _ I) as [K|[R K]]; [contradiction|].
  apply host_addrs_servers in K. tauto.
Qed.
Print Assumptions c07_ban_host_only.

(** Question (b): a banned address that passes the gate is health-checked even if its connection
    is fresh, and is re-banned if the check fails. *)
Theorem c07_unbanned_is_health_checked : forall c tc bc outs a bl fresh h,
  is_banned a bl = true -> outs a = Conn fresh h -> h <> HcOk ->
  match visit c tc bc outs a bl with
  | Skip b => b = bl
  | Fail b => exists bl1, gate c (tc a) a bl = Some (true, bl1) /\ b = ban a FailedHealthCheck (bc a) bl1
  | Done _ => False
  end.
Proof.
  intros c tc bc outs a bl fresh h B O NH. unfold visit.
  destruct (gate c (tc a) a bl) as [[f bl1]|] eqn:G; [|reflexivity].
  assert (f = true) as -> by (pose proof (gate_spec _ _ _ _ _ G) as V; inversion V; congruence).
  unfold contact. rewrite O. cbn. destruct h; [congruence| |]; exists bl1; auto.
Qed.
Print Assumptions c07_unbanned_is_health_checked.

(** A replica that breaks while executing a statement is banned with the matching reason; a
    primary is not. *)
Theorem c07_exec_fail_bans : forall c bl a k now g, In a (servers c) -> a_role a = Replica ->
  find_ban a (step c bl (ExecFail a k now g)) = Some (reason_of k, now).
Proof.
  intros c bl a k now g I R. cbn. rewrite (proj2 (in_servers_iff c a) I). apply find_ban_self, R.
Qed.
Print Assumptions c07_exec_fail_bans.

Theorem c07_exec_fail_primary : forall c bl a k now g, a_role a = Primary -> step c bl (ExecFail a k now g) = bl.
Proof.
  intros c bl a k now g R. cbn. rewrite ban_primary by exact R. destruct (in_servers c a); reflexivity.
Qed.
Print Assumptions c07_exec_fail_primary.

(** The ban after a failure at statement time does not depend on the fate of the client that sent
    the statement (still connected, closed, reset): same ban list, in any history. *)
Theorem c07_exec_fail_independent_of_client : forall c bl a k now g1 g2,
  step c bl (ExecFail a k now g1) = step c bl (ExecFail a k now g2).
Proof.
  reflexivity.
Qed.
Print Assumptions c07_exec_fail_independent_of_client.

Theorem c07_run_independent_of_client : forall c ops bl a k now g1 g2 ops',
  run c bl (ops ++ ExecFail a k now g1 :: ops') = run c bl (ops ++ ExecFail a k now g2 :: ops').
Proof.
  intros. unfold run. rewrite !fold_left_app. reflexivity.
Qed.
Print Assumptions c07_run_independent_of_client.

(** An answer is not a failure.  pgcat's own out-of-band Parse + Sync (re-preparing a cached named
    statement on a server connection that lacks it): a server that ANSWERS — ParseComplete, or an
    ErrorResponse that rejects the statement — is never banned by it ... *)
Theorem c07_error_response_never_bans : forall c bl a r now, r <> OobConnFail -> step c bl (OobPrepare a r now) = bl.
Proof.
  intros c bl a r now N. destruct r; try reflexivity. congruence.
Qed.
Print Assumptions c07_error_response_never_bans.

(** ... a replica whose connection fails in that exchange is banned (MessageSendFailed, stamped now);
    a primary is not. *)
Theorem c07_oob_conn_failure_bans : forall c bl a now, In a (servers c) -> a_role a = Replica ->
  find_ban a (step c bl (OobPrepare a OobConnFail now)) = Some (MessageSendFailed, now).
Proof.
  intros c bl a now I R. cbn. rewrite (proj2 (in_servers_iff c a) I). apply find_ban_self, R.
Qed.
Print Assumptions c07_oob_conn_failure_bans.

Theorem c07_oob_conn_failure_primary : forall c bl a now, a_role a = Primary -> step c bl (OobPrepare a OobConnFail now) = bl.
Proof.
  intros c bl a now R. cbn. rewrite ban_primary by exact R. destruct (in_servers c a); reflexivity.
Qed.
Print Assumptions c07_oob_conn_failure_primary.

(** The general rule, over every operation: an address enters the ban list only through a FAILURE of
    that address (failing checkout / health check, failure of the checked-out server at statement
    time or in the out-of-band exchange) or through the admin's BAN of its host — never through an
    operation in which the server answered. *)
Theorem c07_new_ban_needs_failure : forall c bl o x, reachable c bl -> wf_op c o ->
  ~ In x (keys bl) -> In x (keys (step c bl o)) ->
  match o with
  | Get _ _ _ outs _ _ => failing (outs x)
  | ExecFail a _ _ _ => a = x
  | OobPrepare a r _ => a = x /\ r = OobConnFail
  | AdminBan_ h _ _ => a_host x = h
  | AdminUnban _ => False
  end.
Proof.
  intros c bl o x _ _ N I. destruct (step_new_key c bl o x I) as [K|[_ K]]; [contradiction|].
  destruct o; [apply K|apply K|split; apply K|apply host_addrs_servers in K; apply K|destruct K].
Qed.
Print Assumptions c07_new_ban_needs_failure.

(** "Detected within the configured timeouts" (partial: a table, see Model.v): with a non-zero
    statement_timeout every server-facing await of a client task outside the recorded class
    [known_unguarded] runs under connect_timeout, healthcheck_timeout or statement_timeout ... *)
Theorem c07_timeouts_guarded : forall s, known_unguarded s = false -> guard true s <> None.
Proof.
  intros s; destruct s; cbn; intros; congruence.
Qed.
Print Assumptions c07_timeouts_guarded.

(** ... and the recorded class is not empty: sync_parameters (also checkin_cleanup,
    register_prepared_statement, send) waits for the server with no bound at all. *)
Theorem c07_unguarded_refuted : exists s, known_unguarded s = true /\ forall stmt, guard stmt s = None.
Proof.
  exists SSyncParameters. split; [reflexivity|intros; reflexivity].
Qed.
Print Assumptions c07_unguarded_refuted.

(** Every order the tie enumerates is a well-formed one. *)
Theorem c07_tie_orders_wf : forall c req shard order, NoDup (servers c) ->
  In order (perms (candidates c req (effective_sel c shard))) -> wf_order c req shard order.
Proof. exact tie_orders_wf. Qed.
Print Assumptions c07_tie_orders_wf.

(** The health-check flags the tie compares are those of the contacted addresses of [get_loop]. *)
Theorem c07_tie_trace_is_contacted : forall c tc bc outs todo bl,
  map fst (trace_loop c tc bc outs todo bl) = snd (fst (get_loop c tc bc outs todo bl)).
Proof. exact trace_loop_ct. Qed.
Print Assumptions c07_tie_trace_is_contacted.

(** * Examples: non-vacuity and the schedules of the review questions *)

Definition P  := mkAddr 0 0 Primary 10.
Definition R1 := mkAddr 1 0 Replica 11.
Definition R2 := mkAddr 2 0 Replica 12.
Definition R3 := mkAddr 3 0 Replica 13.
Definition C3 := mkCfg [P; R1; R2; R3] 1 60 (DShard 0).   (* primary + 3 replicas *)
Definition C2 := mkCfg [P; R1; R2] 1 60 (DShard 0).
Definition C1 := mkCfg [P; R1] 1 60 (DShard 0).
Definition up : addr -> outcome := fun _ => Conn false HcOk.
Definition down1 (x : addr) : addr -> outcome := fun a => if addr_eq_dec a x then ConnFail else Conn false HcOk.

(** failover: R2 (popped first) refuses, R1 serves, R2 is banned, the client gets a server *)
Example ex_failover :
  get C3 (Some Replica) None [R3; R1; R2] (down1 R2) (fun _ => 100) (fun _ => 100) [] = (Ok R1, [R2; R1], [(R2, (FailedCheckout, 100))]).
Proof. vm_compute. reflexivity. Qed.

(** bypass: while banned and not expired R2 is not contacted, whatever its position *)
Example ex_bypass :
  get C3 (Some Replica) None [R3; R1; R2] up (fun _ => 160) (fun _ => 160) [(R2, (FailedCheckout, 100))] = (Ok R1, [R1], [(R2, (FailedCheckout, 100))]).
Proof. vm_compute. reflexivity. Qed.

(** strict expiry: at exactly ban_time seconds still banned, one second later unbanned and used *)
Example ex_expiry_strict :
  fst (try_unban C3 160 R2 [(R2, (FailedCheckout, 100))]) = false /\
  get C3 (Some Replica) None [R3; R1; R2] up (fun _ => 161) (fun _ => 161) [(R2, (FailedCheckout, 100))] = (Ok R2, [R2], []).
Proof. vm_compute. auto. Qed.

(** admin duration, not ban_time, governs an admin ban *)
Example ex_admin_duration :
  let bl := admin_ban C3 12 5 100 [] in
  bl = [(R2, (AdminBan 5, 100))] /\ fst (try_unban C3 105 R2 bl) = false /\ fst (try_unban C3 106 R2 bl) = true.
Proof. vm_compute. auto. Qed.

(** BAN of the primary's host does nothing *)
Example ex_admin_ban_primary : admin_ban C3 10 5 100 [] = [].
Proof. vm_compute. reflexivity. Qed.

(** a failing primary is not banned; with role = primary the transaction is refused *)
Example ex_primary_down :
  get C3 (Some Primary) None [P] (down1 P) (fun _ => 100) (fun _ => 100) [] = (ErrAllDown, [P], []).
Proof. vm_compute. reflexivity. Qed.

(** all replicas banned => the first one popped resets the shard; it is health-checked (forced),
    the others come back WITHOUT a forced check: here R1's connection is fresh but dead, R2 fails
    its forced check, and R1 is handed to the client although a check would have failed. *)
Example ex_reset_then_unchecked :
  let bl := [(R1, (FailedCheckout, 100)); (R2, (FailedCheckout, 100))] in
  let outs := fun a => if addr_eq_dec a R2 then Conn true HcFail else Conn true HcFail in
  get C2 (Some Replica) None [R1; R2] outs (fun _ => 101) (fun _ => 101) bl = (Ok R1, [R2; R1], [(R2, (FailedHealthCheck, 101))]).
Proof. vm_compute. reflexivity. Qed.

(** with ONE replica a ban is void: the very next checkout that pops it resets the shard, even
    though the primary is another candidate (role = any) and no time has passed *)
Example ex_single_replica_ban_void :
  get C1 None None [P; R1] up (fun _ => 100) (fun _ => 100) [(R1, (FailedCheckout, 100))] = (Ok R1, [R1], []).
Proof. vm_compute. reflexivity. Qed.

(** why [c07_banned_bypassed] speaks of [shard_down] and not of the ban list before the checkout
    alone: R3 is banned and unexpired, R1 and R2 are not banned, yet R3 is contacted — after R2
    and R1 failed in this very checkout. *)
Example ex_bypass_needs_shard_down :
  let outs := fun a => if addr_eq_dec a R3 then Conn false HcOk else ConnFail in
  get C3 (Some Replica) None [R3; R1; R2] outs (fun _ => 101) (fun _ => 101) [(R3, (FailedCheckout, 100))] = (Ok R3, [R2; R1; R3], []).
Proof. vm_compute. reflexivity. Qed.

(** ... and why [c07_failover_silent_banned] has the same escape: R2 and R1 failed here and are
    NOT banned afterwards (the reset triggered by R3 wiped them). *)
Example ex_failed_not_banned_after_reset :
  let outs := fun a => if addr_eq_dec a R3 then Conn false HcOk else ConnFail in
  let '(_, _, bl') := get C3 (Some Replica) None [R3; R1; R2] outs (fun _ => 101) (fun _ => 101) [(R3, (FailedCheckout, 100))] in
  is_banned R1 bl' = false /\ is_banned R2 bl' = false.
Proof. vm_compute. auto. Qed.

(** the two clock readings of one address differ: R2's ban is found expired at second 161 and the
    re-ban after the failed forced health check is stamped 162 *)
Example ex_two_clock_readings :
  get C3 (Some Replica) None [R1; R3; R2] (fun a => if addr_eq_dec a R2 then Conn true HcTimeout else Conn false HcOk)
      (fun _ => 161) (fun _ => 162) [(R2, (FailedCheckout, 100))] = (Ok R3, [R2; R3], [(R2, (FailedHealthCheck, 162))]).
Proof. vm_compute. reflexivity. Qed.

(** refusal: every replica down and role = replica *)
Example ex_all_down :
  get C2 (Some Replica) None [R1; R2] (fun _ => ConnFail) (fun _ => 100) (fun _ => 100) [] =
    (ErrAllDown, [R2; R1], [(R1, (FailedCheckout, 100)); (R2, (FailedCheckout, 100))]).
Proof. vm_compute. reflexivity. Qed.

(** role = any falls back to the primary when both replicas are down *)
Example ex_any_falls_back_to_primary :
  get C2 None None [P; R1; R2] (fun a => if addr_eq_dec a P then Conn false HcOk else ConnFail) (fun _ => 100) (fun _ => 100) [] =
    (Ok P, [R2; R1; P], [(R1, (FailedCheckout, 100)); (R2, (FailedCheckout, 100))]).
Proof. vm_compute. reflexivity. Qed.

(** a statement failure on a replica bans it, re-banning refreshes reason and time *)
Example ex_exec_fail :
  run C3 [] [ExecFail R1 KRecv 100 false; ExecFail R1 KStmtTimeout 130 true] = [(R1, (StatementTimeout, 130))].
Proof. vm_compute. reflexivity. Qed.

(** out-of-band re-prepare: rejected statement => nothing; dead connection => ban *)
Example ex_oob :
  run C3 [] [OobPrepare R1 OobServerError 100; OobPrepare R2 OobOk 100] = [] /\
  run C3 [] [OobPrepare R1 OobServerError 100; OobPrepare R2 OobConnFail 101] = [(R2, (MessageSendFailed, 101))].
Proof. vm_compute. auto. Qed.

(** three servers of two shards on one host (different ports): BAN reaches all replicas among them *)
Example ex_shared_host :
  let A := mkAddr 1 0 Replica 20 in let B := mkAddr 2 0 Replica 20 in let D := mkAddr 4 1 Replica 20 in let Q := mkAddr 3 1 Primary 20 in
  let c := mkCfg [P; A; B; Q; D] 2 60 (DShard 0) in
  keys (admin_ban c 20 5 100 []) = [D; B; A] /\ admin_unban c 20 (admin_ban c 20 5 100 []) = [].
Proof. vm_compute. auto. Qed.

(** UNBAN *)
Example ex_unban : admin_unban C3 12 [(R1, (FailedCheckout, 1)); (R2, (AdminBan 5, 1))] = [(R1, (FailedCheckout, 1))].
Proof. vm_compute. reflexivity. Qed.

(** the enumeration of the tie: 3 replicas, R2 down, all 6 orders => 4 distinct observations *)
Example ex_tie_get :
  length (tie_get C3 [] (Some Replica) None [(R1, [Conn false HcOk]); (R2, [ConnFail]); (R3, [Conn false HcOk])] [100]) = 4%nat.
Proof. vm_compute. reflexivity. Qed.

(** the hypotheses of the theorems are satisfiable: a reachable non-empty state *)
Example ex_reachable : reachable C3 [(R2, (FailedCheckout, 100))].
Proof.
  exists [Get (Some Replica) None [R3; R1; R2] (down1 R2) (fun _ => 100) (fun _ => 100)]. split; [|vm_compute; reflexivity].
  constructor; [|constructor]. cbn. split.
  - repeat constructor; cbn; intuition discriminate.
  - intros a. vm_compute. tauto.
Qed.
