(** C15 — the property theorems, each derived in a few lines from the general lemmas of Proofs.v
    (a rejection is the contrapositive of the inversion lemma of its validator) and audited with
    [Print Assumptions]; Examples give non-vacuity and keep the old defect witnesses rejected. *)
From Coq Require Import ZArith List Bool Lia Permutation.
From PV Require Import Config.Model Config.Spec Config.Proofs Config.Defaults Gen.ConfigDefaults.
Import ListNotations.
Open Scope Z_scope.

Definition h1 : str := [49; 50; 55; 46; 48; 46; 48; 46; 49].           (* "127.0.0.1" *)
Definition sv (port : Z) (r : role) : server := {| sv_host := h1; sv_port := port; sv_role := r |}.
Definition usr (name : str) (size : Z) : user :=
  {| u_name := name; u_password := true; u_pool_size := size; u_min_pool_size := None;
     u_connect_timeout := None; u_idle_timeout := None; u_server_lifetime := None;
     u_pool_mode := None; u_statement_timeout := 0;
     u_auth_type := AuthMD5; u_server_username := false; u_server_password := false |}.
Definition mkpool (shs : list (str * shard)) (us : list (str * user)) (ds : dshard) (dr : str) : pool :=
  {| p_name := [100; 98]; p_default_role := dr; p_default_shard := ds;
     p_parser := false; p_rw_split := false; p_plugins := None; p_pool_mode := Transaction; p_auto_key := None;
     p_key_regex := None; p_shard_regex := None;
     p_auth_query := false; p_auth_user := false; p_auth_password := false;
     p_connect_timeout := None; p_idle_timeout := None; p_server_lifetime := None;
     p_activity := false; p_act_delay := 100; p_act_ttl := 900; p_mut_ttl := 50;
     p_shards := shs; p_users := us |}.
Definition mkcfg (ps : list pool) : config :=
  {| g_auth_query := false; g_auth_user := false; g_auth_password := false;
     g_connect_timeout := 1000; g_idle_timeout := 600000; g_server_lifetime := 3600000;
     g_tls_cert := None; g_tls_key := None; g_plugins := None; c_pools := ps |}.
Definition shd (svs : list server) : shard := {| sh_servers := svs; sh_mirrors := [] |}.

(** Every configuration that [config::parse] accepts is built by [from_config] without a
    panic; every configured (pool, user) gets a pool; and every built pool is servable:
    all positional and address-keyed index operations are in bounds and hit the right
    entry, the candidates for shard number sh are exactly the servers written under the key
    denoting sh, out-of-range numbers are refused, the default shard exists, and the
    sharder's modulus is the (non-zero) number of shards. *)
Theorem c15_accepted_servable : forall c, accept c = true -> small c -> typed c ->
  exists pools, build c = Built pools /\
    (forall bp, In bp pools -> good c bp) /\
    (forall p ku, In p (c_pools c) -> In ku (p_users p) ->
       exists bp, In bp pools /\ bp_db bp = p_name p /\ bp_user bp = u_name (snd ku)).
Proof. exact accepted_servable. Qed.
Print Assumptions c15_accepted_servable.

(** The settings of every built pool follow the code's precedence: pool_mode user over pool,
    plugins pool table over the global one, bb8 timeouts user over pool over [general] (all
    non-zero), sizes / statement_timeout the user's own. *)
Theorem c15_built_settings : forall c pools, accept c = true -> small c -> typed c -> build c = Built pools ->
  forall bp, In bp pools ->
  exists p ku, In p (c_pools c) /\ In ku (p_users p) /\ bp_db bp = p_name p /\ bp_user bp = u_name (snd ku) /\
               settings_ok c p (snd ku) bp.
Proof.
  intros c pools A S T B bp Hbp.
  destruct (built_good c pools A S T B bp Hbp) as [p [ku [H1 [H2 [H3 [H4 [_ [H6 _]]]]]]]].
  exists p, ku. exact (conj H1 (conj H2 (conj H3 (conj H4 H6)))).
Qed.
Print Assumptions c15_built_settings.

(** Whatever auth_type says about the client side, every built pool has a secret to present to
    a server that asks for one: server_password, the user's password, or a fully configured
    auth_query (own or inherited from [general]). *)
Theorem c15_built_has_credentials : forall c pools, accept c = true -> small c -> typed c -> build c = Built pools ->
  forall bp, In bp pools -> exists p, In p (c_pools c) /\ bp_db bp = p_name p /\ has_secret (fill_pool c p) (bp_user_cfg bp) = true.
Proof.
  intros c pools A S T B bp Hbp.
  destruct (built_good c pools A S T B bp Hbp) as [p [ku [H1 [_ [H3 [_ [_ [_ H7]]]]]]]].
  exists p. exact (conj H1 (conj H3 H7)).
Qed.
Print Assumptions c15_built_has_credentials.

Theorem c15_rejects_trust_without_secret : forall c p ku, In p (c_pools c) -> In ku (p_users p) ->
  u_auth_type (snd ku) = AuthTrust -> u_password (snd ku) = false ->
  is_auth_query_configured (fill_pool c p) = false -> accept c = false.
Proof. intros c p ku Hp Hku _. exact (reject_no_secret c p ku Hp Hku). Qed.
Print Assumptions c15_rejects_trust_without_secret.

(** tls_certificate / tls_private_key only add their own conditions: with a loadable pair (or
    without a certificate) the verdict is the verdict of the same file without them — in
    particular every pool / shard / user check still runs. *)
Theorem c15_tls_verdict : forall c, accept c = tls_ok c && accept (without_tls c).
Proof. exact accept_tls. Qed.
Print Assumptions c15_tls_verdict.

Theorem c15_tls_pair_independent : forall c, g_tls_cert c = Some LoadSome -> g_tls_key c = Some LoadSome ->
  accept c = accept (without_tls c).
Proof. intros c H1 H2. rewrite accept_tls. unfold tls_ok. rewrite H1, H2. reflexivity. Qed.
Print Assumptions c15_tls_pair_independent.

Theorem c15_tls_key_alone_independent : forall c, g_tls_cert c = None -> accept c = accept (without_tls c).
Proof. intros c H1. rewrite accept_tls. unfold tls_ok. rewrite H1. reflexivity. Qed.
Print Assumptions c15_tls_key_alone_independent.

Theorem c15_rejects_tls : forall c v,
  (g_tls_cert c = Some v /\ v <> LoadSome) \/
  (g_tls_cert c = Some LoadSome /\ g_tls_key c <> Some LoadSome) -> accept c = false.
Proof.
  intros c v H. rewrite accept_tls. unfold tls_ok.
  destruct H as [[H N]|[H K]]; rewrite H.
  - destruct v; try reflexivity. congruence.
  - destruct (g_tls_key c) as [[| |]|]; try reflexivity. congruence.
Qed.
Print Assumptions c15_rejects_tls.

(** Accepted shard keys denote 0 .. n-1 bijectively (whatever their spelling). *)
Theorem c15_key_parse : forall p, pool_validate p = true ->
  exists vs, map (fun ks => parse_usize (fst ks)) (p_shards p) = map Some vs /\
             Permutation vs (seqZ (length (p_shards p))) /\ NoDup vs /\
             (forall v, In v vs <-> 0 <= v < Z.of_nat (length (p_shards p))) /\
             Forall (fun ks => shard_validate (snd ks) = true) (p_shards p).
Proof. exact key_parse. Qed.
Print Assumptions c15_key_parse.

(** validate reads a key as usize, from_config sorts it as i64 and stores it as usize:
    the three readings agree on every key validate lets through. *)
Theorem c15_key_usize_i64_agree : forall s v, parse_usize s = Some v -> v <= i64_max -> parse_i64 s = Some v.
Proof. exact parse_agree. Qed.
Print Assumptions c15_key_usize_i64_agree.

Theorem c15_key_leading_zero : forall c r, c <> 43 -> parse_usize (48 :: c :: r) = parse_usize (c :: r).
Proof.
  (* once [strip_plus] has looked at [c], both sides run [digits_val 0] on the same string *)
  intros c r H. unfold parse_usize, strip_plus. rewrite (proj2 (Z.eqb_neq c 43) H). reflexivity. Qed.
Print Assumptions c15_key_leading_zero.

Theorem c15_key_plus : forall c r, c <> 43 -> parse_usize (43 :: c :: r) = parse_usize (c :: r).
Proof. intros c r H. unfold parse_usize, strip_plus. rewrite (proj2 (Z.eqb_neq c 43) H). reflexivity. Qed.
Print Assumptions c15_key_plus.

Theorem c15_key_minus : forall r, parse_usize (45 :: r) = None.
Proof. reflexivity. (* ['-'] is neither ['+'] nor a digit *) Qed.
Print Assumptions c15_key_minus.

(** One rejection theorem per defect class. *)
Theorem c15_rejects_invalid_pool : forall c p, In p (c_pools c) -> pool_validate p = false -> accept c = false.
Proof.
  intros c p Hin H. apply (rejected _ _ (accept_inv c)). intros [_ [_ [_ P]]].
  destruct (P p Hin) as [_ V]. congruence.
Qed.
Print Assumptions c15_rejects_invalid_pool.

Theorem c15_rejects_non_numeric_key : forall p k sh, In (k, sh) (p_shards p) -> parse_usize k = None -> pool_validate p = false.
Proof.
  intros p k sh Hin P. apply (rejected _ _ (valid_key p k sh Hin)). intros [v [P' _]]. congruence.
Qed.
Print Assumptions c15_rejects_non_numeric_key.

Theorem c15_rejects_gap_or_high_key : forall p k sh v, In (k, sh) (p_shards p) -> parse_usize k = Some v ->
  Z.of_nat (length (p_shards p)) <= v -> pool_validate p = false.
Proof.
  intros p k sh v Hin P Hv. apply (rejected _ _ (valid_key p k sh Hin)). intros [w [P' [R _]]].
  rewrite P in P'. injection P' as <-. lia.
Qed.
Print Assumptions c15_rejects_gap_or_high_key.

Theorem c15_rejects_duplicate_number : forall p l1 l2 l3 k1 s1 k2 s2,
  p_shards p = l1 ++ (k1, s1) :: l2 ++ (k2, s2) :: l3 -> parse_usize k1 = parse_usize k2 -> pool_validate p = false.
Proof.
  intros p l1 l2 l3 k1 s1 k2 s2 E P. apply (rejected _ _ (valid_keys_NoDup p)). rewrite E.
  intro ND. exact (NoDup_map_two _ _ _ _ _ _ _ _ ND P).
Qed.
Print Assumptions c15_rejects_duplicate_number.

Theorem c15_rejects_not_from_zero : forall p,
  (forall k sh, In (k, sh) (p_shards p) -> parse_usize k <> Some 0) -> pool_validate p = false.
Proof.
  intros p H. apply not_true_is_false. intro V.
  destruct (key_parse p V) as [vs [M [_ [_ [R _]]]]].
  pose proof (pv_nonempty _ (pool_validate_inv p V)) as NE.
  assert (X : In (Some 0) (map (fun ks => parse_usize (fst ks)) (p_shards p))).
  { rewrite M. apply in_map, R. lia. }
  apply in_map_iff in X. destruct X as [[k sh] [E Hin]]. exact (H k sh Hin E).
Qed.
Print Assumptions c15_rejects_not_from_zero.

Theorem c15_rejects_no_shards : forall p, p_shards p = [] -> pool_validate p = false.
Proof.
  intros p E. apply (rejected _ _ (pool_validate_inv p)). intro PV.
  pose proof (pv_nonempty _ PV) as NE. rewrite E in NE. inversion NE.
Qed.
Print Assumptions c15_rejects_no_shards.

Theorem c15_rejects_default_shard : forall p d, p_default_shard p = DShard d ->
  Z.of_nat (length (p_shards p)) <= d -> pool_validate p = false.
Proof.
  intros p d E H. apply (rejected _ _ (pool_validate_inv p)). intro PV.
  pose proof (pv_default_shard _ PV) as D. rewrite E in D. lia.
Qed.
Print Assumptions c15_rejects_default_shard.

Theorem c15_rejects_default_role : forall p, role_setting_ok (p_default_role p) = false -> pool_validate p = false.
Proof. intros p H. unfold pool_validate. rewrite H. reflexivity. Qed.
Print Assumptions c15_rejects_default_role.

Theorem c15_rejects_bad_shard : forall p k sh, In (k, sh) (p_shards p) -> shard_validate sh = false -> pool_validate p = false.
Proof.
  intros p k sh Hin B. apply (rejected _ _ (valid_key p k sh Hin)). intros [_ [_ [_ S]]]. congruence.
Qed.
Print Assumptions c15_rejects_bad_shard.

Theorem c15_shard_no_servers : forall sh, sh_servers sh = [] -> shard_validate sh = false.
Proof. intros sh E. unfold shard_validate. rewrite E. reflexivity. Qed.
Print Assumptions c15_shard_no_servers.

Theorem c15_shard_two_primaries : forall sh l1 a l2 b l3, sh_servers sh = l1 ++ a :: l2 ++ b :: l3 ->
  sv_role a = Primary -> sv_role b = Primary -> shard_validate sh = false.
Proof.
  intros sh l1 a l2 b l3 E Ra Rb. apply (rejected _ _ (shard_validate_inv sh)). intros [_ [_ [C _]]].
  rewrite E in C. pose proof (count_primary_two l1 a l2 b l3 Ra Rb). lia.
Qed.
Print Assumptions c15_shard_two_primaries.

Theorem c15_shard_duplicate_server : forall sh l1 s l2 s' l3, sh_servers sh = l1 ++ s :: l2 ++ s' :: l3 ->
  server_eqb s s' = true -> shard_validate sh = false.
Proof.
  intros sh l1 s l2 s' l3 E D. apply (rejected _ _ (shard_validate_inv sh)). intros [_ [_ [_ [L _]]]].
  rewrite E in L. pose proof (distinct_lt l1 s l2 s' l3 D). lia.
Qed.
Print Assumptions c15_shard_duplicate_server.

Theorem c15_shard_mirror_out_of_range : forall sh m, In m (sh_mirrors sh) ->
  Z.of_nat (length (sh_servers sh)) <= mi_target m -> shard_validate sh = false.
Proof.
  intros sh m Hin H. apply (rejected _ _ (shard_validate_inv sh)). intros [_ [_ [_ [_ M]]]].
  specialize (M m Hin). lia.
Qed.
Print Assumptions c15_shard_mirror_out_of_range.

Theorem c15_shard_mirror_role : forall sh s, In s (sh_servers sh) -> sv_role s = Mirror -> shard_validate sh = false.
Proof.
  intros sh s Hin R. apply (rejected _ _ (shard_validate_inv sh)). intros [_ [M _]].
  apply (existsb_false _ _ _ s) in M; [|exact Hin]. cbn beta in M. rewrite R in M. discriminate.
Qed.
Print Assumptions c15_shard_mirror_role.

Theorem c15_rejects_bad_user : forall p ku, In ku (p_users p) -> user_validate (snd ku) = false -> pool_validate p = false.
Proof.
  intros p ku Hin B. apply (rejected _ _ (pool_validate_inv p)). intro PV.
  pose proof (pv_users _ PV ku Hin). congruence.
Qed.
Print Assumptions c15_rejects_bad_user.

Theorem c15_user_zero_pool_size : forall u, u_pool_size u = 0 -> user_validate u = false.
Proof. intros u E. unfold user_validate. rewrite E. reflexivity. Qed.
Print Assumptions c15_user_zero_pool_size.

Theorem c15_user_min_above_size : forall u m, u_min_pool_size u = Some m -> u_pool_size u < m -> user_validate u = false.
Proof.
  intros u m E H. apply (rejected _ _ (user_validate_facts u)). intros [_ [_ [_ [_ M]]]].
  rewrite E in M. apply Z.ltb_ge in M. lia.
Qed.
Print Assumptions c15_user_min_above_size.

Theorem c15_user_zero_timeout : forall u,
  u_connect_timeout u = Some 0 \/ u_idle_timeout u = Some 0 \/ u_server_lifetime u = Some 0 -> user_validate u = false.
Proof.
  intros u H. apply (rejected _ _ (user_validate_facts u)). intros [_ [T1 [T2 [T3 _]]]].
  destruct H as [H|[H|H]]; rewrite H in *; discriminate.
Qed.
Print Assumptions c15_user_zero_timeout.

Theorem c15_rejects_pool_settings : forall p,
  regex_bad (p_shard_regex p) = true \/ regex_bad (p_key_regex p) = true \/
  (p_rw_split p = true /\ p_parser p = false) \/ (has_plugins p = true /\ p_parser p = false) \/
  auto_key_ok (p_auto_key p) = false \/
  p_connect_timeout p = Some 0 \/ p_idle_timeout p = Some 0 \/ p_server_lifetime p = Some 0 ->
  pool_validate p = false.
Proof.
  intros p H. apply (rejected _ _ (pool_validate_inv p)).
  intros [_ _ _ [R1 R2] RW PL AK [T1 [T2 T3]] _ _ _].
  destruct H as [H|[H|[[H H']|[[H H']|[H|[H|[H|H]]]]]]]; try congruence;
    [rewrite H, H' in RW|rewrite H, H' in PL|rewrite H in T1|rewrite H in T2|rewrite H in T3]; discriminate.
Qed.
Print Assumptions c15_rejects_pool_settings.

Theorem c15_rejects_missing_password : forall c p ku, In p (c_pools c) -> In ku (p_users p) ->
  u_password (snd ku) = false ->
  (p_auth_query p || g_auth_query c) && (p_auth_user p || g_auth_user c) && (p_auth_password p || g_auth_password c) = false ->
  accept c = false.
Proof. exact reject_no_secret. Qed.
Print Assumptions c15_rejects_missing_password.

Theorem c15_rejects_general_zero_timeout : forall c,
  g_connect_timeout c = 0 \/ g_idle_timeout c = 0 \/ g_server_lifetime c = 0 -> accept c = false.
Proof.
  intros c H. apply (rejected _ _ (accept_inv c)). intros [_ [[G1 [G2 G3]] _]].
  destruct H as [H|[H|H]]; rewrite H in *; discriminate.
Qed.
Print Assumptions c15_rejects_general_zero_timeout.

Theorem c15_rejects_auth_query_incomplete : forall c, g_auth_query c = true ->
  g_auth_user c = false \/ g_auth_password c = false -> accept c = false.
Proof.
  intros c Q H. apply (rejected _ _ (accept_inv c)). intros [X _]. rewrite Q in X.
  destruct H as [H|H]; rewrite H in X; [|rewrite orb_true_r in X]; discriminate.
Qed.
Print Assumptions c15_rejects_auth_query_incomplete.

Theorem c15_default_shard_typed : forall s d, deser_default_shard s = Some (DShard d) -> 0 <= d.
Proof.
  unfold deser_default_shard. intros s d H.
  destruct (strip_prefix s_shard_ s) as [r|].
  - destruct (parse_usize r) as [n|] eqn:P; [|discriminate]. injection H as <-.
    exact (proj1 (parse_usize_range r n P)).
  - destruct (str_eqb s s_random); [discriminate|]. destruct (str_eqb s s_random_healthy); discriminate.
Qed.
Print Assumptions c15_default_shard_typed.

(** Defaults.  The parsed value of a defaulted option is the file's value when the file sets it
    and the table's value when it omits it — independently of every other option; and the table
    src/config.rs implements today (value of the function each serde attribute names,
    regenerated by translate/cfg_defaults.py) is the pinned, documented one. *)
Theorem c15_default_when_omitted : forall file defaults k d, lookup k defaults = Some d -> lookup k file = None ->
  lookup k (overlay file defaults) = Some d.
Proof. intros file defaults k d H H0. rewrite (lookup_overlay _ _ _ _ H), H0. reflexivity. Qed.
Print Assumptions c15_default_when_omitted.

Theorem c15_file_value_when_set : forall file defaults k d v, lookup k defaults = Some d -> lookup k file = Some v ->
  lookup k (overlay file defaults) = Some v.
Proof. intros file defaults k d v H H0. rewrite (lookup_overlay _ _ _ _ H), H0. reflexivity. Qed.
Print Assumptions c15_file_value_when_set.

Theorem c15_defaults_table : gen_defaults = pinned_defaults.
Proof. vm_compute. reflexivity. Qed.
Print Assumptions c15_defaults_table.

(* the three [general] timeouts the model of from_config falls back to are the table's *)
Example model_timeout_defaults :
  lookup [103;101;110;101;114;97;108;46;99;111;110;110;101;99;116;95;116;105;109;101;111;117;116] pinned_defaults = Some (DInt default_connect_timeout) /\
  lookup [103;101;110;101;114;97;108;46;105;100;108;101;95;116;105;109;101;111;117;116] pinned_defaults = Some (DInt default_idle_timeout) /\
  lookup [103;101;110;101;114;97;108;46;115;101;114;118;101;114;95;108;105;102;101;116;105;109;101] pinned_defaults = Some (DInt default_server_lifetime) /\
  lookup [103;101;110;101;114;97;108;46;115;104;117;116;100;111;119;110;95;116;105;109;101;111;117;116] pinned_defaults = Some (DInt 60000).
Proof. vm_compute. repeat split; reflexivity. Qed.

(* three shards written as "+1", "0", "02" (BTreeMap order), two users *)
Definition ex3 : config :=
  mkcfg [mkpool [([43; 49], shd [sv 3 Primary; sv 4 Replica; sv 5 Replica]);
                 ([48], shd [sv 1 Primary; sv 2 Replica]);
                 ([48; 50], {| sh_servers := [sv 6 Replica];
                               sh_mirrors := [{| mi_host := h1; mi_port := 9; mi_target := 0 |};
                                              {| mi_host := h1; mi_port := 10; mi_target := 0 |}] |})]
                [([48], usr [117] 5); ([49], usr [118] 1)] (DShard 2) s_any].

Example ex3_accepted : accept ex3 = true /\ small ex3 /\ typed ex3.
Proof.
  split; [vm_compute; reflexivity|]. split; repeat constructor; vm_compute; congruence.
Qed.

(* evaluate [build] once and read the two pools off the result *)
Lemma built_two : forall (P : built -> built -> Prop) o,
  match o with Built [b1; b2] => P b1 b2 | _ => False end -> exists b1 b2, o = Built [b1; b2] /\ P b1 b2.
Proof. intros P [[|b1 [|b2 [|]]]|] H; try contradiction. exists b1, b2. split; [reflexivity|exact H]. Qed.

Example ex3_addressing :
  exists b1 b2, build ex3 = Built [b1; b2] /\ indices_ok b1 = true /\ shards b1 = 3%nat /\
    map server_of (candidates b1 0 None) = [sv 1 Primary; sv 2 Replica] /\
    map server_of (candidates b1 1 (Some Replica)) = [sv 4 Replica; sv 5 Replica] /\
    map server_of (candidates b1 2 None) = [sv 6 Replica] /\
    get_candidates b1 None (Some Primary) = Some [] /\
    get_candidates b1 (Some 3) None = None /\
    map (fun a => length (a_mirrors a)) (all_addresses b1) = [0; 0; 0; 0; 0; 2]%nat.
Proof. apply built_two. vm_compute. repeat split; reflexivity. Qed.

(* the witnesses of the repaired defects must stay rejected *)
Definition one (k : str) (port : Z) := (k, shd [sv port Primary]).
Example regress_keys_1_3 : accept (mkcfg [mkpool [one [49] 1; one [51] 2] [([48], usr [117] 5)] (DShard 0) s_any]) = false.
Proof. vm_compute. reflexivity. Qed.
Example regress_key_1_only : accept (mkcfg [mkpool [one [49] 1] [([48], usr [117] 5)] (DShard 0) s_any]) = false.
Proof. vm_compute. reflexivity. Qed.
Example regress_keys_0_00 : accept (mkcfg [mkpool [one [48] 1; one [48; 48] 2] [([48], usr [117] 5)] (DShard 0) s_any]) = false.
Proof. vm_compute. reflexivity. Qed.
Example regress_no_shards_random : accept (mkcfg [mkpool [] [([48], usr [117] 5)] DRandom s_any]) = false.
Proof. vm_compute. reflexivity. Qed.
Example regress_pool_size_zero : accept (mkcfg [mkpool [one [48] 1] [([48], usr [117] 0)] (DShard 0) s_any]) = false.
Proof. vm_compute. reflexivity. Qed.
Example regress_connect_timeout_zero :
  accept {| g_auth_query := false; g_auth_user := false; g_auth_password := false;
            g_connect_timeout := 0; g_idle_timeout := 600000; g_server_lifetime := 3600000;
            g_tls_cert := None; g_tls_key := None; g_plugins := None;
            c_pools := [mkpool [one [48] 1] [([48], usr [117] 5)] (DShard 0) s_any] |} = false.
Proof. vm_compute. reflexivity. Qed.
Example regress_mirror_role_server :
  accept (mkcfg [mkpool [([48], shd [sv 1 Mirror])] [([48], usr [117] 5)] (DShard 0) s_any]) = false.
Proof. vm_compute. reflexivity. Qed.
Example regress_mirror_target_out_of_range :
  accept (mkcfg [mkpool [([48], {| sh_servers := [sv 1 Primary];
                                   sh_mirrors := [{| mi_host := h1; mi_port := 2; mi_target := 7 |}] |})]
                        [([48], usr [117] 5)] (DShard 0) s_any]) = false.
Proof. vm_compute. reflexivity. Qed.
(* auth_query_user + auth_query_password without auth_query (panicked in from_config before
   the repair of Pool::is_auth_query_configured): accepted, and built *)
Definition auth_user_password_only : config :=
  mkcfg [let p := mkpool [([48], shd [sv 1 Primary])] [([48], usr [117] 5)] (DShard 0) s_any in
     {| p_name := p_name p; p_default_role := p_default_role p; p_default_shard := p_default_shard p;
        p_parser := false; p_rw_split := false; p_plugins := None; p_pool_mode := Transaction; p_auto_key := None;
        p_key_regex := None; p_shard_regex := None;
        p_auth_query := false; p_auth_user := true; p_auth_password := true;
        p_connect_timeout := None; p_idle_timeout := None; p_server_lifetime := None;
        p_activity := false; p_act_delay := 100; p_act_ttl := 900; p_mut_ttl := 50;
        p_shards := p_shards p; p_users := p_users p |}].
Example regress_auth_user_password_only :
  accept auth_user_password_only = true /\
  exists bp, build auth_user_password_only = Built [bp] /\ indices_ok bp = true.
Proof. split; [vm_compute; reflexivity|]. eexists. vm_compute. split; reflexivity. Qed.
(* had validation let them through, from_config would have panicked (the model keeps the
   panics of the bb8 builder): *)
Example pool_size_zero_would_panic :
  build_pool_user (mkcfg []) (mkpool [one [48] 1] [] (DShard 0) s_any) (usr [117] 0) = Panics PanicMaxSize.
Proof. vm_compute. reflexivity. Qed.
Example keys_1_3_would_misindex :
  match build_pool_user (mkcfg []) (mkpool [one [49] 1; one [51] 2] [] (DShard 0) s_any) (usr [117] 5) with
  | Built bp => indices_ok bp = false /\ candidates bp 0 None = []
  | Panics _ => False
  end.
Proof. vm_compute. split; reflexivity. Qed.

(* settings precedence, non-vacuity: global and pool-level [plugins], user-level pool_mode and timeouts *)
Definition gplug : plug := {| pl_table_access := Some (true, [[103]]); pl_query_logger := Some true |}.
Definition pplug : plug := {| pl_table_access := Some (false, [[112]]); pl_query_logger := None |}.
Definition ex_settings : config :=
  let p := mkpool [([48], shd [sv 1 Primary])] [] (DShard 0) s_any in
  let u1 := usr [117] 5 in
  let u2 := {| u_name := [118]; u_password := true; u_pool_size := 7; u_min_pool_size := Some 2;
               u_connect_timeout := Some 20; u_idle_timeout := None; u_server_lifetime := Some 9;
               u_pool_mode := Some Session; u_statement_timeout := 77;
               u_auth_type := AuthTrust; u_server_username := true; u_server_password := true |} in
  {| g_auth_query := false; g_auth_user := false; g_auth_password := false;
     g_connect_timeout := 1000; g_idle_timeout := 600000; g_server_lifetime := 3600000;
     g_tls_cert := Some LoadSome; g_tls_key := Some LoadSome; g_plugins := Some gplug;
     c_pools := [ {| p_name := [97]; p_default_role := s_any; p_default_shard := DShard 0; p_parser := true; p_rw_split := false;
                     p_plugins := Some pplug; p_pool_mode := Transaction; p_auto_key := Some [34; 116; 34; 46; 105; 100];
                     p_key_regex := None; p_shard_regex := None; p_auth_query := false; p_auth_user := false; p_auth_password := false;
                     p_connect_timeout := Some 300; p_idle_timeout := Some 400; p_server_lifetime := None;
                     p_activity := false; p_act_delay := 100; p_act_ttl := 900; p_mut_ttl := 50;
                     p_shards := p_shards p; p_users := [([48], u1); ([49], u2)] |};
                  mkpool [([48], shd [sv 2 Primary])] [([48], usr [117] 5)] (DShard 0) s_any ] |}.
Example ex_settings_built :
  accept ex_settings = true /\
  match build ex_settings with
  | Built [a1; a2; b1] =>
      map settings_t [a1; a2; b1] =
      [ (Transaction, Some (plug_t pplug), user_t (usr [117] 5), (Some [116; 46; 105; 100], true, false), Some (5, None, (300, 400, 3600000)));
        (Session, Some (plug_t pplug), ([118], 7, Some 2, (Some Session, 77), (Some 20, None, Some 9), (AuthTrust, true, true, true)), (Some [116; 46; 105; 100], true, false), Some (7, Some 2, (20, 400, 9)));
        (Transaction, Some (plug_t gplug), user_t (usr [117] 5), (None, false, false), Some (5, None, (1000, 600000, 3600000))) ]
  | _ => False
  end.
Proof. split; vm_compute; reflexivity. Qed.
(* with a loadable TLS pair the shard numbering is still checked (the seeded early return) *)
Example regress_tls_does_not_skip_pools :
  accept {| g_auth_query := false; g_auth_user := false; g_auth_password := false;
            g_connect_timeout := 1000; g_idle_timeout := 600000; g_server_lifetime := 3600000;
            g_tls_cert := Some LoadSome; g_tls_key := Some LoadSome; g_plugins := None;
            c_pools := [mkpool [one [49] 1; one [50] 2] [([48], usr [117] 5)] (DShard 0) s_any] |} = false.
Proof. vm_compute. reflexivity. Qed.

(* a certificate / key file without the expected PEM item (e.g. the pair swapped) is rejected *)
Example regress_tls_empty_files :
  let c ce ke := {| g_auth_query := false; g_auth_user := false; g_auth_password := false;
                    g_connect_timeout := 1000; g_idle_timeout := 600000; g_server_lifetime := 3600000;
                    g_tls_cert := Some ce; g_tls_key := Some ke; g_plugins := None;
                    c_pools := [mkpool [one [48] 1] [([48], usr [117] 5)] (DShard 0) s_any] |} in
  accept (c LoadSome LoadSome) = true /\ accept (c LoadEmpty LoadEmpty) = false /\
  accept (c LoadSome LoadEmpty) = false /\ accept (c LoadEmpty LoadSome) = false /\ accept (c LoadSome LoadErr) = false.
Proof. vm_compute. repeat split; reflexivity. Qed.

Example regress_trust_user_without_password :
  accept (mkcfg [mkpool [one [48] 1]
                        [([48], {| u_name := [117]; u_password := false; u_pool_size := 5; u_min_pool_size := None;
                                   u_connect_timeout := None; u_idle_timeout := None; u_server_lifetime := None;
                                   u_pool_mode := None; u_statement_timeout := 0;
                                   u_auth_type := AuthTrust; u_server_username := false; u_server_password := false |})]
                        (DShard 0) s_any]) = false.
Proof. vm_compute. reflexivity. Qed.

Example spellings :
  parse_usize [48; 48] = Some 0 /\ parse_usize [43; 49] = Some 1 /\ parse_usize [48; 49] = Some 1 /\
  parse_usize [45; 48] = None /\ parse_usize [] = None /\ parse_usize [43] = None /\
  parse_usize [32; 49] = None /\ parse_usize [49; 97] = None /\ parse_usize [43; 43; 49] = None /\
  parse_usize [49; 56; 52; 52; 54; 55; 52; 52; 48; 55; 51; 55; 48; 57; 53; 53; 49; 54; 49; 53] = Some usize_max /\
  parse_usize [49; 56; 52; 52; 54; 55; 52; 52; 48; 55; 51; 55; 48; 57; 53; 53; 49; 54; 49; 54] = None /\
  parse_i64 [45; 48] = Some 0 /\ parse_i64 [45; 53] = Some (-5) /\
  deser_default_shard (s_shard_ ++ [43; 48]) = Some (DShard 0) /\
  deser_default_shard s_random_healthy = Some DRandomHealthy /\ deser_default_shard [102] = None.
Proof. vm_compute. repeat split; reflexivity. Qed.
