(** C15 — lemmas about the model in Model.v.

    Each validator has one inversion lemma listing, in code order, what a [true] verdict
    guarantees ([user_validate_facts], [shard_validate_inv], [pool_validate_inv], [accept_inv]);
    the rejection theorems of Props.v are their contrapositives.  The second half follows [from_config]:
    the addressing operations are shown to agree on any built pool numbered by position ([indexed]);
    the pool built for one (pool, user) is written out ([explicit]), is numbered so and hence
    servable; [build_users] / [build_pools] insert exactly those pools, in order. *)
From Coq Require Import ZArith List Bool Lia Permutation.
From PV Require Import Config.Model Config.Spec Config.Defaults.
Import ListNotations.
Open Scope Z_scope.

(* one step of a validator: [if defect then false else rest] *)
Lemma if_false_inv : forall b x : bool, (if b then false else x) = true -> b = false /\ x = true.
Proof. intros [] x H; [discriminate|split; [reflexivity|exact H]]. Qed.

Lemma if_some_inv : forall A (b : bool) (x : A) y, (if b then Some x else y) = None -> b = false /\ y = None.
Proof. intros A [] x y H; [discriminate|split; [reflexivity|exact H]]. Qed.

Lemma rejected : forall (b : bool) (P : Prop), (b = true -> P) -> ~ P -> b = false.
Proof. intros b P H N. apply not_true_is_false. intro V. exact (N (H V)). Qed.

Lemma orb3_false : forall a b c : bool, a || b || c = false -> a = false /\ b = false /\ c = false.
Proof. intros [] [] [] H; try discriminate. repeat split. Qed.

Lemma existsb_false : forall A (f : A -> bool) l x, existsb f l = false -> In x l -> f x = false.
Proof.
  intros A f l x E Hin. apply not_true_is_false. intro Fx.
  rewrite (proj2 (existsb_exists f l)) in E; [discriminate|]. exists x. split; assumption.
Qed.

Lemma filter_comm : forall A (f g : A -> bool) l, filter f (filter g l) = filter g (filter f l).
Proof.
  induction l as [|x r IH]; cbn [filter]; [reflexivity|].
  destruct (g x) eqn:G; destruct (f x) eqn:F; cbn [filter]; rewrite ?G, ?F, IH; reflexivity.
Qed.

Lemma filter_const : forall A (f : A -> bool) (b : bool) l,
  (forall x, In x l -> f x = b) -> filter f l = if b then l else [].
Proof.
  induction l as [|x r IH]; intro H; cbn [filter]; [destruct b; reflexivity|].
  rewrite (H x (or_introl eq_refl)), (IH (fun y Hy => H y (or_intror Hy))). destruct b; reflexivity.
Qed.

Lemma filter_concat_row : forall A (f : A -> bool) rows sh,
  (forall j row a, nth_error rows j = Some row -> In a row -> f a = Nat.eqb j sh) ->
  filter f (concat rows) = nth sh rows [].
Proof.
  induction rows as [|row rest IH]; intros sh H; [destruct sh; reflexivity|].
  cbn [concat]. rewrite filter_app.
  (* [Nat.eqb (S j) sh] computes: [rest] is judged against [sh - 1], or dropped when [sh] is 0 *)
  destruct sh as [|sh].
  - rewrite (filter_const _ _ true row) by (intros a Ha; exact (H 0%nat row a eq_refl Ha)).
    rewrite (filter_const _ _ false (concat rest)); [apply app_nil_r|].
    intros a Ha. apply in_concat in Ha. destruct Ha as [row0 [H1 H2]].
    apply In_nth_error in H1. destruct H1 as [j Hj]. exact (H (S j) row0 a Hj H2).
  - rewrite (filter_const _ _ false row) by (intros a Ha; exact (H 0%nat row a eq_refl Ha)).
    exact (IH sh (fun j => H (S j))).
Qed.

Lemma map_filter_comm : forall A B (h : A -> B) (f : A -> bool) (g : B -> bool) l,
  (forall a, g (h a) = f a) -> map h (filter f l) = filter g (map h l).
Proof.
  intros A B h f g l E. induction l as [|x r IH]; cbn [filter map]; [reflexivity|].
  rewrite E. destruct (f x); cbn [map]; rewrite IH; reflexivity.
Qed.

Lemma NoDup_map_two : forall A B (f : A -> B) l1 x l2 y l3,
  NoDup (map f (l1 ++ x :: l2 ++ y :: l3)) -> f x <> f y.
Proof.
  intros A B f l1 x l2 y l3 ND E. rewrite map_app in ND. cbn [map] in ND. apply NoDup_remove_2 in ND.
  apply ND, in_or_app. right. rewrite map_app. apply in_or_app. right. left. symmetry. exact E.
Qed.

Lemma in_concat_nth : forall A (rows : list (list A)) a, In a (concat rows) ->
  exists j row i, nth_error rows j = Some row /\ nth_error row i = Some a.
Proof.
  intros A rows a H. apply in_concat in H. destruct H as [row [H1 H2]].
  apply In_nth_error in H1. destruct H1 as [j Hj].
  apply In_nth_error in H2. destruct H2 as [i Hi]. eauto.
Qed.

Lemma str_eqb_eq : forall a b, str_eqb a b = true <-> a = b.
Proof.
  induction a as [|x a IH]; destruct b as [|y b]; cbn [str_eqb]; split; intro H; try congruence; try reflexivity.
  - apply andb_true_iff in H. destruct H as [H1 H2]. apply Z.eqb_eq in H1. apply IH in H2. congruence.
  - inversion H; subst. apply andb_true_iff. split. apply Z.eqb_refl. apply IH. reflexivity.
Qed.

Lemma str_eqb_refl : forall a, str_eqb a a = true.
Proof. intro a. apply str_eqb_eq. reflexivity. Qed.

Lemma digit_range : forall c d, digit c = Some d -> 0 <= d <= 9.
Proof.
  unfold digit. intros c d H.
  destruct ((48 <=? c) && (c <=? 57)) eqn:E; [|discriminate].
  apply andb_true_iff in E. destruct E as [E1 E2].
  apply Z.leb_le in E1. apply Z.leb_le in E2. inversion H. lia.
Qed.

Lemma digits_val_ge : forall s acc v, 0 <= acc -> digits_val acc s = Some v -> acc <= v.
Proof.
  induction s as [|c r IH]; cbn [digits_val]; intros acc v Hacc H.
  - inversion H. lia.
  - destruct (digit c) as [d|] eqn:D; [|discriminate].
    apply digit_range in D. apply IH in H; lia.
Qed.

Lemma digits_nonneg : forall s v, digits s = Some v -> 0 <= v.
Proof.
  intros s v H. unfold digits in H. destruct s; [discriminate|].
  apply digits_val_ge in H; lia.
Qed.

Lemma parse_usize_range : forall s v, parse_usize s = Some v -> 0 <= v <= usize_max.
Proof.
  unfold parse_usize. intros s v H.
  destruct (digits (strip_plus s)) as [w|] eqn:D; [|discriminate].
  destruct (w <=? usize_max) eqn:L; [|discriminate].
  inversion H; subst. apply Z.leb_le in L. apply digits_nonneg in D. lia.
Qed.

(** A key accepted as [usize] and small enough denotes the same number as [i64]
    ([from_config] sorts by the latter and stores the former). *)
Lemma parse_agree : forall s v, parse_usize s = Some v -> v <= i64_max -> parse_i64 s = Some v.
Proof.
  intros [|c r] v H Hv; [discriminate|]. unfold parse_i64.
  destruct (c =? 45) eqn:E.
  - apply Z.eqb_eq in E. subst c. discriminate.
  - unfold parse_usize in H. destruct (digits (strip_plus (c :: r))) as [w|]; [|discriminate].
    destruct (w <=? usize_max); [|discriminate]. inversion H; subst.
    rewrite (proj2 (Z.leb_le v i64_max) Hv). reflexivity.
Qed.

Lemma insert_by_perm : forall A (x : Z * A) l, Permutation (insert_by x l) (x :: l).
Proof.
  induction l as [|y r IH]; cbn [insert_by]; [apply Permutation_refl|].
  destruct (fst x <=? fst y); [apply Permutation_refl|].
  eapply Permutation_trans; [apply perm_skip; exact IH|apply perm_swap].
Qed.

Lemma isort_by_perm : forall A (l : list (Z * A)), Permutation (isort_by l) l.
Proof.
  induction l as [|x r IH]; cbn [isort_by]; [apply perm_nil|].
  eapply Permutation_trans; [apply insert_by_perm|apply perm_skip; exact IH].
Qed.

Lemma insert_by_fst : forall A (x : Z * A) l, map fst (insert_by x l) = insertZ (fst x) (map fst l).
Proof.
  induction l as [|y r IH]; cbn [insert_by insertZ map]; [reflexivity|].
  destruct (fst x <=? fst y); cbn [map]; [reflexivity|]. rewrite IH. reflexivity.
Qed.

Lemma isort_by_fst : forall A (l : list (Z * A)), map fst (isort_by l) = isortZ (map fst l).
Proof.
  induction l as [|x r IH]; cbn [isort_by isortZ map]; [reflexivity|].
  rewrite insert_by_fst, IH. reflexivity.
Qed.

(* sorting numbers is sorting pairs that carry nothing *)
Lemma isortZ_perm : forall l, Permutation (isortZ l) l.
Proof.
  intro l. pose proof (Permutation_map fst (isort_by_perm _ (map (fun x => (x, tt)) l))) as P.
  rewrite isort_by_fst, map_map, map_id in P. exact P.
Qed.

Definition seqZ (n : nat) : list Z := map Z.of_nat (seq 0 n).

Lemma seqZ_NoDup : forall n, NoDup (seqZ n).
Proof.
  intro n. unfold seqZ. apply FinFun.Injective_map_NoDup; [|apply seq_NoDup].
  intros a b H. apply Nat2Z.inj. exact H.
Qed.

Lemma in_seqZ : forall n v, In v (seqZ n) <-> 0 <= v < Z.of_nat n.
Proof.
  intros n v. unfold seqZ. rewrite in_map_iff. split.
  - intros [j [E H]]. apply in_seq in H. lia.
  - intro H. exists (Z.to_nat v). split; [lia|]. apply in_seq. lia.
Qed.

Lemma nth_error_seqZ : forall n j v, nth_error (seqZ n) j = Some v -> v = Z.of_nat j.
Proof.
  unfold seqZ. intros n j v H. rewrite nth_error_map in H.
  destruct (nth_error (seq 0 n) j) as [i|] eqn:E; [|discriminate]. injection H as <-.
  assert (Hj : (j < n)%nat) by (rewrite <- (seq_length n 0); apply nth_error_Some; congruence).
  apply (nth_error_nth _ _ 0%nat) in E. rewrite seq_nth in E by exact Hj. subst i. reflexivity.
Qed.

Lemma check_enum_spec : forall l i, check_enum i l = true -> l = map Z.of_nat (seq i (length l)).
Proof.
  induction l as [|x r IH]; intros i H; cbn [check_enum length seq map] in *; [reflexivity|].
  apply andb_true_iff in H. destruct H as [H1 H2]. apply Z.eqb_eq in H1. subst x.
  f_equal. apply IH. exact H2.
Qed.

Lemma check_enum_complete : forall n i, check_enum i (map Z.of_nat (seq i n)) = true.
Proof.
  induction n as [|n IH]; intro i; cbn [seq map check_enum]; [reflexivity|].
  rewrite Z.eqb_refl, IH. reflexivity.
Qed.

Lemma user_validate_facts : forall u, user_validate u = true ->
  (u_pool_size u =? 0) = false /\ is_some_zero (u_connect_timeout u) = false /\
  is_some_zero (u_idle_timeout u) = false /\ is_some_zero (u_server_lifetime u) = false /\
  match u_min_pool_size u with Some m => (u_pool_size u <? m) = false | None => True end.
Proof.
  intros u H. unfold user_validate in H.
  apply if_false_inv in H as [S H]. apply if_false_inv in H as [T H]. apply orb3_false in T.
  repeat split; try apply T; try exact S.
  destruct (u_min_pool_size u); [apply negb_true_iff; exact H|exact I].
Qed.

Lemma shard_validate_inv : forall sh, shard_validate sh = true ->
  sh_servers sh <> [] /\
  existsb (fun s => role_eqb (sv_role s) Mirror) (sh_servers sh) = false /\
  count_primary (sh_servers sh) <= 1 /\
  length (distinct (sh_servers sh)) = length (sh_servers sh) /\
  forall m, In m (sh_mirrors sh) -> mi_target m < Z.of_nat (length (sh_servers sh)).
Proof.
  intros sh V. unfold shard_validate in V.
  destruct (sh_servers sh) eqn:S; [discriminate|]. rewrite <- S in V |- *.
  apply if_false_inv in V as [M V]. apply if_false_inv in V as [P V]. apply if_false_inv in V as [D V].
  split; [rewrite S; discriminate|]. split; [exact M|]. split; [apply Z.ltb_ge; exact P|].
  split; [apply Nat.eqb_eq, negb_false_iff; exact D|].
  intros m Hm. apply Z.leb_gt, negb_true_iff. exact (proj1 (forallb_forall _ _) V m Hm).
Qed.

Lemma count_primary_nonneg : forall l, 0 <= count_primary l.
Proof. induction l as [|s r IH]; cbn [count_primary]; [lia|]. destruct (sv_role s); lia. Qed.

Lemma count_primary_app : forall a b, count_primary (a ++ b) = count_primary a + count_primary b.
Proof. induction a as [|s r IH]; intro b; cbn [app count_primary]; [lia|]. rewrite IH. lia. Qed.

Lemma count_primary_two : forall l1 a l2 b l3, sv_role a = Primary -> sv_role b = Primary ->
  2 <= count_primary (l1 ++ a :: l2 ++ b :: l3).
Proof.
  intros l1 a l2 b l3 Ra Rb. rewrite count_primary_app. cbn [count_primary]. rewrite count_primary_app.
  cbn [count_primary]. rewrite Ra, Rb.
  pose proof (count_primary_nonneg l1). pose proof (count_primary_nonneg l2). pose proof (count_primary_nonneg l3). lia.
Qed.

Lemma distinct_le : forall l, (length (distinct l) <= length l)%nat.
Proof.
  induction l as [|s r IH]; cbn [distinct length]; [lia|].
  destruct (existsb (server_eqb s) r); cbn [length]; lia.
Qed.

Lemma distinct_lt : forall l1 s l2 s' l3, server_eqb s s' = true ->
  (length (distinct (l1 ++ s :: l2 ++ s' :: l3)) < length (l1 ++ s :: l2 ++ s' :: l3))%nat.
Proof.
  induction l1 as [|x r IH]; intros s l2 s' l3 E.
  - cbn [app distinct].
    assert (X : existsb (server_eqb s) (l2 ++ s' :: l3) = true).
    { apply existsb_exists. exists s'. split; [apply in_or_app; right; left; reflexivity|exact E]. }
    rewrite X. pose proof (distinct_le (l2 ++ s' :: l3)). cbn [length]. lia.
  - cbn [app distinct length]. specialize (IH s l2 s' l3 E).
    destruct (existsb (server_eqb x) (r ++ s :: l2 ++ s' :: l3)); cbn [length]; lia.
Qed.

Lemma shard_numbers_spec : forall l nums, shard_numbers l = Some nums ->
  map (fun ks => parse_usize (fst ks)) l = map Some nums /\
  Forall (fun ks => shard_validate (snd ks) = true) l.
Proof.
  induction l as [|[k sh] r IH]; cbn [shard_numbers]; intros nums H.
  - inversion H. split; constructor.
  - destruct (parse_usize k) as [n|] eqn:P; [|discriminate].
    destruct (shard_validate sh) eqn:V; [|discriminate].
    destruct (shard_numbers r) as [ns|]; [|discriminate]. inversion H; subst.
    destruct (IH ns eq_refl) as [I1 I2]. cbn [map fst snd]. rewrite P, I1. split; [reflexivity|].
    constructor; [exact V|exact I2].
Qed.

Lemma shard_numbers_length : forall l nums, shard_numbers l = Some nums -> length nums = length l.
Proof.
  intros l nums H. destruct (shard_numbers_spec l nums H) as [M _].
  apply (f_equal (@length _)) in M. rewrite !map_length in M. symmetry. exact M.
Qed.

(** What [Pool::validate] guarantees, check by check in code order. *)
Record pool_valid (p : pool) : Prop := {
  pv_role : role_setting_ok (p_default_role p) = true;
  pv_numbers : exists nums, shard_numbers (p_shards p) = Some nums /\ isortZ nums = seqZ (length (p_shards p));
  pv_nonempty : (0 < length (p_shards p))%nat;
  pv_regex : regex_bad (p_shard_regex p) = false /\ regex_bad (p_key_regex p) = false;
  pv_rw_split : p_rw_split p && negb (p_parser p) = false;
  pv_plugins : has_plugins p && negb (p_parser p) = false;
  pv_auto_key : auto_key_ok (p_auto_key p) = true;
  pv_timeouts : is_some_zero (p_connect_timeout p) = false /\ is_some_zero (p_idle_timeout p) = false /\
                is_some_zero (p_server_lifetime p) = false;
  pv_default_shard : match p_default_shard p with DShard d => d < Z.of_nat (length (p_shards p)) | _ => True end;
  pv_users : forall ku, In ku (p_users p) -> user_validate (snd ku) = true;
  pv_activity : p_activity p && ((p_act_delay p =? 0) || (p_mut_ttl p =? 0) || (p_act_ttl p =? 0)) = false }.

Lemma pool_validate_inv : forall p, pool_validate p = true -> pool_valid p.
Proof.
  intros p H. unfold pool_validate in H.
  apply if_false_inv in H as [R H]. apply negb_false_iff in R.
  destruct (shard_numbers (p_shards p)) as [nums|] eqn:N; [|discriminate]. cbv zeta in H.
  apply if_false_inv in H as [E H]. apply if_false_inv in H as [RX H]. apply if_false_inv in H as [RW H].
  apply if_false_inv in H as [PL H]. apply if_false_inv in H as [AK H]. apply if_false_inv in H as [T H].
  apply if_false_inv in H as [D H]. apply if_false_inv in H as [U H]. apply if_false_inv in H as [AC _].
  apply orb_false_iff in E. destruct E as [E1 E2]. apply negb_false_iff, check_enum_spec in E2.
  assert (L : length (isortZ nums) = length (p_shards p)).
  { rewrite (Permutation_length (isortZ_perm nums)). apply (shard_numbers_length _ _ N). }
  rewrite L in E2.
  constructor; try assumption.
  - exists nums. split; [exact N|exact E2].
  - destruct (isortZ nums); [discriminate|]. rewrite <- L. cbn [length]. lia.
  - apply orb_false_iff. exact RX.
  - apply negb_false_iff. exact AK.
  - apply orb3_false. exact T.
  - destruct (p_default_shard p); try exact I. apply Z.leb_gt. exact D.
  - apply forallb_forall, negb_false_iff. exact U.
Qed.

(** Accepted shard keys denote 0 .. n-1 bijectively. *)
Theorem key_parse : forall p, pool_validate p = true ->
  exists vs, map (fun ks => parse_usize (fst ks)) (p_shards p) = map Some vs /\
             Permutation vs (seqZ (length (p_shards p))) /\ NoDup vs /\
             (forall v, In v vs <-> 0 <= v < Z.of_nat (length (p_shards p))) /\
             Forall (fun ks => shard_validate (snd ks) = true) (p_shards p).
Proof.
  intros p H. destruct (pv_numbers _ (pool_validate_inv p H)) as [nums [N S]].
  destruct (shard_numbers_spec _ _ N) as [M V].
  assert (P : Permutation nums (seqZ (length (p_shards p)))).
  { rewrite <- S. apply Permutation_sym, isortZ_perm. }
  exists nums. split; [exact M|]. split; [exact P|]. split.
  - eapply Permutation_NoDup; [apply Permutation_sym; exact P|apply seqZ_NoDup].
  - split; [|exact V]. intro v. rewrite <- in_seqZ.
    split; apply Permutation_in; [exact P|apply Permutation_sym, P].
Qed.

Lemma valid_key : forall p k sh, In (k, sh) (p_shards p) -> pool_validate p = true ->
  exists v, parse_usize k = Some v /\ 0 <= v < Z.of_nat (length (p_shards p)) /\ shard_validate sh = true.
Proof.
  intros p k sh Hin V. destruct (key_parse p V) as [vs [M [_ [_ [R F]]]]].
  pose proof (in_map (fun ks : str * shard => parse_usize (fst ks)) _ _ Hin) as X.
  rewrite M in X. apply in_map_iff in X. destruct X as [v [E Hv]].
  exists v. split; [symmetry; exact E|]. split; [apply R; exact Hv|].
  exact (proj1 (Forall_forall _ _) F _ Hin).
Qed.

Lemma valid_keys_NoDup : forall p, pool_validate p = true ->
  NoDup (map (fun ks => parse_usize (fst ks)) (p_shards p)).
Proof.
  intros p V. destruct (key_parse p V) as [vs [M [_ [ND _]]]]. rewrite M.
  apply FinFun.Injective_map_NoDup; [intros a b H; congruence|exact ND].
Qed.

Lemma config_validate_andb : forall c, config_validate c =
  negb (g_auth_query c && (negb (g_auth_user c) || negb (g_auth_password c))) &&
  negb ((g_connect_timeout c =? 0) || (g_idle_timeout c =? 0) || (g_server_lifetime c =? 0)) &&
  negb (existsb pool_auth_bad (c_pools c)) && tls_ok c && forallb pool_validate (c_pools c).
Proof.
  intro c. unfold config_validate.
  destruct (g_auth_query c && _); [reflexivity|]. destruct (_ || (g_server_lifetime c =? 0)); [reflexivity|].
  destruct (existsb pool_auth_bad (c_pools c)); [reflexivity|]. destruct (tls_ok c); reflexivity.
Qed.

Definition general_ok (c : config) : Prop :=
  (g_connect_timeout c =? 0) = false /\ (g_idle_timeout c =? 0) = false /\ (g_server_lifetime c =? 0) = false.

(** [fill_up] only changes the three auth_query fields of a pool: [pool_validate], [small_pool],
    [typed_pool], [servable] and [settings_ok] read the same from [fill_up c] / [fill_pool c p]
    as from [c] / [p], by conversion.  Only [pool_auth_bad] looks at the filled-up pool. *)
Lemma accept_inv : forall c, accept c = true ->
  g_auth_query c && (negb (g_auth_user c) || negb (g_auth_password c)) = false /\
  general_ok c /\ tls_ok c = true /\
  forall p, In p (c_pools c) -> pool_auth_bad (fill_pool c p) = false /\ pool_validate p = true.
Proof.
  intros c A. unfold accept in A. rewrite config_validate_andb in A.
  apply andb_true_iff in A as [A V]. apply andb_true_iff in A as [A T]. apply andb_true_iff in A as [A B].
  apply andb_true_iff in A as [Q G]. apply negb_true_iff in Q, G, B.
  split; [exact Q|]. split; [exact (orb3_false _ _ _ G)|]. split; [exact T|].
  intros p Hp. apply (in_map (fill_pool c)) in Hp.
  split; [exact (existsb_false _ _ _ _ B Hp)|exact (proj1 (forallb_forall _ _) V _ Hp)].
Qed.

(** Credentials: a user without password needs a fully configured auth_query. *)
Lemma pool_auth_secret : forall p ku, pool_auth_bad p = false -> In ku (p_users p) ->
  u_password (snd ku) || is_auth_query_configured p = true.
Proof.
  intros p ku H Hin. unfold pool_auth_bad in H. apply orb_false_iff in H. destruct H as [_ H].
  pose proof (existsb_false _ _ _ ku H Hin) as X. cbn beta in X. unfold is_auth_query_configured.
  destruct (u_password (snd ku)); [reflexivity|].
  destruct (p_auth_query p), (p_auth_password p), (p_auth_user p); try reflexivity; discriminate.
Qed.

(* auth_type is about the client side only: a trust user is rejected like any other *)
Lemma reject_no_secret : forall c p ku, In p (c_pools c) -> In ku (p_users p) ->
  u_password (snd ku) = false -> is_auth_query_configured (fill_pool c p) = false -> accept c = false.
Proof.
  intros c p ku Hp Hku PW AQ. apply not_true_is_false. intro A.
  destruct (accept_inv c A) as [_ [_ [_ P]]]. destruct (P p Hp) as [B _].
  pose proof (pool_auth_secret (fill_pool c p) ku B Hku) as S. rewrite PW, AQ in S. discriminate.
Qed.

(** TLS options: a loadable certificate/key pair changes nothing else. *)
Lemma accept_tls : forall c, accept c = tls_ok c && accept (without_tls c).
Proof.
  intro c. unfold accept. rewrite !config_validate_andb.
  change (tls_ok (fill_up c)) with (tls_ok c).
  destruct (tls_ok c); [reflexivity|]. rewrite andb_false_r. reflexivity.
Qed.

Definition key_ok (zk : Z * (str * shard)) : Prop :=
  parse_usize (fst (snd zk)) = Some (fst zk) /\ shard_validate (snd (snd zk)) = true.

Lemma keyed_of_numbers : forall l nums,
  shard_numbers l = Some nums -> Forall (fun v => v <= i64_max) nums ->
  exists kl, keyed l = Some kl /\ map fst kl = nums /\ map snd kl = l /\ Forall key_ok kl.
Proof.
  induction l as [|[k sh] r IH]; cbn [shard_numbers keyed]; intros nums H Hb.
  - inversion H; subst. exists []. repeat split; constructor.
  - destruct (parse_usize k) as [n|] eqn:P; [|discriminate].
    destruct (shard_validate sh) eqn:V; [|discriminate].
    destruct (shard_numbers r) as [ns|] eqn:R; [|discriminate].
    inversion H; subst. inversion Hb; subst.
    destruct (IH ns eq_refl H3) as [kl [K [F [S FA]]]].
    cbn [fst]. rewrite (parse_agree k n P H2), K.
    exists ((n, (k, sh)) :: kl). cbn [map fst snd]. repeat split; try congruence.
    constructor; [split; assumption|exact FA].
Qed.

(** The list [from_config] walks: the i64 sort of the keys of an accepted pool puts the key that
    denotes [j] at position [j]. *)
Lemma sorted_keys : forall p, pool_validate p = true -> small_pool p ->
  exists kl, keyed (p_shards p) = Some kl /\ length kl = length (p_shards p) /\
    map fst (isort_by kl) = seqZ (length (p_shards p)) /\ Forall key_ok (isort_by kl) /\
    Permutation (map snd (isort_by kl)) (p_shards p).
Proof.
  intros p V Hs. destruct (pv_numbers _ (pool_validate_inv p V)) as [nums [N S]].
  assert (B : Forall (fun v => v <= i64_max) nums).
  { apply Forall_forall. intros v Hv.
    apply (Permutation_in _ (Permutation_sym (isortZ_perm nums))) in Hv. rewrite S in Hv.
    apply in_seqZ in Hv. unfold small_pool in Hs. lia. }
  destruct (keyed_of_numbers _ _ N B) as [kl [K [F [Sn FA]]]].
  exists kl. split; [exact K|]. split; [rewrite <- Sn; symmetry; apply map_length|].
  split; [rewrite isort_by_fst, F; exact S|]. split.
  - eapply Permutation_Forall; [apply Permutation_sym, isort_by_perm|exact FA].
  - rewrite <- Sn. apply Permutation_map, isort_by_perm.
Qed.

Definition row_of (zk : Z * (str * shard)) : list address :=
  build_servers (fst zk) (sh_mirrors (snd (snd zk))) 0 0 (sh_servers (snd (snd zk))).

Lemma build_shards_ok : forall sl, Forall key_ok sl -> build_shards None sl = Built (map row_of sl).
Proof.
  induction sl as [|[z [k sh]] r IH]; intro F; cbn [build_shards map]; [reflexivity|].
  inversion F as [|x l [P V] F']; subst. cbn [fst snd] in P, V.
  unfold build_shard. rewrite P.
  rewrite (IH F'). unfold row_of at 2. cbn [fst snd].
  destruct (sh_servers sh) eqn:S; reflexivity.
Qed.

Lemma build_servers_length : forall svs z ms i r, length (build_servers z ms i r svs) = length svs.
Proof. induction svs as [|sv rest IH]; intros; cbn [build_servers length]; [reflexivity|]. rewrite IH. reflexivity. Qed.

Lemma build_servers_nth : forall svs z ms i0 r0 i a,
  nth_error (build_servers z ms i0 r0 svs) i = Some a ->
  a_shard a = z /\ a_index a = (i0 + i)%nat /\
  a_mirrors a = mirrors_for z (a_role a) (a_replica_number a) (i0 + i) 0 ms.
Proof.
  induction svs as [|sv rest IH]; intros z ms i0 r0 i a H; cbn [build_servers] in H.
  - destruct i; discriminate.
  - destruct i as [|i]; cbn [nth_error] in H.
    + injection H as <-. cbn. rewrite Nat.add_0_r. repeat split.
    + apply IH in H. rewrite <- Nat.add_succ_comm. exact H.
Qed.

Lemma build_servers_map : forall svs z ms i r, map server_of (build_servers z ms i r svs) = svs.
Proof.
  induction svs as [|sv rest IH]; intros; cbn [build_servers map]; [reflexivity|].
  rewrite IH. f_equal. destruct sv; reflexivity.
Qed.

Lemma build_servers_shard : forall svs z ms i r, Forall (fun a => a_shard a = z) (build_servers z ms i r svs).
Proof. induction svs as [|sv rest IH]; intros; cbn [build_servers]; constructor; [reflexivity|apply IH]. Qed.

Lemma mirrors_for_in : forall ms z r repl target base j m,
  nth_error ms j = Some m -> mi_target m = Z.of_nat target ->
  In {| ma_host := mi_host m; ma_port := mi_port m; ma_role := r; ma_index := (base + j)%nat;
        ma_replica_number := repl; ma_shard := z |} (mirrors_for z r repl target base ms).
Proof.
  induction ms as [|x rest IH]; intros z r repl target base j m H T.
  - destruct j; discriminate.
  - cbn [mirrors_for]. destruct j as [|j]; cbn [nth_error] in H.
    + inversion H; subst x. rewrite T, Z.eqb_refl. left. rewrite Nat.add_0_r. reflexivity.
    + specialize (IH z r repl target (S base) j m H T).
      replace (S base + j)%nat with (base + S j)%nat in IH by lia.
      destruct (mi_target x =? Z.of_nat target); [right|]; exact IH.
Qed.

Lemma build_servers_role : forall r svs z ms i rp,
  map server_of (filter (fun a => role_matches r (a_role a)) (build_servers z ms i rp svs))
  = filter (fun sv => role_matches r (sv_role sv)) svs.
Proof.
  intros. rewrite (map_filter_comm _ _ server_of _ (fun sv => role_matches r (sv_role sv))) by reflexivity.
  rewrite build_servers_map. reflexivity.
Qed.

Lemma build_servers_mirror_at : forall z ms svs j m,
  nth_error ms j = Some m -> 0 <= mi_target m < Z.of_nat (length svs) ->
  exists a, nth_error (build_servers z ms 0 0 svs) (Z.to_nat (mi_target m)) = Some a /\
    In {| ma_host := mi_host m; ma_port := mi_port m; ma_role := a_role a; ma_index := j;
          ma_replica_number := a_replica_number a; ma_shard := z |} (a_mirrors a).
Proof.
  intros z ms svs j m Hm B. set (t := Z.to_nat (mi_target m)).
  destruct (nth_error (build_servers z ms 0 0 svs) t) as [a|] eqn:A.
  2:{ apply nth_error_None in A. rewrite build_servers_length in A. lia. }
  exists a. split; [reflexivity|]. rewrite (proj2 (proj2 (build_servers_nth _ _ _ _ _ _ _ A))).
  apply (mirrors_for_in ms z (a_role a) (a_replica_number a) (0 + t) 0 j m Hm). unfold t. cbn [Nat.add]. lia.
Qed.

Lemma get_candidates_shard : forall bp sh r, 0 <= sh < Z.of_nat (shards bp) ->
  get_candidates bp (Some sh) r = Some (candidates bp sh r).
Proof.
  intros bp sh r H. unfold get_candidates, candidates.
  destruct (Z.of_nat (shards bp) =? 1) eqn:E.
  - apply Z.eqb_eq in E. replace sh with 0 by lia. reflexivity.
  - rewrite (proj2 (Z.ltb_lt _ _) (proj2 H)). reflexivity.
Qed.

Lemma get_candidates_refused : forall bp sh r, (1 < shards bp)%nat -> Z.of_nat (shards bp) <= sh ->
  get_candidates bp (Some sh) r = None.
Proof.
  intros bp sh r H1 H2. unfold get_candidates.
  rewrite (proj2 (Z.eqb_neq (Z.of_nat (shards bp)) 1)) by lia.
  rewrite (proj2 (Z.ltb_ge _ _) H2). reflexivity.
Qed.

(** Addressing a built pool whose rows are numbered by position.
    [databases], [addresses] and the ban list are indexed by position, [get] and the ban operations
    by the shard NUMBER an address carries.  They agree as soon as the three lists have one shape
    and every address carries the position of its row and its position in the row. *)
Record indexed (mk : address -> bb8pool) (bp : built) : Prop := {
  ix_databases : bp_databases bp = map (map mk) (bp_addresses bp);
  ix_mk : forall a, b_address (mk a) = a;
  ix_banlist : bp_banlist bp = map (fun _ => tt) (bp_addresses bp);
  ix_row : forall sh row, nth_error (bp_addresses bp) sh = Some row ->
    row <> [] /\ forall i a, nth_error row i = Some a -> a_shard a = Z.of_nat sh /\ a_index a = i }.

Section Indexed.
  Variables (mk : address -> bb8pool) (bp : built).
  Hypothesis IX : indexed mk bp.

  Lemma ix_shards : shards bp = length (bp_addresses bp).
  Proof. unfold shards. rewrite (ix_databases _ _ IX). apply map_length. Qed.

  Lemma ix_address_at : forall sh i a, address_at bp sh i = Some a ->
    a_shard a = Z.of_nat sh /\ a_index a = i /\ exists b, pool_state_at bp sh i = Some b /\ b_address b = a.
  Proof.
    intros sh i a H. unfold address_at in H.
    destruct (nth_error (bp_addresses bp) sh) as [row|] eqn:R; [|discriminate].
    destruct (proj2 (ix_row _ _ IX sh row R) i a H) as [H1 H2].
    split; [exact H1|]. split; [exact H2|]. exists (mk a). split; [|apply (ix_mk _ _ IX)].
    unfold pool_state_at. rewrite (ix_databases _ _ IX), nth_error_map, R. cbn [option_map].
    rewrite nth_error_map, H. reflexivity.
  Qed.

  Lemma ix_first : forall sh, (sh < length (bp_addresses bp))%nat -> exists a, address_at bp sh 0%nat = Some a.
  Proof.
    intros sh H. apply nth_error_Some in H. unfold address_at.
    destruct (nth_error (bp_addresses bp) sh) as [row|] eqn:R; [|congruence].
    destruct (ix_row _ _ IX sh row R) as [NE _]. destruct row as [|a rest]; [congruence|]. exists a. reflexivity.
  Qed.

  Lemma ix_by_address : forall a, In a (all_addresses bp) ->
    (exists b, get_index bp a = Some b /\ b_address b = a) /\ ban_index bp a = true /\ try_unban_index bp a = true.
  Proof.
    intros a H. apply in_concat_nth in H. destruct H as [j [row [i [Hj Hi]]]].
    assert (A : address_at bp j i = Some a) by (unfold address_at; rewrite Hj; exact Hi).
    destruct (ix_address_at _ _ _ A) as [H1 [H2 [b [H3 H4]]]].
    assert (B : ban_index bp a = true).
    { unfold ban_index. rewrite H1, Nat2Z.id, (ix_banlist _ _ IX), nth_error_map, Hj. reflexivity. }
    split; [|split].
    - exists b. split; [|exact H4]. unfold get_index. rewrite H1, Nat2Z.id, H2. exact H3.
    - exact B.
    - unfold try_unban_index. rewrite H1, Nat2Z.id, Hj. exact B.
  Qed.

  Lemma ix_indices_ok : indices_ok bp = true.
  Proof.
    unfold indices_ok. rewrite ix_shards, (ix_banlist _ _ IX), map_length, Nat.eqb_refl. cbn [andb].
    apply andb_true_iff. split; apply forallb_forall.
    - intros row Hrow. apply In_nth_error in Hrow. destruct Hrow as [sh Hsh].
      destruct (ix_row _ _ IX sh row Hsh) as [NE _]. destruct row; [congruence|reflexivity].
    - intros a Ha. destruct (ix_by_address a Ha) as [[b [G _]] [B T]]. rewrite G, B, T. reflexivity.
  Qed.

  Lemma ix_filter_shard : forall sh,
    filter (fun a => a_shard a =? Z.of_nat sh) (all_addresses bp) = nth sh (bp_addresses bp) [].
  Proof.
    intro sh. apply filter_concat_row. intros j row a H Ha. apply In_nth_error in Ha. destruct Ha as [i Hi].
    rewrite (proj1 (proj2 (ix_row _ _ IX j row H) i a Hi)).
    destruct (Nat.eqb_spec j sh) as [->|N]; [apply Z.eqb_refl|apply Z.eqb_neq; lia].
  Qed.

  (* a single shard: every address is in row 0 *)
  Lemma ix_one_shard : length (bp_addresses bp) = 1%nat -> forall r,
    candidates bp 0 r = filter (fun a => role_matches r (a_role a)) (all_addresses bp).
  Proof.
    intros N r. unfold candidates. rewrite filter_comm. change 0 with (Z.of_nat 0). rewrite ix_filter_shard.
    unfold all_addresses. revert N. destruct (bp_addresses bp) as [|row [|row' rest]]; try discriminate.
    intros _. cbn [concat nth]. rewrite app_nil_r. reflexivity.
  Qed.

  Lemma ix_get_default : forall n, length (bp_addresses bp) = n ->
    match bp_default_shard bp with DShard d => 0 <= d < Z.of_nat n | _ => True end ->
    match bp_default_shard bp with
    | DShard d => 0 <= d < Z.of_nat n /\ forall r, get_candidates bp None r = Some (candidates bp d r)
    | _ => forall r, get_candidates bp None r = Some (filter (fun a => role_matches r (a_role a)) (all_addresses bp))
    end.
  Proof.
    intros n L DS. unfold get_candidates. rewrite ix_shards, L.
    destruct (Z.of_nat n =? 1) eqn:E.
    - (* a single shard is selected whatever the default says *)
      apply Z.eqb_eq in E. destruct (bp_default_shard bp) as [d| |].
      + split; [exact DS|]. intro r. replace d with 0 by lia. reflexivity.
      + intro r. f_equal. apply ix_one_shard. lia.
      + intro r. f_equal. apply ix_one_shard. lia.
    - destruct (bp_default_shard bp); [split; [exact DS|]|..]; reflexivity.
  Qed.
End Indexed.

(** The pool built for one (pool, user) from an accepted pool section. *)
Definition explicit (c : config) (p : pool) (u : user) (sl : list (Z * (str * shard))) (dr : option role) : built :=
  {| bp_db := p_name p; bp_user := u_name u;
     bp_databases := map (map (mk_pool c p u)) (map row_of sl);
     bp_addresses := map row_of sl;
     bp_banlist := map (fun _ => tt) (map row_of sl);
     bp_settings_shards := length (p_shards p);
     bp_default_shard := p_default_shard p;
     bp_default_role := dr;
     bp_pool_size := u_pool_size u;
     bp_pool_mode := match u_pool_mode u with Some m => m | None => p_pool_mode p end;
     bp_plugins := match p_plugins p with Some x => Some x | None => g_plugins c end;
     bp_user_cfg := u;
     bp_auto_key := option_map unquote (p_auto_key p);
     bp_parser := p_parser p; bp_rw_split := p_rw_split p |}.

Section Explicit.
  Variables (c : config) (p : pool) (u : user) (sl : list (Z * (str * shard))) (dr : option role).
  Let n := length (p_shards p).
  Let bp := explicit c p u sl dr.
  (* [sl] is the sorted key list of [sorted_keys] *)
  Hypothesis FST : map fst sl = seqZ n.
  Hypothesis KEYS : Forall key_ok sl.
  Hypothesis PERM : Permutation (map snd sl) (p_shards p).
  Hypothesis NE : (0 < n)%nat.
  Hypothesis DS : match p_default_shard p with DShard d => 0 <= d < Z.of_nat n | _ => True end.
  Hypothesis MT : Forall (fun ks => Forall (fun m => 0 <= mi_target m) (sh_mirrors (snd ks))) (p_shards p).

  Lemma sl_length : length sl = n.
  Proof. rewrite <- (map_length fst sl), FST. unfold seqZ. rewrite map_length. apply seq_length. Qed.

  Lemma sl_fst : forall j zk, nth_error sl j = Some zk -> fst zk = Z.of_nat j.
  Proof. intros j zk H. apply (map_nth_error fst) in H. rewrite FST in H. exact (nth_error_seqZ _ _ _ H). Qed.

  Lemma sl_nth : forall sh, (sh < n)%nat -> exists k shc,
    nth_error sl sh = Some (Z.of_nat sh, (k, shc)) /\ In (k, shc) (p_shards p) /\
    parse_usize k = Some (Z.of_nat sh) /\ shard_validate shc = true.
  Proof.
    intros sh H. rewrite <- sl_length in H. apply nth_error_Some in H.
    destruct (nth_error sl sh) as [[z [k shc]]|] eqn:E; [|congruence].
    pose proof (sl_fst _ _ E) as Z0. cbn [fst] in Z0. subst z.
    pose proof (nth_error_In _ _ E) as Hin.
    destruct (proj1 (Forall_forall _ _) KEYS _ Hin) as [P V].
    exists k, shc. repeat split; try assumption.
    apply (Permutation_in _ PERM). exact (in_map snd _ _ Hin).
  Qed.

  Lemma explicit_indexed : indexed (mk_pool c p u) bp.
  Proof.
    split; try reflexivity. intros sh row H. cbn [bp explicit bp_addresses] in H. rewrite nth_error_map in H.
    destruct (nth_error sl sh) as [zk|] eqn:E; [|discriminate]. injection H as <-.
    destruct (proj1 (Forall_forall _ _) KEYS _ (nth_error_In _ _ E)) as [_ V].
    unfold row_of. rewrite (sl_fst _ _ E). split.
    - destruct (shard_validate_inv _ V) as [NEs _].
      destruct (sh_servers (snd (snd zk))); [congruence|cbn [build_servers]; discriminate].
    - intros i a Hi. destruct (build_servers_nth _ _ _ _ _ _ _ Hi) as [H1 [H2 _]]. split; [exact H1|exact H2].
  Qed.

  Lemma ex_candidates : forall sh k shc r, nth_error sl sh = Some (Z.of_nat sh, (k, shc)) ->
    map server_of (candidates bp (Z.of_nat sh) r) = filter (fun sv => role_matches r (sv_role sv)) (sh_servers shc).
  Proof.
    intros sh k shc r E. unfold candidates. rewrite filter_comm, (ix_filter_shard _ _ explicit_indexed).
    cbn [bp explicit bp_addresses]. rewrite (nth_error_nth _ _ _ (map_nth_error row_of _ _ E)).
    apply build_servers_role.
  Qed.

  Lemma ex_mirrors : forall sh k shc, nth_error sl sh = Some (Z.of_nat sh, (k, shc)) ->
    In (k, shc) (p_shards p) -> shard_validate shc = true ->
    forall j m, nth_error (sh_mirrors shc) j = Some m ->
      exists a, address_at bp sh (Z.to_nat (mi_target m)) = Some a /\
        In {| ma_host := mi_host m; ma_port := mi_port m; ma_role := a_role a; ma_index := j;
              ma_replica_number := a_replica_number a; ma_shard := Z.of_nat sh |} (a_mirrors a).
  Proof.
    intros sh k shc E HinP V j m Hm. pose proof (nth_error_In _ _ Hm) as Hmi.
    destruct (shard_validate_inv shc V) as [_ [_ [_ [_ UB]]]]. specialize (UB m Hmi).
    assert (LB : 0 <= mi_target m).
    { apply (proj1 (Forall_forall _ _) (proj1 (Forall_forall _ _) MT _ HinP)). exact Hmi. }
    destruct (build_servers_mirror_at (Z.of_nat sh) (sh_mirrors shc) (sh_servers shc) j m Hm (conj LB UB)) as [a [A M]].
    exists a. split; [|exact M].
    unfold address_at. cbn [bp explicit bp_addresses]. rewrite (map_nth_error row_of _ _ E). exact A.
  Qed.

  Lemma explicit_settings : builder_check c p u = None -> settings_ok c p u bp.
  Proof.
    intro BC. unfold settings_ok. cbn [bp explicit bp_pool_mode bp_plugins bp_user_cfg bp_pool_size bp_auto_key bp_parser bp_rw_split bp_databases].
    repeat (split; [reflexivity|]).
    intros row b Hrow Hb. apply in_map_iff in Hrow. destruct Hrow as [r0 [E _]]. subst row.
    apply in_map_iff in Hb. destruct Hb as [a [E _]]. subst b.
    cbn [mk_pool b_max_size b_min_idle b_connect_timeout b_idle_timeout b_max_lifetime].
    unfold builder_check in BC.
    apply if_some_inv in BC as [E0 BC]. apply if_some_inv in BC as [E1 BC].
    apply if_some_inv in BC as [E2 BC]. apply if_some_inv in BC as [E3 BC].
    apply Z.eqb_neq in E0, E1, E2, E3.
    repeat (split; [first [reflexivity|assumption]|]).
    split; [|repeat split; assumption].
    intros m Hm. rewrite Hm in BC. destruct (u_pool_size u <? m) eqn:L; [discriminate|]. apply Z.ltb_ge in L. exact L.
  Qed.

  Lemma explicit_servable : servable p bp.
  Proof.
    pose proof explicit_indexed as IX.
    assert (L : length (bp_addresses bp) = n) by (cbn [bp explicit bp_addresses]; rewrite map_length; exact sl_length).
    assert (S : shards bp = n) by (rewrite (ix_shards _ _ IX); exact L).
    unfold servable. fold n.
    split; [exact NE|]. split; [exact S|]. split; [reflexivity|].
    split; [exact (ix_indices_ok _ _ IX)|]. split; [exact (ix_address_at _ _ IX)|].
    split; [rewrite <- L; exact (ix_first _ _ IX)|]. split; [exact (ix_by_address _ _ IX)|]. split.
    { intros sh H. destruct (sl_nth sh H) as [k [shc [E [HinP [P V]]]]].
      exists k, shc. split; [exact HinP|]. split; [exact P|]. split; [|exact (ex_mirrors sh k shc E HinP V)].
      intro r. split; [exact (ex_candidates sh k shc r E)|].
      apply get_candidates_shard. rewrite S. lia. }
    split; [rewrite <- S; apply get_candidates_refused|]. split; [reflexivity|exact (ix_get_default _ _ IX n L DS)].
  Qed.
End Explicit.

Lemma eff_nonzero : forall u p g, is_some_zero u = false -> is_some_zero p = false -> (g =? 0) = false -> (eff u p g =? 0) = false.
Proof. intros [u|] [p|] g; cbn; intros; assumption. Qed.

Lemma role_setting_of_ok : forall s, role_setting_ok s = true -> exists dr, role_setting s = Some dr.
Proof.
  unfold role_setting_ok, role_setting. intros s H.
  destruct (str_eqb s s_any); [eauto|]. destruct (str_eqb s s_replica); [eauto|].
  destruct (str_eqb s s_primary); [eauto|]. discriminate.
Qed.

Lemma builder_check_none : forall c p u, general_ok c ->
  is_some_zero (p_connect_timeout p) = false /\ is_some_zero (p_idle_timeout p) = false /\
  is_some_zero (p_server_lifetime p) = false ->
  user_validate u = true -> builder_check c p u = None.
Proof.
  intros c p u [G1 [G2 G3]] [P1 [P2 P3]] U. destruct (user_validate_facts u U) as [U0 [U1 [U2 [U3 U4]]]].
  unfold builder_check. rewrite U0.
  rewrite (eff_nonzero _ _ _ U1 P1 G1), (eff_nonzero _ _ _ U2 P2 G2), (eff_nonzero _ _ _ U3 P3 G3).
  destruct (u_min_pool_size u); [rewrite U4|]; reflexivity.
Qed.

(* after the repair of is_auth_query_configured the unwraps of auth_passthrough.rs:29 are guarded
   by the very condition they need *)
Lemma auth_check_none : forall p, auth_check p = None.
Proof.
  intro p. unfold auth_check, is_auth_query_configured.
  destruct (p_auth_query p && p_auth_user p && p_auth_password p); reflexivity.
Qed.

Lemma build_pool_user_ok : forall c p u, general_ok c -> pool_validate p = true -> small_pool p ->
  typed_pool p -> user_validate u = true ->
  exists sl dr, build_pool_user c p u = Built (explicit c p u sl dr) /\
    servable p (explicit c p u sl dr) /\ settings_ok c p u (explicit c p u sl dr).
Proof.
  intros c p u G V S [T1 T2] U. pose proof (pool_validate_inv p V) as PV.
  destruct (sorted_keys p V S) as [kl [K [L [FST [KEYS PERM]]]]].
  destruct (role_setting_of_ok _ (pv_role _ PV)) as [dr DR].
  destruct (pv_regex _ PV) as [RX1 RX2].
  pose proof (builder_check_none c p u G (pv_timeouts _ PV) U) as BC.
  exists (isort_by kl), dr. split; [|split].
  - unfold build_pool_user, server_check.
    rewrite K, auth_check_none, BC, (build_shards_ok _ KEYS), DR, RX1, RX2.
    unfold explicit. rewrite L. reflexivity.
  - apply explicit_servable; try assumption; [exact (pv_nonempty _ PV)|].
    pose proof (pv_default_shard _ PV) as D.
    destruct (p_default_shard p); [split; assumption|exact I|exact I].
  - apply explicit_settings. exact BC.
Qed.

(** The whole configuration: [build_users] and [build_pools] insert the (pool, user) builds in order. *)
Definition has_id (db usr : str) (bp : built) : Prop := bp_db bp = db /\ bp_user bp = usr.
Definition covers (m : list built) (db usr : str) : Prop := exists x, In x m /\ has_id db usr x.

(* an insertion replaces the entry with the same identifier: identifiers are never lost *)
Lemma insert_pool_covers : forall b acc db usr,
  covers acc db usr \/ has_id db usr b -> covers (insert_pool b acc) db usr.
Proof.
  intros b acc db usr H.
  assert (Hb : has_id db usr b -> covers (insert_pool b acc) db usr).
  { intro I. exists b. split; [|exact I]. apply in_or_app. right. left. reflexivity. }
  destruct H as [[x [Hin Hid]]|Hid]; [|exact (Hb Hid)].
  destruct (same_id b x) eqn:E.
  - apply Hb. unfold same_id in E. apply andb_true_iff in E. destruct E as [E1 E2].
    apply str_eqb_eq in E1. apply str_eqb_eq in E2. destruct Hid as [I1 I2]. split; congruence.
  - exists x. split; [|exact Hid]. apply in_or_app. left.
    apply filter_In. split; [exact Hin|]. rewrite E. reflexivity.
Qed.

Definition inserts (bps acc : list built) : list built := fold_left (fun m b => insert_pool b m) bps acc.

Lemma inserts_spec : forall bps acc,
  (forall bp, In bp (inserts bps acc) -> In bp acc \/ In bp bps) /\
  (forall db usr, covers acc db usr \/ covers bps db usr -> covers (inserts bps acc) db usr).
Proof.
  induction bps as [|b r IH]; intro acc; cbn [inserts fold_left].
  - split; [intros bp H; left; exact H|]. intros db usr [H|[x [[] _]]]. exact H.
  - destruct (IH (insert_pool b acc)) as [I C]. split.
    + intros bp H. destruct (I bp H) as [H1|H1]; [|right; right; exact H1].
      apply in_app_or in H1. destruct H1 as [H1|[<-|[]]]; [left|right; left; reflexivity].
      exact (proj1 (proj1 (filter_In _ _ _) H1)).
    + intros db usr H. apply C. destruct H as [H|[x [[<-|Hx] Hid]]].
      * left. apply insert_pool_covers. left. exact H.
      * left. apply insert_pool_covers. right. exact Hid.
      * right. exists x. split; assumption.
Qed.

Definition user_builds (c : config) (p : pool) (us : list (str * user)) : list built :=
  flat_map (fun ku => match build_pool_user c p (snd ku) with Built b => [b] | Panics _ => [] end) us.
Definition pool_builds (c : config) (ps : list pool) : list built :=
  flat_map (fun p => user_builds c p (p_users p)) ps.

Lemma in_pool_builds : forall c ps bp, In bp (pool_builds c ps) <->
  exists p ku, In p ps /\ In ku (p_users p) /\ build_pool_user c p (snd ku) = Built bp.
Proof.
  intros c ps bp. unfold pool_builds, user_builds. rewrite in_flat_map. split.
  - intros [p [Hp H]]. apply in_flat_map in H. destruct H as [ku [Hku H]].
    destruct (build_pool_user c p (snd ku)) as [b|] eqn:E; [destruct H as [<-|[]]; eauto|destruct H].
  - intros [p [ku [Hp [Hku E]]]]. exists p. split; [exact Hp|]. apply in_flat_map.
    exists ku. split; [exact Hku|]. rewrite E. left. reflexivity.
Qed.

Lemma build_users_inserts : forall c p us acc,
  (forall ku, In ku us -> exists bp, build_pool_user c p (snd ku) = Built bp) ->
  build_users c p us acc = Built (inserts (user_builds c p us) acc).
Proof.
  intros c p us. induction us as [|ku r IH]; intros acc B; cbn [build_users user_builds flat_map]; [reflexivity|].
  destruct (B ku (or_introl eq_refl)) as [b ->]. apply IH. intros k Hk. exact (B k (or_intror Hk)).
Qed.

Lemma build_pools_inserts : forall c ps acc,
  (forall p ku, In p ps -> In ku (p_users p) -> exists bp, build_pool_user c p (snd ku) = Built bp) ->
  build_pools c ps acc = Built (inserts (pool_builds c ps) acc).
Proof.
  intros c ps. induction ps as [|p r IH]; intros acc B; cbn [build_pools pool_builds flat_map]; [reflexivity|].
  rewrite (build_users_inserts c p _ acc (fun ku => B p ku (or_introl eq_refl))).
  unfold inserts. rewrite fold_left_app. apply IH. intros q ku Hq. exact (B q ku (or_intror Hq)).
Qed.

(** [fill_up c] / [fill_pool c p] stand where [from_config] reads them; [servable] and
    [settings_ok] are stated over [c] / [p] (see [accept_inv]). *)
Lemma accepted_pool_user : forall c p ku, accept c = true -> small c -> typed c ->
  In p (c_pools c) -> In ku (p_users p) ->
  exists sl dr, let bp := explicit (fill_up c) (fill_pool c p) (snd ku) sl dr in
    build_pool_user (fill_up c) (fill_pool c p) (snd ku) = Built bp /\
    servable p bp /\ settings_ok c p (snd ku) bp /\ has_secret (fill_pool c p) (snd ku) = true.
Proof.
  intros c p ku A S T Hp Hku. destruct (accept_inv c A) as [_ [G [_ P]]]. destruct (P p Hp) as [AB V].
  destruct (build_pool_user_ok (fill_up c) (fill_pool c p) (snd ku) G V
              (proj1 (Forall_forall _ _) S p Hp) (proj1 (Forall_forall _ _) T p Hp)
              (pv_users _ (pool_validate_inv p V) ku Hku)) as [sl [dr [B [SV ST]]]].
  exists sl, dr. split; [exact B|]. split; [exact SV|]. split; [exact ST|].
  unfold has_secret. rewrite <- orb_assoc, (pool_auth_secret (fill_pool c p) ku AB Hku). apply orb_true_r.
Qed.

Theorem accepted_servable : forall c, accept c = true -> small c -> typed c ->
  exists pools, build c = Built pools /\
    (forall bp, In bp pools -> good c bp) /\
    (forall p ku, In p (c_pools c) -> In ku (p_users p) ->
       exists bp, In bp pools /\ bp_db bp = p_name p /\ bp_user bp = u_name (snd ku)).
Proof.
  intros c A S T. pose proof (fun p ku => accepted_pool_user c p ku A S T) as OK.
  exists (inserts (pool_builds (fill_up c) (c_pools (fill_up c))) []).
  destruct (inserts_spec (pool_builds (fill_up c) (c_pools (fill_up c))) []) as [I C].
  split; [|split].
  - apply build_pools_inserts. intros p' ku Hp' Hku. apply in_map_iff in Hp'. destruct Hp' as [p [<- Hp]].
    destruct (OK p ku Hp Hku) as [sl [dr [B _]]]. eauto.
  - intros bp Hbp. destruct (I bp Hbp) as [[]|H]. apply in_pool_builds in H. destruct H as [p' [ku [Hp' [Hku B]]]].
    apply in_map_iff in Hp'. destruct Hp' as [p [<- Hp]].
    destruct (OK p ku Hp Hku) as [sl [dr [B' G]]]. rewrite B' in B. injection B as <-.
    exists p, ku. split; [exact Hp|]. split; [exact Hku|]. do 2 (split; [reflexivity|]). exact G.
  - intros p ku Hp Hku. destruct (OK p ku Hp Hku) as [sl [dr [B _]]].
    destruct (C (p_name p) (u_name (snd ku))) as [x [Hx [Hd Hu]]]; [|eauto].
    right. exists (explicit (fill_up c) (fill_pool c p) (snd ku) sl dr). split; [|split; reflexivity].
    apply in_pool_builds. exists (fill_pool c p), ku. split; [apply in_map; exact Hp|]. split; [exact Hku|exact B].
Qed.

Lemma built_good : forall c pools, accept c = true -> small c -> typed c -> build c = Built pools ->
  forall bp, In bp pools -> good c bp.
Proof.
  intros c pools A S T B bp Hbp. destruct (accepted_servable c A S T) as [pools' [B' [G _]]].
  rewrite B in B'. injection B' as <-. exact (G bp Hbp).
Qed.

(* [key_eqb] of Defaults.v is [str_eqb] written a second time: the two unfold to the same fixpoint *)
Lemma key_eqb_refl : forall k, key_eqb k k = true.
Proof. exact str_eqb_refl. Qed.

Lemma key_eqb_eq : forall a b, key_eqb a b = true -> a = b.
Proof. intros a b. apply (str_eqb_eq a b). Qed.

(** Defaults: the parsed value of an option is the file's, else the table's. *)
Lemma lookup_overlay : forall file defaults k d, lookup k defaults = Some d ->
  lookup k (overlay file defaults) = Some (match lookup k file with Some v => v | None => d end).
Proof.
  intros file defaults k. induction defaults as [|[k' d'] r IH]; intros d H; cbn [lookup overlay map fst snd] in *; [discriminate|].
  destruct (key_eqb k k') eqn:E.
  - apply key_eqb_eq in E. subst k'. inversion H; subst. reflexivity.
  - apply IH. exact H.
Qed.

