(** C09 — the property theorems, proved from the lemmas of coq/Auth/Proofs.v (a theorem that is used
    again there is proved there and closed here by [exact]) and audited with [Print Assumptions]; the
    digest [md5] and the build mode [chk] are universally quantified everywhere.  The examples at the
    end run the model on concrete byte streams with the RFC 1321 instance of coq/Auth/Md5.v and with
    a toy digest. *)
From Coq Require Import ZArith NArith List Bool Lia.
From PV Require Import Auth.Model Auth.Spec Auth.Proofs Auth.Md5.
Import ListNotations.
Open Scope Z_scope.

(** A client is admitted to a pool only if the (database, user) pair is configured, pgcat is not
    shutting down, and - unless the served entry is a trust entry - the PasswordMessage it sent
    carries PostgreSQL's MD5 answer, for the salt issued on this connection, to a secret pgcat
    holds for that user (configured cleartext password / auth_query hash). *)
Theorem c09_admit_sound : forall md5 chk c sd salt payload rest e db name,
  out (startup md5 chk c sd salt payload rest e) = PoolAdmitted db name ->
  ident payload = IdOk name db /\ sd = false /\ is_admin_db db = false /\ configured c db name /\
  (trust c db name \/
   exists body tail s, read_password chk rest = PwOk body tail /\
     secret_of c e db name s /\ body = expected md5 name s salt).
Proof. exact admit_sound. Qed.
Print Assumptions c09_admit_sound.

(** ... stated on the bytes of the stream: what follows the startup packet IS the frame
    'p' len answer, with answer = pg_md5 for a secret of the user. *)
Theorem c09_admit_sound_frame : forall md5 chk c sd salt payload rest e db name,
  Forall byte_ok (firstn 5 rest) ->
  out (startup md5 chk c sd salt payload rest e) = PoolAdmitted db name ->
  configured c db name /\
  (trust c db name \/
   exists s tail, secret_of c e db name s /\ rest = password_frame (expected md5 name s salt) ++ tail).
Proof.
  intros md5 chk c sd salt payload rest e db name Hb H.
  destruct (admit_sound _ _ _ _ _ _ _ _ _ _ H) as (_ & _ & _ & Hc & [Ht|(body & tail & s & Hr & Hs & He)]).
  - auto.
  - split; [assumption|]. right. exists s, tail. split; [assumption|]. subst body.
    apply (read_password_ok_inv chk); assumption.
Qed.
Print Assumptions c09_admit_sound_frame.

(** The admin database requires the admin credentials (or admin_auth_type = trust). *)
Theorem c09_admin_sound : forall md5 chk c sd salt payload rest e,
  out (startup md5 chk c sd salt payload rest e) = AdminAdmitted ->
  exists name db, ident payload = IdOk name db /\ is_admin_db db = true /\
    (admin_auth c = Trust \/
     exists body tail, read_password chk rest = PwOk body tail /\
       body = pg_md5 md5 (admin_user c) (admin_password c) salt).
Proof. exact admin_sound. Qed.
Print Assumptions c09_admin_sound.

(** Whatever the client sends on the connection (plain, or after an SSLRequest): if it is not
    admitted it never receives AuthenticationOk - only the answer to SSLRequest, the MD5 request,
    an ErrorResponse and the ReadyForQuery that follows it. *)
Theorem c09_no_authok_before : forall md5 chk c sd salt stream e,
  let r := entry md5 chk c sd salt stream e in
  is_admitted (out r) = false -> ~ In RAuthOk (replies r) /\ forallb refusal_reply (replies r) = true.
Proof. exact no_authok_before. Qed.
Print Assumptions c09_no_authok_before.

(** ... and if it is admitted, AuthenticationOk, ParameterStatus*, BackendKeyData, ReadyForQuery
    come last, preceded only by challenges. *)
Theorem c09_authok_after_challenges_only : forall md5 chk c sd salt stream e,
  let r := entry md5 chk c sd salt stream e in
  is_admitted (out r) = true ->
  exists pre, replies r = pre ++ [RAuthOk; RParamStatuses; RBackendKeyData; RReadyForQuery] /\
              forallb pre_auth_reply pre = true.
Proof. exact authok_after_challenges_only. Qed.
Print Assumptions c09_authok_after_challenges_only.

(** Every well-framed answer other than the MD5 answers for the user's secrets is refused. *)
Theorem c09_wrong_response_rejected : forall md5 chk c salt payload rest e name db p u body tail,
  user_login c payload name db p u ->
  rest = password_frame body ++ tail -> blen body + 4 < 2147483648 ->
  (forall s, secret_of c e db name s -> body <> expected md5 name s salt) ->
  let r := startup md5 chk c false salt payload rest e in
  exists w, out r = Rejected w /\
    (w = WInvalidPassword \/ w = WRefetchFailed \/ w = WPassthrough \/ w = WAuthImpossible) /\
    replies r = [RMd5Request salt; RError (EWrongPassword name)].
Proof. exact wrong_response_rejected. Qed.
Print Assumptions c09_wrong_response_rejected.

Theorem c09_wrong_admin_response_rejected : forall md5 chk c sd salt payload rest e name db body tail,
  admin_login c payload name db ->
  rest = password_frame body ++ tail -> blen body + 4 < 2147483648 ->
  body <> pg_md5 md5 (admin_user c) (admin_password c) salt ->
  let r := startup md5 chk c sd salt payload rest e in
  out r = Rejected WInvalidPassword /\ replies r = [RMd5Request salt; RError (EWrongPassword name)].
Proof.
  intros md5 chk c sd salt payload rest e name db body tail Hl -> Hb Hne r. subst r.
  rewrite (startup_admin _ _ _ _ _ _ _ _ _ _ Hl).
  pose proof (admin_md5_cases md5 chk c e name salt (password_frame body ++ tail)) as H. cbv zeta in H.
  rewrite read_password_frame in H by assumption. rewrite hash_password_eq in H.
  destruct H as [[Hx _]|[_ ->]]; [contradiction|auto].
Qed.
Print Assumptions c09_wrong_admin_response_rejected.

(** Truncated, extended and replayed answers (exact Vec<u8> equality including the terminator). *)
Theorem c09_truncated_rejected : forall md5 chk c salt payload e name db p u pw k tail,
  user_login c payload name db p u -> cleartext_only p u pw ->
  (k < length (pg_md5 md5 name pw salt))%nat -> blen (pg_md5 md5 name pw salt) + 4 < 2147483648 ->
  let r := startup md5 chk c false salt payload (password_frame (firstn k (pg_md5 md5 name pw salt)) ++ tail) e in
  exists w, out r = Rejected w /\ replies r = [RMd5Request salt; RError (EWrongPassword name)].
Proof.
  intros md5 chk c salt payload e name db p u pw k tail Hl Hc Hk Hb.
  apply (cleartext_wrong_rejected md5 chk c salt payload e name db p u pw _ tail Hl Hc);
    [apply length_neq; rewrite firstn_length; lia|unfold blen in *; rewrite firstn_length; lia].
Qed.
Print Assumptions c09_truncated_rejected.

Theorem c09_extended_rejected : forall md5 chk c salt payload e name db p u pw extra tail,
  user_login c payload name db p u -> cleartext_only p u pw ->
  extra <> [] -> blen (pg_md5 md5 name pw salt ++ extra) + 4 < 2147483648 ->
  let r := startup md5 chk c false salt payload (password_frame (pg_md5 md5 name pw salt ++ extra) ++ tail) e in
  exists w, out r = Rejected w /\ replies r = [RMd5Request salt; RError (EWrongPassword name)].
Proof.
  intros md5 chk c salt payload e name db p u pw extra tail Hl Hc Hx Hb.
  apply (cleartext_wrong_rejected md5 chk c salt payload e name db p u pw _ tail Hl Hc); [|exact Hb].
  apply length_neq. rewrite app_length. destruct extra; [contradiction|cbn; lia].
Qed.
Print Assumptions c09_extended_rejected.

(** The right answer to ANOTHER salt is refused, provided the digest separates the two inputs it
    is applied to (the only property of MD5 used anywhere) and returns bytes. *)
Theorem c09_replay_rejected : forall md5 chk c salt salt' payload e name db p u pw tail,
  user_login c payload name db p u -> cleartext_only p u pw ->
  (forall x, Forall byte_ok (md5 x)) ->
  md5 (pg_shadow_hash md5 name pw ++ salt') <> md5 (pg_shadow_hash md5 name pw ++ salt) ->
  blen (pg_md5 md5 name pw salt') + 4 < 2147483648 ->
  let r := startup md5 chk c false salt payload (password_frame (pg_md5 md5 name pw salt') ++ tail) e in
  exists w, out r = Rejected w /\ replies r = [RMd5Request salt; RError (EWrongPassword name)].
Proof.
  intros md5 chk c salt salt' payload e name db p u pw tail Hl Hc Hbytes Hne Hb.
  apply (cleartext_wrong_rejected md5 chk c salt payload e name db p u pw _ tail Hl Hc); [|assumption].
  apply other_salt_other_answer; auto.
Qed.
Print Assumptions c09_replay_rejected.

(** Any first byte other than 'p' where the PasswordMessage is expected: refused, silently. *)
Theorem c09_not_p_rejected : forall md5 chk c sd salt payload e name db code r0,
  code <> 112%N ->
  ((exists p u, sd = false /\ user_login c payload name db p u) \/ admin_login c payload name db) ->
  let r := startup md5 chk c sd salt payload (code :: r0) e in
  out r = Rejected (WExpectedP code) /\ replies r = [RMd5Request salt] /\ events r = [].
Proof.
  intros md5 chk c sd salt payload e name db code r0 Hc [(p & u & -> & Hl)|Hl] r; subst r.
  - rewrite (startup_user _ _ _ _ _ _ _ _ _ _ _ Hl). unfold user_md5. rewrite read_password_not_p by assumption. auto.
  - rewrite (startup_admin _ _ _ _ _ _ _ _ _ _ Hl). unfold admin_md5. rewrite read_password_not_p by assumption. auto.
Qed.
Print Assumptions c09_not_p_rejected.

Theorem c09_silent_rejected : forall md5 chk c sd salt payload e name db,
  ((exists p u, sd = false /\ user_login c payload name db p u) \/ admin_login c payload name db) ->
  let r := startup md5 chk c sd salt payload [] e in
  out r = Rejected (WSocket 0) /\ replies r = [RMd5Request salt] /\ events r = [].
Proof.
  intros md5 chk c sd salt payload e name db [(p & u & -> & Hl)|Hl] r; subst r.
  - rewrite (startup_user _ _ _ _ _ _ _ _ _ _ _ Hl). unfold user_md5. rewrite read_password_eof. auto.
  - rewrite (startup_admin _ _ _ _ _ _ _ _ _ _ Hl). unfold admin_md5. rewrite read_password_eof. auto.
Qed.
Print Assumptions c09_silent_rejected.

(** A declared PasswordMessage length below 4 (0..3, negative) panics the client's task - in a
    build without overflow checks except for i32::MIN..i32::MIN+3 - and never admits. *)
Theorem c09_short_len_panics : forall md5 chk c sd salt payload e name db a b c0 d r0,
  i32_of a b c0 d < 4 -> (chk = true \/ -2147483644 <= i32_of a b c0 d) ->
  ((exists p u, sd = false /\ user_login c payload name db p u) \/ admin_login c payload name db) ->
  let r := startup md5 chk c sd salt payload (112%N :: a :: b :: c0 :: d :: r0) e in
  out r = TaskPanic /\ replies r = [RMd5Request salt] /\ events r = [].
Proof.
  intros md5 chk c sd salt payload e name db a b c0 d r0 Hlen Hchk [(p & u & -> & Hl)|Hl] r; subst r.
  - rewrite (startup_user _ _ _ _ _ _ _ _ _ _ _ Hl). unfold user_md5. rewrite read_password_short_len by assumption. auto.
  - rewrite (startup_admin _ _ _ _ _ _ _ _ _ _ Hl). unfold admin_md5. rewrite read_password_short_len by assumption. auto.
Qed.
Print Assumptions c09_short_len_panics.

Theorem c09_short_len_never_admits : forall md5 chk c sd salt payload e a b c0 d r0,
  (forall x, blen (md5 x) < 1000000000) ->
  i32_of a b c0 d < 4 ->
  (forall name db, ident payload = IdOk name db -> is_admin_db db = false -> ~ trust c db name) ->
  (forall name db, ident payload = IdOk name db -> is_admin_db db = true -> admin_auth c = MD5) ->
  is_admitted (out (startup md5 chk c sd salt payload (112%N :: a :: b :: c0 :: d :: r0) e)) = false.
Proof.
  intros md5 chk c sd salt payload e a b c0 d r0 Hmd Hlen Hnt Had.
  pose proof (read_password_wrapped chk a b c0 d r0 Hlen) as Hw.
  (* every answer is 3 + 2 * digest length + 1 bytes long, far below the 2 GiB a wrapped length asks for *)
  assert (Hexp : forall n s, blen (expected md5 n s salt) < 2147483644).
  { assert (Hh : forall l, length (pg_hex l) = (2 * length l)%nat).
    { induction l as [|x l IH]; [reflexivity|]. cbn [pg_hex flat_map app length] in *. unfold pg_hex in IH. rewrite IH. lia. }
    assert (H2 : forall h, blen (pg_md5_of_shadow md5 h salt) < 2147483644).
    { intro h. unfold pg_md5_of_shadow, blen. rewrite !app_length. cbn [length]. rewrite Hh.
      specialize (Hmd (h ++ salt)). unfold blen in Hmd. lia. }
    intros n [pw|h]; apply H2. }
  destruct (out (startup md5 chk c sd salt payload (112%N :: a :: b :: c0 :: d :: r0) e)) as [db name| | | |] eqn:Ho; try reflexivity; exfalso.
  - apply admit_sound in Ho. destruct Ho as (Hi & _ & Ha & _ & [Ht|(body & tail & s & Hr & _ & ->)]).
    + exact (Hnt _ _ Hi Ha Ht).
    + rewrite Hr in Hw. specialize (Hexp name s). lia.
  - apply admin_sound in Ho. destruct Ho as (name & db & Hi & Ha & [Ht|(body & tail & Hr & ->)]).
    + rewrite (Had _ _ Hi Ha) in Ht. discriminate.
    + rewrite Hr in Hw. specialize (Hexp (admin_user c) (Clear (admin_password c))). cbn [expected] in Hexp. lia.
Qed.
Print Assumptions c09_short_len_never_admits.

(** Whatever the startup packet contains, Client::startup panics only on a PasswordMessage length
    (the unterminated-parameter panic of parse_params is gone since 5c1953d). *)
Theorem c09_startup_panic_only_password_len : forall md5 chk c sd salt payload rest e,
  out (startup md5 chk c sd salt payload rest e) = TaskPanic -> read_password chk rest = PwPanic.
Proof.
  intros md5 chk c sd salt payload rest e H.
  pose proof (startup_verdict_holds md5 chk c sd salt payload rest e) as V. unfold startup_verdict in V. rewrite H in V.
  apply V.
Qed.
Print Assumptions c09_startup_panic_only_password_len.

(** While shutting down every non-admin login is refused with the administrator-command error,
    before any lookup, challenge or server contact. *)
Theorem c09_shutdown_gate : forall md5 chk c salt payload rest e name db,
  ident payload = IdOk name db -> is_admin_db db = false ->
  startup md5 chk c true salt payload rest e = mk (Rejected WShuttingDown) [RError EAdminOnly] [] (cached e).
Proof. exact shutdown_gate. Qed.
Print Assumptions c09_shutdown_gate.

Theorem c09_shutdown_no_pool_admission : forall md5 chk c salt stream e db name,
  out (entry md5 chk c true salt stream e) <> PoolAdmitted db name.
Proof.
  intros md5 chk c salt stream e db name H.
  destruct (startup_packet_of c e stream) as [[[pre payload] rest]|] eqn:Hp.
  - destruct (entry_via_startup md5 chk c true salt stream e _ _ _ Hp) as (_ & Ho & _). rewrite Ho in H.
    apply admit_sound in H. destruct H as (_ & Hsd & _). discriminate.
  - destruct (entry_without_startup_packet md5 chk c true salt stream e Hp) as (Ho & _). rewrite H in Ho. discriminate.
Qed.
Print Assumptions c09_shutdown_no_pool_admission.

(** admin_only on EVERY path of client_entrypoint: whichever way the startup packet arrives (directly, after a
    declined SSLRequest, inside an accepted TLS session) and whatever it and the rest of the stream contain, a
    non-admin startup is refused with the administrator-command error before any challenge, lookup or server
    contact; only what client_entrypoint said about TLS ('S' / 'N') precedes the error. *)
Theorem c09_admin_only_refuses_all_paths : forall md5 chk c salt stream e pre payload rest name db,
  startup_packet_of c e stream = Some (pre, payload, rest) ->
  ident payload = IdOk name db -> is_admin_db db = false ->
  let r := entry md5 chk c true salt stream e in
  out r = Rejected WShuttingDown /\ replies r = pre ++ [RError EAdminOnly] /\ events r = [] /\ cache' r = cached e.
Proof.
  intros md5 chk c salt stream e pre payload rest name db Hp Hi Ha r. subst r.
  destruct (entry_via_startup md5 chk c true salt stream e pre payload rest Hp) as (_ & H1 & H2 & H3 & H4).
  rewrite (shutdown_gate md5 chk c salt payload rest e name db Hi Ha) in *. cbn in *. auto.
Qed.
Print Assumptions c09_admin_only_refuses_all_paths.

(** Conversely, for every byte stream: while admin_only, a challenge or an admission happens only for a startup
    packet naming an admin database. *)
Theorem c09_admin_only_serves_only_admin_db : forall md5 chk c salt stream e,
  let r := entry md5 chk c true salt stream e in
  (is_admitted (out r) = true \/ exists s, In (RMd5Request s) (replies r)) ->
  exists pre payload rest name db,
    startup_packet_of c e stream = Some (pre, payload, rest) /\ ident payload = IdOk name db /\ is_admin_db db = true.
Proof.
  intros md5 chk c salt stream e r H. subst r.
  destruct (startup_packet_of c e stream) as [[[pre payload] rest]|] eqn:Hp.
  2:{ exfalso. destruct (entry_without_startup_packet md5 chk c true salt stream e Hp) as (N1 & N2 & _).
      destruct H as [H|[s H]]; [rewrite N1 in H; discriminate|exact (tls_answer_no_challenge _ s N2 H)]. }
  destruct (entry_via_startup md5 chk c true salt stream e pre payload rest Hp) as (Hpre & H1 & H2 & _).
  (* a startup that names no admin database ends before any challenge *)
  assert (Hr0 : forall o rs, startup md5 chk c true salt payload rest e = mk o rs [] (cached e) ->
                is_admitted o = false -> (forall s, ~ In (RMd5Request s) rs) -> False).
  { intros o rs E Ho Hrs. rewrite E in *. cbn in *.
    destruct H as [H|[s H]]; [rewrite H1, Ho in H; discriminate|].
    rewrite H2 in H. apply in_app_or in H. destruct H as [H|H]; [exact (tls_answer_no_challenge _ s Hpre H)|exact (Hrs s H)]. }
  destruct (ident payload) as [name db| |] eqn:Hi.
  2,3: exfalso; unfold startup in Hr0; rewrite Hi in Hr0; exact (Hr0 _ _ eq_refl eq_refl (fun s Hx => Hx)).
  destruct (is_admin_db db) eqn:Ha; [exists pre, payload, rest, name, db; auto|].
  exfalso. apply (Hr0 _ _ (shutdown_gate md5 chk c salt payload rest e name db Hi Ha) eq_refl).
  intros s [Hx|[]]; discriminate.
Qed.
Print Assumptions c09_admin_only_serves_only_admin_db.

(** The admin database is served exactly as without admin_only. *)
Theorem c09_admin_only_admin_db_unaffected : forall md5 chk c salt payload rest e name db,
  ident payload = IdOk name db -> is_admin_db db = true ->
  startup md5 chk c true salt payload rest e = startup md5 chk c false salt payload rest e.
Proof.
  intros md5 chk c salt payload rest e name db Hi Ha. unfold startup. rewrite Hi, Ha. reflexivity.
Qed.
Print Assumptions c09_admin_only_admin_db_unaffected.

(** Until the decision, the only server contacts are the pooler's own (an auth_query fetch on a
    connection it opens itself, the pool's validation) for a configured pool; nothing carries client
    bytes ([EvClientBytes] is what Client::handle does after admission). *)
Theorem c09_preauth_no_server_contact : forall md5 chk c sd salt stream e,
  Forall (fun x => match x with EvClientBytes _ => False | EvAuthQuery d n | EvValidate d n => configured c d n end)
         (events (entry md5 chk c sd salt stream e)).
Proof.
  intros md5 chk c sd salt stream e.
  destruct (startup_packet_of c e stream) as [[[pre payload] rest]|] eqn:Hp.
  2:{ destruct (entry_without_startup_packet md5 chk c sd salt stream e Hp) as (_ & _ & ->). constructor. }
  destruct (entry_via_startup md5 chk c sd salt stream e _ _ _ Hp) as (_ & _ & _ & -> & _).
  pose proof (events_startup md5 chk c sd salt payload rest e) as H. cbv zeta in H.
  destruct (ident payload) as [n d| |]; try (rewrite H; constructor).
  destruct H as [H _]. eapply Forall_impl; [|exact H].
  intros [d' n'|d' n'|b] Hx; cbn in Hx; try contradiction.
  - destruct Hx as (-> & -> & p & u & Hsv & _). eapply served_configured; eassumption.
  - destruct Hx as (-> & -> & p & u & Hsv). eapply served_configured; eassumption.
Qed.
Print Assumptions c09_preauth_no_server_contact.

Theorem c09_preauth_events_of_startup : forall md5 chk c sd salt payload rest e,
  let r := startup md5 chk c sd salt payload rest e in
  match ident payload with
  | IdOk name db => Forall (event_ok c db name) (events r) /\ (is_admin_db db = true -> events r = [])
  | _ => events r = []
  end.
Proof. exact events_startup. Qed.
Print Assumptions c09_preauth_events_of_startup.

(** The configured password is accepted (the refusal theorems are not vacuous). *)
Theorem c09_correct_response_admitted : forall md5 chk c salt payload e name db p u pw tail,
  user_login c payload name db p u -> u_password u = Some pw ->
  blen (pg_md5 md5 name pw salt) + 4 < 2147483648 ->
  validated e = true \/ validate_ok e = true ->
  let r := startup md5 chk c false salt payload (password_frame (pg_md5 md5 name pw salt) ++ tail) e in
  out r = PoolAdmitted db name /\ exists pre, replies r = RMd5Request salt :: auth_tail /\ pre = [RMd5Request salt].
Proof. exact correct_response_admitted. Qed.
Print Assumptions c09_correct_response_admitted.

(** The first packet: a length below 4 panics the task before anything else happens; the task
    allocates len - 4 bytes (up to 2 GiB - 5) for an unauthenticated peer. *)
Theorem c09_first_packet_short_len_panics : forall md5 chk c sd salt a b c0 d r e, i32_of a b c0 d < 4 ->
  entry md5 chk c sd salt (a :: b :: c0 :: d :: r) e = mk TaskPanic [] [] (cached e).
Proof.
  intros. unfold entry. rewrite get_startup_short_len by assumption. reflexivity.
Qed.
Print Assumptions c09_first_packet_short_len_panics.

Theorem c09_first_packet_alloc_bound : forall a b c d r, byte_ok a -> byte_ok b -> byte_ok c -> byte_ok d ->
  0 <= startup_alloc (a :: b :: c :: d :: r) <= 2147483643.
Proof.
  intros a b c d r Ha Hb Hc Hd. unfold startup_alloc, byte_ok in *.
  cbv zeta. destruct (i32_of a b c d <? 4) eqn:E; [lia|]. apply Z.ltb_ge in E.
  unfold i32_of in *. cbv zeta in *. destruct (_ <? 2147483648) eqn:E2; [apply Z.ltb_lt in E2|apply Z.ltb_ge in E2]; lia.
Qed.
Print Assumptions c09_first_packet_alloc_bound.

(** Admission through client_entrypoint is admission through Client::startup on the startup
    packet found in the stream (directly, or after a refused / accepted SSLRequest). *)
Theorem c09_entry_admitted_via_startup : forall md5 chk c sd salt stream e,
  is_admitted (out (entry md5 chk c sd salt stream e)) = true ->
  exists payload rest, out (entry md5 chk c sd salt stream e) = out (startup md5 chk c sd salt payload rest e) /\
    (get_startup stream = GsOk CtStartup payload rest \/
     exists p0 r0, get_startup stream = GsOk CtTls p0 r0 /\ get_startup r0 = GsOk CtStartup payload rest /\
                   (tls c = true -> tls_ok e = true)).
Proof.
  intros md5 chk c sd salt stream e H. unfold entry in *.
  destruct (get_startup stream) as [[| |] payload rest| | |] eqn:Eg; try discriminate.
  - destruct (tls c) eqn:Et.
    + destruct (tls_ok e) eqn:Eo; [|discriminate].
      destruct (get_startup rest) as [[| |] p2 r2| | |] eqn:Eg2; try discriminate.
      exists p2, r2. split; [reflexivity|]. right. exists payload, rest. auto.
    + destruct (get_startup rest) as [[| |] p2 r2| | |] eqn:Eg2; try discriminate.
      exists p2, r2. split; [reflexivity|]. right. exists payload, rest. repeat split; auto. discriminate.
  - exists payload, rest. auto.
Qed.
Print Assumptions c09_entry_admitted_via_startup.

(** pgcat's md5_hash_password / md5_hash_second_pass are PostgreSQL's definitions, for any digest. *)
Theorem c09_md5_model_is_pg : forall md5 name pw salt, md5_hash_password md5 name pw salt = pg_md5 md5 name pw salt.
Proof. exact hash_password_eq. Qed.
Print Assumptions c09_md5_model_is_pg.

(** get_pool returns the served entry of the specification. *)
Theorem c09_lookup_is_served : forall c db name p u, get_pool c db name = Some (p, u) -> served c db name p u.
Proof. exact get_pool_served. Qed.
Print Assumptions c09_lookup_is_served.

Theorem c09_served_is_looked_up : forall c db name p u, served c db name p u -> get_pool c db name = Some (p, u).
Proof. exact served_get_pool. Qed.
Print Assumptions c09_served_is_looked_up.

(** ** Non-vacuity and specification validation (concrete runs, [vm_compute]) *)

Definition ex_cfg : cfg :=
  {| admin_user := [97;100;109;105;110]%N; admin_password := [97;100;109;105;110;112;119]%N; admin_auth := MD5;
     pools := [ {| p_name := [100;98;49]%N;
                   p_users := [ {| u_name := [97;108;105;99;101]%N; u_password := Some [97;112;119]%N; u_auth := MD5 |} ];
                   p_aq := false |} ];
     tls := false |}.
Definition ex_cfg_aq : cfg :=
  {| admin_user := [97;100;109;105;110]%N; admin_password := [97;100;109;105;110;112;119]%N; admin_auth := MD5;
     pools := [ {| p_name := [100;98;49]%N;
                   p_users := [ {| u_name := [97;108;105;99;101]%N; u_password := Some [97;112;119]%N; u_auth := MD5 |} ];
                   p_aq := true |} ];
     tls := false |}.
Definition ex_env : auth_env := {| cached := None; fetches := []; validated := false; validate_ok := true; tls_ok := true |}.
Definition ex_salt : bytes := [1;2;3;4]%N.
Definition ex_startup_alice_db1 : bytes := [0; 0; 0; 33; 0; 3; 0; 0; 117; 115; 101; 114; 0; 97; 108; 105; 99; 101; 0; 100; 97; 116; 97; 98; 97; 115; 101; 0; 100; 98; 49; 0; 0]%N.        (* user=alice database=db1 *)
Definition ex_startup_admin_db : bytes := [0; 0; 0; 37; 0; 3; 0; 0; 117; 115; 101; 114; 0; 119; 104; 111; 101; 118; 101; 114; 0; 100; 97; 116; 97; 98; 97; 115; 101; 0; 112; 103; 99; 97; 116; 0; 0]%N.         (* user=whoever database=pgcat *)
Definition alice : bytes := [97;108;105;99;101]%N.
Definition apw : bytes := [97;112;119]%N.
Definition db1 : bytes := [100;98;49]%N.

(** what pg_authid.rolpassword holds for user "alice" with password "apw", after the "md5" *)
Lemma alice_shadow : pg_shadow_hash md5 alice apw = [101; 53; 101; 101; 101; 100; 101; 48; 48; 55; 57; 102; 57; 50; 53; 50; 102; 52; 54; 55; 100; 101; 50; 57; 54; 50; 101; 53; 51; 54; 100; 99]%N.
Proof. unfold pg_shadow_hash. rewrite <- md5_fast_eq. vm_compute. reflexivity. Qed.

(** PostgreSQL's answer for user "alice", password "apw", salt 01 02 03 04, computed outside Coq
    (Python hashlib): the specification [pg_md5] with the RFC 1321 digest reproduces it. *)
Example pg_md5_vector : pg_md5 md5 alice apw ex_salt = [109; 100; 53; 51; 51; 57; 51; 50; 56; 54; 54; 101; 101; 56; 100; 52; 102; 102; 50; 57; 54; 57; 49; 97; 55; 54; 51; 99; 51; 54; 99; 100; 97; 98; 52; 0]%N.
Proof. unfold pg_md5. rewrite alice_shadow. unfold pg_md5_of_shadow. rewrite <- md5_fast_eq. vm_compute. reflexivity. Qed.

(** The other answers the runs below involve: alice's to another salt, the administrator's, and the one for a
    password hash held by the server. *)
Lemma pg_md5_other_salt : pg_md5 md5 alice apw [4;3;2;1]%N = [109; 100; 53; 101; 51; 52; 101; 56; 56; 57; 97; 101; 49; 57; 100; 100; 101; 48; 102; 52; 102; 99; 49; 57; 49; 97; 51; 49; 57; 51; 48; 57; 98; 51; 52; 0]%N.
Proof. unfold pg_md5. rewrite alice_shadow. unfold pg_md5_of_shadow. rewrite <- md5_fast_eq. vm_compute. reflexivity. Qed.
Lemma pg_md5_admin : pg_md5 md5 (admin_user ex_cfg) (admin_password ex_cfg) ex_salt = [109; 100; 53; 57; 51; 53; 56; 102; 100; 49; 53; 102; 48; 100; 56; 54; 50; 51; 55; 101; 48; 98; 52; 49; 56; 49; 51; 100; 55; 50; 57; 50; 98; 102; 50; 0]%N.
Proof. unfold pg_md5, pg_md5_of_shadow, pg_shadow_hash. rewrite <- !md5_fast_eq. vm_compute. reflexivity. Qed.
Lemma pg_md5_server_hash : pg_md5_of_shadow md5 [51; 55; 50; 51; 97; 57; 55; 55; 56; 53; 99; 49; 49; 102; 97; 54; 101; 56; 56; 98; 48; 102; 102; 98; 99; 57; 98; 54; 48; 54; 57; 54]%N ex_salt = [109; 100; 53; 99; 57; 102; 102; 99; 101; 51; 97; 53; 50; 49; 52; 56; 48; 52; 49; 97; 57; 98; 55; 98; 102; 48; 100; 102; 55; 57; 51; 53; 101; 53; 52; 0]%N.
Proof. unfold pg_md5_of_shadow. rewrite <- md5_fast_eq. vm_compute. reflexivity. Qed.

(** MD5 is slow to evaluate in the kernel, and a run needs the digest at one or two of these answers only.
    So [run_model v w] proves the run for an arbitrary digest [f] of which nothing is known but [v] (an answer
    computed from a password, as [pg_md5_vector]) and [w] (a second answer, from a password or from a hash;
    [I] if there is none). *)
Ltac run_model v w :=
  generalize (conj v w); generalize md5; intros f [V W];
  (* the answers the client's stream mentions *)
  rewrite ?V, ?W;
  (* the model up to its own hash computations, which are the same answers in the model's words; [in *] brings
     the arguments in [V] and [W] to the normal form they have in the goal *)
  rewrite <- hash_password_eq in V; rewrite <- ?hash_password_eq, <- ?second_pass_eq in W;
  cbv - [md5_hash_password md5_hash_second_pass] in *;
  rewrite ?V, ?W;
  vm_compute; repeat split.

(** an admitted run over the whole client_entrypoint model: startup packet, then the right answer *)
Example run_admitted :
  let r := entry md5 true ex_cfg false ex_salt (ex_startup_alice_db1 ++ password_frame (pg_md5 md5 alice apw ex_salt)) ex_env in
  out r = PoolAdmitted db1 alice /\
  replies r = [RMd5Request ex_salt; RAuthOk; RParamStatuses; RBackendKeyData; RReadyForQuery] /\
  events r = [EvValidate db1 alice].
Proof. run_model pg_md5_vector I. Qed.

(** the same bytes after an SSLRequest that is declined *)
Example run_admitted_after_ssl_request :
  out (entry md5 true ex_cfg false ex_salt ([0;0;0;8;4;210;22;47]%N ++ ex_startup_alice_db1 ++ password_frame (pg_md5 md5 alice apw ex_salt)) ex_env)
  = PoolAdmitted db1 alice.
Proof. run_model pg_md5_vector I. Qed.

(** one changed character in the answer *)
Example run_wrong_answer :
  let good := pg_md5 md5 alice apw ex_salt in
  let r := entry md5 true ex_cfg false ex_salt (ex_startup_alice_db1 ++ password_frame (109%N :: 100%N :: 52%N :: skipn 3 good)) ex_env in
  out r = Rejected WRefetchFailed /\ replies r = [RMd5Request ex_salt; RError (EWrongPassword alice)] /\ events r = [].
Proof. run_model pg_md5_vector I. Qed.

(** the answer to another salt *)
Example run_replay :
  out (entry md5 true ex_cfg false ex_salt (ex_startup_alice_db1 ++ password_frame (pg_md5 md5 alice apw [4;3;2;1]%N)) ex_env)
  = Rejected WRefetchFailed.
Proof. run_model pg_md5_vector pg_md5_other_salt. Qed.

(** the same login while shutting down *)
Example run_shutdown :
  let r := entry md5 true ex_cfg true ex_salt (ex_startup_alice_db1 ++ password_frame (pg_md5 md5 alice apw ex_salt)) ex_env in
  out r = Rejected WShuttingDown /\ replies r = [RError EAdminOnly].
Proof. vm_compute. repeat split. Qed.

(** the admin database: any user name, the admin hash - also while shutting down; a pool user's
    own (valid) credentials do not open it *)
Example run_admin :
  out (entry md5 true ex_cfg true ex_salt (ex_startup_admin_db ++ password_frame [109; 100; 53; 57; 51; 53; 56; 102; 100; 49; 53; 102; 48; 100; 56; 54; 50; 51; 55; 101; 48; 98; 52; 49; 56; 49; 51; 100; 55; 50; 57; 50; 98; 102; 50; 0]%N) ex_env) = AdminAdmitted.
Proof. run_model pg_md5_admin I. Qed.
Example run_admin_with_user_credentials :
  out (entry md5 true ex_cfg false ex_salt (ex_startup_admin_db ++ password_frame (pg_md5 md5 alice apw ex_salt)) ex_env)
  = Rejected WInvalidPassword.
Proof. run_model pg_md5_vector pg_md5_admin. Qed.

Example run_password_len_2 :
  out (entry md5 true ex_cfg false ex_salt (ex_startup_alice_db1 ++ [112;0;0;0;2]%N) ex_env) = TaskPanic.
Proof. vm_compute. reflexivity. Qed.
Example run_password_len_min_release :   (* no overflow checks: i32::MIN - 4 wraps, pgcat waits for 2 GiB, then EOF *)
  out (entry md5 false ex_cfg false ex_salt (ex_startup_alice_db1 ++ [112;128;0;0;0;1;2;3]%N) ex_env) = Rejected (WSocket 2).
Proof. vm_compute. reflexivity. Qed.
Example run_first_packet_len_3 : out (entry md5 true ex_cfg false ex_salt [0;0;0;3]%N ex_env) = TaskPanic.
Proof. vm_compute. reflexivity. Qed.
Example run_first_packet_len_5 : out (entry md5 true ex_cfg false ex_salt [0;0;0;5;0]%N ex_env) = TaskPanic.
Proof. vm_compute. reflexivity. Qed.
Example run_unterminated_parameter :     (* "user\0alice" without a terminator: Err(ClientBadStartup), no panic (5c1953d) *)
  out (entry md5 true ex_cfg false ex_salt [0;0;0;18;0;3;0;0;117;115;101;114;0;97;108;105;99;101]%N ex_env) = Rejected WBadStartup.
Proof. vm_compute. reflexivity. Qed.
Example first_packet_alloc_max : startup_alloc [127;255;255;255]%N = 2147483643.
Proof. vm_compute. reflexivity. Qed.

(** A pool with an auth_query accepts, for a user that ALSO has a cleartext password in the
    configuration, the password the server holds (client.rs:681-716): both are valid secrets. *)
Example run_cleartext_user_server_password :
  let e := {| cached := None; fetches := [Some [51; 55; 50; 51; 97; 57; 55; 55; 56; 53; 99; 49; 49; 102; 97; 54; 101; 56; 56; 98; 48; 102; 102; 98; 99; 57; 98; 54; 48; 54; 57; 54]%N]; validated := true; validate_ok := true; tls_ok := true |} in
  let r := entry md5 true ex_cfg_aq false ex_salt (ex_startup_alice_db1 ++ password_frame [109; 100; 53; 99; 57; 102; 102; 99; 101; 51; 97; 53; 50; 49; 52; 56; 48; 52; 49; 97; 57; 98; 55; 98; 102; 48; 100; 102; 55; 57; 51; 53; 101; 53; 52; 0]%N) e in
  out r = PoolAdmitted db1 alice /\ events r = [EvAuthQuery db1 alice] /\ cache' r = Some [51; 55; 50; 51; 97; 57; 55; 55; 56; 53; 99; 49; 49; 102; 97; 54; 101; 56; 56; 98; 48; 102; 102; 98; 99; 57; 98; 54; 48; 54; 57; 54]%N.
Proof. run_model pg_md5_vector pg_md5_server_hash. Qed.

(** the theorems do not depend on the digest: a toy digest (first two bytes of the input) *)
Definition toy (x : bytes) : bytes := firstn 2 x.
Example run_admitted_toy :
  out (entry toy true ex_cfg false ex_salt (ex_startup_alice_db1 ++ password_frame (pg_md5 toy alice apw ex_salt)) ex_env)
  = PoolAdmitted db1 alice.
Proof. vm_compute. reflexivity. Qed.
(** ... and the hypothesis of c09_replay_rejected is needed: the toy digest ignores the salt, so
    the answer to another salt IS accepted under it *)
Example replay_hypothesis_needed :
  out (entry toy true ex_cfg false ex_salt (ex_startup_alice_db1 ++ password_frame (pg_md5 toy alice apw [9;9;9;9]%N)) ex_env)
  = PoolAdmitted db1 alice.
Proof. vm_compute. reflexivity. Qed.

(** names are UTF-8 (5c1953d): "Zo" C3 AB is the user Zoe-with-diaeresis as configured; the Latin-1 byte EB
    is not UTF-8 and is decoded to U+FFFD; parameters after an empty name are ignored; a value may be empty *)
Example ident_utf8 : ident [117;115;101;114;0;90;111;195;171;0;0]%N = IdOk [90;111;195;171]%N [90;111;195;171]%N.
Proof. vm_compute. reflexivity. Qed.
Example ident_latin1_is_lossy : ident [117;115;101;114;0;90;111;235;0;0]%N = IdOk [90;111;239;191;189]%N [90;111;239;191;189]%N.
Proof. vm_compute. reflexivity. Qed.
Example ident_stops_at_empty_name :      (* user=alice NUL-name database=db1: database is not read *)
  ident ([117;115;101;114;0]%N ++ alice ++ [0;0;100;97;116;97;98;97;115;101;0]%N ++ db1 ++ [0;0]%N) = IdOk alice alice.
Proof. vm_compute. reflexivity. Qed.
Example ident_empty_value :              (* user=alice database="" *)
  ident ([117;115;101;114;0]%N ++ alice ++ [0;100;97;116;97;98;97;115;101;0;0;0]%N) = IdOk alice [].
Proof. vm_compute. reflexivity. Qed.

(** admin_only inside TLS: the same login that is admitted over TLS is refused over TLS while shutting down,
    after the 'S' and before any challenge; the admin database is still served over TLS *)
Definition ex_cfg_tls : cfg :=
  {| admin_user := admin_user ex_cfg; admin_password := admin_password ex_cfg; admin_auth := MD5; pools := pools ex_cfg; tls := true |}.
Definition ssl_request : bytes := [0;0;0;8;4;210;22;47]%N.
Example run_tls_admitted :
  let r := entry md5 true ex_cfg_tls false ex_salt (ssl_request ++ ex_startup_alice_db1 ++ password_frame (pg_md5 md5 alice apw ex_salt)) ex_env in
  out r = PoolAdmitted db1 alice /\ replies r = [RTlsYes; RMd5Request ex_salt; RAuthOk; RParamStatuses; RBackendKeyData; RReadyForQuery].
Proof. run_model pg_md5_vector I. Qed.
Example run_tls_shutdown :
  let r := entry md5 true ex_cfg_tls true ex_salt (ssl_request ++ ex_startup_alice_db1 ++ password_frame (pg_md5 md5 alice apw ex_salt)) ex_env in
  out r = Rejected WShuttingDown /\ replies r = [RTlsYes; RError EAdminOnly] /\ events r = [].
Proof. vm_compute. repeat split. Qed.
Example run_declined_ssl_shutdown :
  let r := entry md5 true ex_cfg true ex_salt (ssl_request ++ ex_startup_alice_db1 ++ password_frame (pg_md5 md5 alice apw ex_salt)) ex_env in
  out r = Rejected WShuttingDown /\ replies r = [RTlsNo; RError EAdminOnly].
Proof. vm_compute. repeat split. Qed.
Example run_tls_admin_while_shutdown :
  out (entry md5 true ex_cfg_tls true ex_salt (ssl_request ++ ex_startup_admin_db ++ password_frame (pg_md5 md5 (admin_user ex_cfg) (admin_password ex_cfg) ex_salt)) ex_env)
  = AdminAdmitted.
Proof. run_model pg_md5_admin I. Qed.
