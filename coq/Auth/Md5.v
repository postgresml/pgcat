(** RFC 1321 MD5 as an executable Gallina function: the concrete instance used to RUN the
    authentication model next to the implementation (whose digest comes from the md-5 crate)
    and in the non-vacuity examples.  No theorem of C09 depends on this file: they are all
    stated for an arbitrary [md5 : bytes -> bytes].  Checked below against the RFC 1321 test
    suite and, on every run of the check, against Python's hashlib through the correspondence. *)
From Coq Require Import ZArith NArith List Bool.
From PV Require Import Auth.Model.
Import ListNotations.
Open Scope N_scope.

Definition M32 : N := 4294967296.
Definition add32 (a b : N) : N := (a + b) mod M32.
Definition not32 (a : N) : N := M32 - 1 - (a mod M32).
Definition rotl32 (x k : N) : N := (N.shiftl x k) mod M32 + N.shiftr (x mod M32) (32 - k).

Definition md5_K : list N := [3614090360; 3905402710; 606105819; 3250441966; 4118548399; 1200080426; 2821735955; 4249261313; 1770035416; 2336552879; 4294925233; 2304563134; 1804603682; 4254626195; 2792965006; 1236535329; 4129170786; 3225465664; 643717713; 3921069994; 3593408605; 38016083; 3634488961; 3889429448; 568446438; 3275163606; 4107603335; 1163531501; 2850285829; 4243563512; 1735328473; 2368359562; 4294588738; 2272392833; 1839030562; 4259657740; 2763975236; 1272893353; 4139469664; 3200236656; 681279174; 3936430074; 3572445317; 76029189; 3654602809; 3873151461; 530742520; 3299628645; 4096336452; 1126891415; 2878612391; 4237533241; 1700485571; 2399980690; 4293915773; 2240044497; 1873313359; 4264355552; 2734768916; 1309151649; 4149444226; 3174756917; 718787259; 3951481745].
Definition md5_S : list N := [7; 12; 17; 22; 7; 12; 17; 22; 7; 12; 17; 22; 7; 12; 17; 22; 5; 9; 14; 20; 5; 9; 14; 20; 5; 9; 14; 20; 5; 9; 14; 20; 4; 11; 16; 23; 4; 11; 16; 23; 4; 11; 16; 23; 4; 11; 16; 23; 6; 10; 15; 21; 6; 10; 15; 21; 6; 10; 15; 21; 6; 10; 15; 21].

(* little-endian 32-bit words *)
Fixpoint words (s : bytes) : list N :=
  match s with
  | a :: b :: c :: d :: r => (a + 256 * (b + 256 * (c + 256 * d))) :: words r
  | _ => []
  end.
Definition le32 (w : N) : bytes := [w mod 256; (w / 256) mod 256; (w / 65536) mod 256; (w / 16777216) mod 256].
Definition le64 (w : N) : bytes := le32 (w mod M32) ++ le32 ((w / M32) mod M32).

Definition md5_pad (m : bytes) : bytes :=
  let l := N.of_nat (length m) in
  let z := (119 - (l mod 64)) mod 64 in      (* zeros so that l + 1 + z = 56 (mod 64) *)
  m ++ [128] ++ repeat 0 (N.to_nat z) ++ le64 (8 * l).

Definition md5_round (M : list N) (i : nat) (st : N * N * N * N) : N * N * N * N :=
  let '(A, B, C, D) := st in
  let ni := N.of_nat i in
  let '(F, g) :=
    if ni <? 16 then (N.lor (N.land B C) (N.land (not32 B) D), ni)
    else if ni <? 32 then (N.lor (N.land D B) (N.land (not32 D) C), (5 * ni + 1) mod 16)
    else if ni <? 48 then (N.lxor B (N.lxor C D), (3 * ni + 5) mod 16)
    else (N.lxor C (N.lor B (not32 D)), (7 * ni) mod 16) in
  let F' := add32 (add32 (add32 F A) (nth i md5_K 0)) (nth (N.to_nat g) M 0) in
  (D, add32 B (rotl32 F' (nth i md5_S 0)), B, C).

Definition md5_block (st : N * N * N * N) (M : list N) : N * N * N * N :=
  let '(a0, b0, c0, d0) := st in
  let '(A, B, C, D) := fold_left (fun s i => md5_round M i s) (seq 0 64) st in
  (add32 a0 A, add32 b0 B, add32 c0 C, add32 d0 D).

Fixpoint chunks16 (fuel : nat) (w : list N) : list (list N) :=
  match fuel with
  | O => []
  | S f => match w with [] => [] | _ => firstn 16 w :: chunks16 f (skipn 16 w) end
  end.

Definition md5 (m : bytes) : bytes :=
  let w := words (md5_pad m) in
  let '(a, b, c, d) := fold_left md5_block (chunks16 (length w) w) (1732584193, 4023233417, 2562383102, 271733878) in
  le32 a ++ le32 b ++ le32 c ++ le32 d.

(** ** The same function for evaluation
    Reducing [_ mod 2^32] with [N.modulo] is nearly all the kernel does when it evaluates [md5].  [md5_fast] is
    [md5] with the three 32-bit primitives reducing by a mask instead; [md5_fast_eq] lets a proof evaluate it
    in place of [md5]. *)
Definition K32 : N := 4294967295.
Definition add32' (a b : N) : N := N.land (a + b) K32.
Definition not32' (a : N) : N := K32 - N.land a K32.
Definition rotl32' (x k : N) : N := N.land (N.shiftl x k) K32 + N.shiftr (N.land x K32) (32 - k).

Definition md5_round' (M : list N) (i : nat) (st : N * N * N * N) : N * N * N * N :=
  let '(A, B, C, D) := st in
  let ni := N.of_nat i in
  let '(F, g) :=
    if ni <? 16 then (N.lor (N.land B C) (N.land (not32' B) D), ni)
    else if ni <? 32 then (N.lor (N.land D B) (N.land (not32' D) C), (5 * ni + 1) mod 16)
    else if ni <? 48 then (N.lxor B (N.lxor C D), (3 * ni + 5) mod 16)
    else (N.lxor C (N.lor B (not32' D)), (7 * ni) mod 16) in
  let F' := add32' (add32' (add32' F A) (nth i md5_K 0)) (nth (N.to_nat g) M 0) in
  (D, add32' B (rotl32' F' (nth i md5_S 0)), B, C).

Definition md5_block' (st : N * N * N * N) (M : list N) : N * N * N * N :=
  let '(a0, b0, c0, d0) := st in
  let '(A, B, C, D) := fold_left (fun s i => md5_round' M i s) (seq 0 64) st in
  (add32' a0 A, add32' b0 B, add32' c0 C, add32' d0 D).

Definition md5_fast (m : bytes) : bytes :=
  let w := words (md5_pad m) in
  let '(a, b, c, d) := fold_left md5_block' (chunks16 (length w) w) (1732584193, 4023233417, 2562383102, 271733878) in
  le32 a ++ le32 b ++ le32 c ++ le32 d.

Lemma land_K32 : forall x, N.land x K32 = x mod M32.
Proof. intro x. exact (N.land_ones x 32). Qed.

Lemma add32'_eq : forall a b, add32' a b = add32 a b.
Proof. intros. apply land_K32. Qed.

Lemma not32'_eq : forall a, not32' a = not32 a.
Proof. intro a. unfold not32', not32. rewrite land_K32. reflexivity. Qed.

Lemma rotl32'_eq : forall x k, rotl32' x k = rotl32 x k.
Proof. intros. unfold rotl32', rotl32. rewrite !land_K32. reflexivity. Qed.

Lemma md5_round'_eq : forall M i st, md5_round' M i st = md5_round M i st.
Proof.
  intros M i [[[A B] C] D]. unfold md5_round', md5_round. cbv zeta.
  destruct (N.of_nat i <? 16); [|destruct (N.of_nat i <? 32); [|destruct (N.of_nat i <? 48)]];
    rewrite ?not32'_eq, !add32'_eq, rotl32'_eq; reflexivity.
Qed.

Lemma fold_left_ext : forall (A B : Type) (f g : A -> B -> A), (forall a b, f a b = g a b) ->
  forall l a, fold_left f l a = fold_left g l a.
Proof. intros A B f g H l. induction l as [|x l IH]; intro a; cbn; [reflexivity|]. rewrite H. apply IH. Qed.

Lemma md5_block'_eq : forall st M, md5_block' st M = md5_block st M.
Proof.
  intros [[[a0 b0] c0] d0] M. unfold md5_block', md5_block.
  rewrite (fold_left_ext _ _ _ _ (fun s i => md5_round'_eq M i s)).
  destruct (fold_left _ _ _) as [[[A B] C] D]. rewrite !add32'_eq. reflexivity.
Qed.

Lemma md5_fast_eq : forall m, md5_fast m = md5 m.
Proof. intro m. unfold md5_fast, md5. cbv zeta. rewrite (fold_left_ext _ _ _ _ md5_block'_eq). reflexivity. Qed.

(* RFC 1321 A.5 test suite *)
Example md5_empty : hex (md5 []) = [100;52;49;100;56;99;100;57;56;102;48;48;98;50;48;52;101;57;56;48;48;57;57;56;101;99;102;56;52;50;55;101].
Proof. rewrite <- md5_fast_eq. vm_compute. reflexivity. Qed.
Example md5_abc : hex (md5 [97;98;99]) = [57;48;48;49;53;48;57;56;51;99;100;50;52;102;98;48;100;54;57;54;51;102;55;100;50;56;101;49;55;102;55;50].
Proof. rewrite <- md5_fast_eq. vm_compute. reflexivity. Qed.
Example md5_long : hex (md5 [49;50;51;52;53;54;55;56;57;48;49;50;51;52;53;54;55;56;57;48;49;50;51;52;53;54;55;56;57;48;49;50;51;52;53;54;55;56;57;48;49;50;51;52;53;54;55;56;57;48;49;50;51;52;53;54;55;56;57;48;49;50;51;52;53;54;55;56;57;48;49;50;51;52;53;54;55;56;57;48]) = [53;55;101;100;102;52;97;50;50;98;101;51;99;57;53;53;97;99;52;57;100;97;50;101;50;49;48;55;98;54;55;97].
Proof. rewrite <- md5_fast_eq. vm_compute. reflexivity. Qed.
