(** C09 — lemmas about coq/Auth/Model.v against coq/Auth/Spec.v.  Everything is proved for an
    arbitrary digest function [md5] and both build modes [chk]. *)
From Coq Require Import ZArith NArith List Bool Lia.
From PV Require Import Auth.Model Auth.Spec.
Import ListNotations.
Open Scope Z_scope.

Lemma bytes_eqb_eq : forall a b, bytes_eqb a b = true <-> a = b.
Proof.
  induction a as [|x a IH]; destruct b as [|y b]; cbn [bytes_eqb]; split; intro H; try reflexivity; try discriminate.
  - apply andb_prop in H. destruct H as [H1 H2]. apply N.eqb_eq in H1. apply IH in H2. congruence.
  - inversion H; subst. rewrite N.eqb_refl. cbn. apply IH. reflexivity.
Qed.

Lemma bytes_eqb_refl : forall a, bytes_eqb a a = true.
Proof. intro a. apply bytes_eqb_eq. reflexivity. Qed.

Lemma bytes_eqb_neq : forall a b, bytes_eqb a b = false <-> a <> b.
Proof. intros a b. rewrite <- bytes_eqb_eq. symmetry. apply not_true_iff_false. Qed.

(** ** hex: the model's table lookup is PostgreSQL's arithmetic digit *)

Lemma hex_digit_eq : forall n, hex_digit n = pg_hexdigit n.
Proof.
  intro n. unfold hex_digit, pg_hexdigit.
  pose proof (N.mod_upper_bound n 16 ltac:(discriminate)) as Hlt.
  remember (n mod 16)%N as d eqn:Hd. clear Hd.
  destruct d as [|p]; [reflexivity|].
  do 5 (destruct p as [p|p|]; try reflexivity; try (exfalso; lia)).
Qed.

Section WithMd5.
Variable md5 : bytes -> bytes.

Lemma hex_eq : forall s, hex s = pg_hex s.
Proof.
  induction s as [|b r IH]; [reflexivity|].
  cbn [hex pg_hex flat_map app]. rewrite !hex_digit_eq, IH. reflexivity.
Qed.

Lemma second_pass_eq : forall h salt, md5_hash_second_pass md5 h salt = pg_md5_of_shadow md5 h salt.
Proof. intros. unfold md5_hash_second_pass, pg_md5_of_shadow, s_md5. rewrite hex_eq. reflexivity. Qed.

Lemma hash_password_eq : forall name pw salt, md5_hash_password md5 name pw salt = pg_md5 md5 name pw salt.
Proof.
  intros. unfold md5_hash_password, pg_md5, pg_shadow_hash. rewrite second_pass_eq, hex_eq. reflexivity.
Qed.

End WithMd5.

Lemma be32_i32_of : forall a b c d k,
  (a < 256)%N -> (b < 256)%N -> (c < 256)%N -> (d < 256)%N ->
  be32 (i32_of a b c d + k * 4294967296) = [a; b; c; d].
Proof.
  intros a b c d k Ha Hb Hc Hd. unfold be32, i32_of.
  set (za := Z.of_N a). set (zb := Z.of_N b). set (zc := Z.of_N c). set (zd := Z.of_N d).
  assert (0 <= za < 256) by (unfold za; lia). assert (0 <= zb < 256) by (unfold zb; lia).
  assert (0 <= zc < 256) by (unfold zc; lia). assert (0 <= zd < 256) by (unfold zd; lia).
  set (u := ((za * 256 + zb) * 256 + zc) * 256 + zd).
  assert (Hm : ((if u <? 2147483648 then u else u - 4294967296) + k * 4294967296) mod 4294967296 = u).
  { replace ((if u <? 2147483648 then u else u - 4294967296) + k * 4294967296)
      with (u + (if u <? 2147483648 then k else k - 1) * 4294967296) by (destruct (u <? 2147483648); ring).
    rewrite Z_mod_plus_full. apply Z.mod_small. unfold u. lia. }
  cbv zeta. rewrite Hm.
  assert (Hx : forall q x, 0 <= x < 256 -> (q * 256 + x) mod 256 = x).
  { intros q x Hx. rewrite Z.add_comm, Z_mod_plus_full. apply Z.mod_small. exact Hx. }
  rewrite <- (Z.div_unique u 16777216 za ((zb * 256 + zc) * 256 + zd)) by (unfold u; lia).
  rewrite <- (Z.div_unique u 65536 (za * 256 + zb) (zc * 256 + zd)) by (unfold u; lia).
  rewrite <- (Z.div_unique u 256 ((za * 256 + zb) * 256 + zc) zd) by (unfold u; lia).
  unfold u at 1. rewrite !Hx by assumption. unfold za, zb, zc, zd. rewrite !N2Z.id. reflexivity.
Qed.

Lemma i32_of_be32 : forall z, -2147483648 <= z < 2147483648 ->
  match be32 z with [a; b; c; d] => i32_of a b c d = z | _ => False end.
Proof.
  intros z Hz. unfold be32, i32_of. cbv zeta.
  rewrite !Z2N.id by (Z.div_mod_to_equations; lia).
  destruct (_ <? _) eqn:E; [apply Z.ltb_lt in E|apply Z.ltb_ge in E]; Z.div_mod_to_equations; lia.
Qed.

Lemma be32_length : forall z, length (be32 z) = 4%nat.
Proof. reflexivity. Qed.

Lemma i32_of_lower : forall a b c d, -2147483648 <= i32_of a b c d.
Proof.
  intros. unfold i32_of. cbv zeta. destruct (_ <? 2147483648) eqn:E; [apply Z.ltb_lt in E|apply Z.ltb_ge in E]; lia.
Qed.

Lemma read_exact_app : forall body tail, read_exact (blen body) (body ++ tail) = Some (body, tail).
Proof.
  intros. unfold read_exact, blen. rewrite app_length, Nat2Z.inj_add.
  rewrite (proj2 (Z.leb_le _ _)) by lia.
  rewrite Nat2Z.id, firstn_app, Nat.sub_diag, firstn_all, skipn_app, Nat.sub_diag, skipn_all. cbn. rewrite app_nil_r. reflexivity.
Qed.

Lemma read_exact_spec : forall n s body rest, 0 <= n ->
  read_exact n s = Some (body, rest) -> s = body ++ rest /\ blen body = n.
Proof.
  intros n s body rest Hn H. unfold read_exact in H.
  destruct (n <=? blen s) eqn:E; [|discriminate]. apply Z.leb_le in E. inversion H; subst; clear H.
  split; [symmetry; apply firstn_skipn|].
  unfold blen in *. rewrite firstn_length_le by lia. lia.
Qed.

Lemma get_startup_short_len : forall a b c d r, i32_of a b c d < 4 -> get_startup (a :: b :: c :: d :: r) = GsPanic.
Proof. intros a b c d r H. cbn [get_startup]. rewrite (proj2 (Z.ltb_lt _ _) H). reflexivity. Qed.

Section Reader.
Variable chk : bool.

Lemma read_password_frame : forall body tail, blen body + 4 < 2147483648 ->
  read_password chk (password_frame body ++ tail) = PwOk body tail.
Proof.
  intros body tail Hl. unfold password_frame.
  assert (Hr : -2147483648 <= blen body + 4 < 2147483648) by (unfold blen in *; lia).
  pose proof (i32_of_be32 _ Hr) as Hi.
  destruct (be32 (blen body + 4)) as [|a [|b [|c [|d [|? ?]]]]] eqn:Eb; try contradiction.
  cbn [app read_password N.eqb Pos.eqb negb]. rewrite Hi.
  replace (blen body + 4 - 4) with (blen body) by ring.
  assert (H0 : 0 <= blen body) by (unfold blen; lia).
  rewrite !(proj2 (Z.ltb_ge (blen body) _)) by lia.
  rewrite read_exact_app. reflexivity.
Qed.

Lemma read_password_ok_inv : forall s body rest,
  read_password chk s = PwOk body rest -> Forall byte_ok (firstn 5 s) -> s = password_frame body ++ rest.
Proof.
  intros s body rest H Hb. unfold read_password in H.
  destruct s as [|code r]; [discriminate|].
  destruct (code =? 112)%N eqn:Ec; cbn [negb] in H; [|discriminate]. apply N.eqb_eq in Ec. subst code.
  destruct r as [|a [|b [|c [|d r2]]]]; try discriminate.
  cbn [firstn] in Hb. rewrite !Forall_cons_iff in Hb. destruct Hb as (_ & Ha & Hb & Hc & Hd & _).
  (* whether or not the subtraction wrapped, the length field is the body length + 4 modulo 2^32 *)
  assert (Fin : forall n k, n = i32_of a b c d - 4 + k * 4294967296 -> 0 <= n ->
            read_exact n r2 = Some (body, rest) -> 112%N :: a :: b :: c :: d :: r2 = password_frame body ++ rest).
  { intros n k -> Hn Er. apply read_exact_spec in Er; [|assumption]. destruct Er as [-> El].
    unfold password_frame. replace (blen body + 4) with (i32_of a b c d + k * 4294967296) by lia.
    rewrite be32_i32_of by assumption. reflexivity. }
  pose proof (i32_of_lower a b c d) as Hlo.
  destruct (i32_of a b c d - 4 <? -2147483648) eqn:E1.
  - destruct chk; [discriminate|].
    destruct (read_exact _ r2) as [[bd rs]|] eqn:Er; inversion H; subst bd rs.
    apply Z.ltb_lt in E1. apply (Fin _ 1 eq_refl); [lia|exact Er].
  - destruct (i32_of a b c d - 4 <? 0) eqn:E2; [discriminate|].
    destruct (read_exact _ r2) as [[bd rs]|] eqn:Er; inversion H; subst bd rs.
    apply Z.ltb_ge in E2. apply (Fin (i32_of a b c d - 4) 0); [lia|lia|exact Er].
Qed.

Lemma read_password_not_p : forall code r, code <> 112%N -> read_password chk (code :: r) = PwNotP code.
Proof.
  intros code r H. cbn [read_password]. rewrite (proj2 (N.eqb_neq _ _) H). reflexivity.
Qed.

Lemma read_password_eof : read_password chk [] = PwSocket 0.
Proof. reflexivity. Qed.

(** a declared length below 4: the task panics — except in a build without overflow checks for the four
    values i32::MIN .. i32::MIN+3, where the subtraction wraps and pgcat waits for 2 GiB *)
Lemma read_password_short_len : forall a b c d r, i32_of a b c d < 4 ->
  (chk = true \/ -2147483644 <= i32_of a b c d) ->
  read_password chk (112%N :: a :: b :: c :: d :: r) = PwPanic.
Proof.
  intros a b c d r Hl Hc. cbn [read_password N.eqb Pos.eqb negb].
  destruct (i32_of a b c d - 4 <? -2147483648) eqn:E1.
  - apply Z.ltb_lt in E1. destruct Hc as [Hc|Hc]; [rewrite Hc; reflexivity|lia].
  - rewrite (proj2 (Z.ltb_lt _ 0)) by lia. reflexivity.
Qed.

Lemma read_password_wrapped : forall a b c d r, i32_of a b c d < 4 ->
  match read_password chk (112%N :: a :: b :: c :: d :: r) with
  | PwPanic => True
  | PwSocket st => st = 2%nat
  | PwOk body _ => 2147483644 <= blen body
  | PwNotP _ => False
  end.
Proof.
  intros a b c d r Hl. cbn [read_password N.eqb Pos.eqb negb].
  pose proof (i32_of_lower a b c d) as Hlo.
  destruct (i32_of a b c d - 4 <? -2147483648) eqn:E1.
  - destruct chk; [exact I|].
    destruct (read_exact _ r) as [[bd rs]|] eqn:Er; [|reflexivity].
    apply read_exact_spec in Er; [|lia]. lia.
  - rewrite (proj2 (Z.ltb_lt _ 0)) by lia. exact I.
Qed.

End Reader.

(** ** pool lookup = the served entry *)

Lemma find_pool_spec : forall db ps p, find_pool db ps = Some p ->
  exists ps1 ps2, ps = ps1 ++ p :: ps2 /\ p_name p = db /\ (forall q, In q ps1 -> p_name q <> db).
Proof.
  induction ps as [|q r IH]; intros p H; [discriminate|]. cbn [find_pool] in H.
  destruct (bytes_eqb db (p_name q)) eqn:E.
  - inversion H; subst. apply bytes_eqb_eq in E. exists [], r. repeat split; auto; try (intros ? []).
  - apply IH in H. destruct H as (ps1 & ps2 & H1 & H2 & H3). exists (q :: ps1), ps2. subst r. repeat split; auto.
    intros q' [Hq|Hq]; [subst q'; apply bytes_eqb_neq in E; congruence|auto].
Qed.

Lemma find_pool_none : forall db ps, find_pool db ps = None -> forall q, In q ps -> p_name q <> db.
Proof.
  induction ps as [|z l IH]; intros H q Hin; [destruct Hin|]. cbn [find_pool] in H.
  destruct (bytes_eqb db (p_name z)) eqn:Eb; [discriminate|].
  destruct Hin as [Hin|Hin]; [subst z; apply bytes_eqb_neq in Eb; congruence|auto].
Qed.

Lemma find_user_none : forall name us, find_user name us = None -> forall v, In v us -> u_name v <> name.
Proof.
  induction us as [|z l IH]; intros H v Hin; [destruct Hin|]. cbn [find_user] in H.
  destruct (find_user name l) eqn:E; [discriminate|].
  destruct (bytes_eqb name (u_name z)) eqn:Eb; [discriminate|].
  destruct Hin as [Hin|Hin]; [subst z; apply bytes_eqb_neq in Eb; congruence|auto].
Qed.

Lemma find_user_spec : forall name us u, find_user name us = Some u ->
  exists us1 us2, us = us1 ++ u :: us2 /\ u_name u = name /\ (forall v, In v us2 -> u_name v <> name).
Proof.
  induction us as [|v r IH]; intros u H; [discriminate|]. cbn [find_user] in H.
  destruct (find_user name r) as [x|] eqn:Er.
  - inversion H; subst x. destruct (IH u eq_refl) as (us1 & us2 & H1 & H2 & H3).
    exists (v :: us1), us2. subst r. repeat split; auto.
  - destruct (bytes_eqb name (u_name v)) eqn:E; [|discriminate]. inversion H; subst v.
    apply bytes_eqb_eq in E. exists [], r. repeat split; auto.
    exact (find_user_none name r Er).
Qed.

Lemma get_pool_served : forall c db name p u, get_pool c db name = Some (p, u) -> served c db name p u.
Proof.
  intros c db name p u H. unfold get_pool in H.
  destruct (find_pool db (pools c)) as [p'|] eqn:Ep; [|discriminate].
  destruct (find_user name (p_users p')) as [u'|] eqn:Eu; [|discriminate].
  inversion H; subst p' u'.
  destruct (find_pool_spec _ _ _ Ep) as (ps1 & ps2 & A1 & A2 & A3).
  destruct (find_user_spec _ _ _ Eu) as (us1 & us2 & B1 & B2 & B3).
  exists ps1, ps2, us1, us2. repeat split; assumption.
Qed.

Lemma find_pool_complete : forall db ps1 p ps2, p_name p = db -> (forall q, In q ps1 -> p_name q <> db) ->
  find_pool db (ps1 ++ p :: ps2) = Some p.
Proof.
  induction ps1 as [|q r IH]; intros p ps2 Hp Hn; cbn [app find_pool].
  - rewrite <- Hp, bytes_eqb_refl. reflexivity.
  - destruct (bytes_eqb db (p_name q)) eqn:E.
    + apply bytes_eqb_eq in E. exfalso. apply (Hn q); [left; reflexivity|congruence].
    + apply IH; auto. intros q' Hq. apply Hn. right. exact Hq.
Qed.

Lemma find_user_complete : forall name us1 u us2, u_name u = name -> (forall v, In v us2 -> u_name v <> name) ->
  find_user name (us1 ++ u :: us2) = Some u.
Proof.
  intros name us1 u us2 Hu Hn.
  assert (Htail : find_user name us2 = None).
  { clear - Hn. induction us2 as [|z l IH]; [reflexivity|]. cbn [find_user].
    rewrite IH by (intros v Hv; apply Hn; right; exact Hv).
    destruct (bytes_eqb name (u_name z)) eqn:E; [|reflexivity].
    apply bytes_eqb_eq in E. exfalso. apply (Hn z); [left; reflexivity|congruence]. }
  induction us1 as [|q r IH]; cbn [app find_user].
  - rewrite Htail, <- Hu, bytes_eqb_refl. reflexivity.
  - rewrite IH. reflexivity.
Qed.

Lemma served_get_pool : forall c db name p u, served c db name p u -> get_pool c db name = Some (p, u).
Proof.
  intros c db name p u (ps1 & ps2 & us1 & us2 & A1 & A2 & A3 & B1 & B2 & B3).
  unfold get_pool. rewrite A1, (find_pool_complete db ps1 p ps2 A2 A3), B1, (find_user_complete name us1 u us2 B2 B3).
  reflexivity.
Qed.

Lemma served_configured : forall c db name p u, served c db name p u -> configured c db name.
Proof.
  intros c db name p u (ps1 & ps2 & us1 & us2 & A1 & A2 & A3 & B1 & B2 & B3).
  exists p, u. rewrite A1, B1. repeat split; auto; apply in_or_app; right; left; reflexivity.
Qed.

Lemma not_configured_no_pool : forall c db name, ~ configured c db name -> get_pool c db name = None.
Proof.
  intros c db name H. destruct (get_pool c db name) as [[p u]|] eqn:E; [|reflexivity].
  exfalso. apply H. eapply served_configured. apply get_pool_served. exact E.
Qed.

Lemma served_unique : forall c db name p u p' u', served c db name p u -> served c db name p' u' -> p = p' /\ u = u'.
Proof.
  intros c db name p u p' u' H H'. apply served_get_pool in H. apply served_get_pool in H'.
  rewrite H in H'. inversion H'. auto.
Qed.

(** ** what tells two answers apart *)

Lemma length_neq : forall (A : Type) (l l' : list A), length l <> length l' -> l <> l'.
Proof. intros A l l' H ->. exact (H eq_refl). Qed.

Lemma pg_hexdigit_mod : forall a b, pg_hexdigit a = pg_hexdigit b -> (a mod 16 = b mod 16)%N.
Proof.
  intros a b. unfold pg_hexdigit. cbv zeta.
  pose proof (N.mod_upper_bound a 16 ltac:(discriminate)). pose proof (N.mod_upper_bound b 16 ltac:(discriminate)).
  destruct (a mod 16 <? 10)%N eqn:Ea; destruct (b mod 16 <? 10)%N eqn:Eb;
    [apply N.ltb_lt in Ea; apply N.ltb_lt in Eb|apply N.ltb_lt in Ea; apply N.ltb_ge in Eb|apply N.ltb_ge in Ea; apply N.ltb_lt in Eb|apply N.ltb_ge in Ea; apply N.ltb_ge in Eb]; lia.
Qed.

Lemma pg_hex_inj : forall x y, Forall byte_ok x -> Forall byte_ok y -> pg_hex x = pg_hex y -> x = y.
Proof.
  induction x as [|a x IH]; destruct y as [|b y]; intros Hx Hy H; try reflexivity; try discriminate.
  cbn [pg_hex flat_map app] in H. inversion H as [[H1 H2 H3]].
  inversion Hx as [|? ? Ha Hx']; inversion Hy as [|? ? Hb Hy']; subst. unfold byte_ok in *.
  apply pg_hexdigit_mod in H1. apply pg_hexdigit_mod in H2.
  assert (a = b).
  { assert (a / 16 < 16)%N by (apply N.div_lt_upper_bound; lia).
    assert (b / 16 < 16)%N by (apply N.div_lt_upper_bound; lia).
    rewrite (N.mod_small (a / 16)) in H1 by assumption. rewrite (N.mod_small (b / 16)) in H1 by assumption.
    rewrite (N.div_mod a 16) by discriminate. rewrite (N.div_mod b 16) by discriminate. rewrite H1, H2. reflexivity. }
  subst b. f_equal. apply IH; assumption.
Qed.

Lemma other_salt_other_answer : forall (md5 : bytes -> bytes) h salt salt',
  Forall byte_ok (md5 (h ++ salt)) -> Forall byte_ok (md5 (h ++ salt')) ->
  md5 (h ++ salt') <> md5 (h ++ salt) ->
  pg_md5_of_shadow md5 h salt' <> pg_md5_of_shadow md5 h salt.
Proof.
  intros md5 h salt salt' B1 B2 Hne E. unfold pg_md5_of_shadow in E.
  apply app_inv_head in E. apply app_inv_tail in E. apply Hne. apply pg_hex_inj; assumption.
Qed.

Section Main.
Variable md5 : bytes -> bytes.
Variable chk : bool.

(** the answer the client gave is the MD5 answer for a secret pgcat holds for this user *)
Definition valid_body (e : auth_env) (p : pool) (u : user) (name salt body : bytes) : Prop :=
  (exists pw, u_password u = Some pw /\ body = md5_hash_password md5 name pw salt) \/
  (exists h, u_password u = None /\ cached e = Some h /\ body = md5_hash_second_pass md5 h salt) \/
  (exists h, p_aq p = true /\ In (Some h) (fetches e) /\ body = md5_hash_second_pass md5 h salt).

(** pooler-originated server contacts of one startup *)
Definition evs_ok (p : pool) (db name : bytes) (ev : list event) : Prop :=
  Forall (fun x => x = EvAuthQuery db name /\ p_aq p = true) ev.

Lemma finish_user_cases : forall e db name pre ev c,
  let r := finish_user e db name pre ev c in
  cache' r = c /\
  (events r = ev \/ events r = ev ++ [EvValidate db name]) /\
  ((out r = PoolAdmitted db name /\ replies r = pre ++ auth_tail) \/
   (out r = Rejected WPoolDown /\ replies r = pre ++ [RError (EPoolDown db name); RReadyForQuery] /\
    validated e = false /\ validate_ok e = false)).
Proof.
  intros. subst r. unfold finish_user.
  destruct (validated e); [cbn; auto|]. destruct (validate_ok e); cbn; auto 10.
Qed.

(** one [refetch_auth_hash]: a server is contacted only if the pool has an auth_query, and a hash
    comes only from the fetches of this startup *)
Lemma refetch_spec : forall p db name fs h fs' ev, refetch p db name fs = (h, fs', ev) ->
  evs_ok p db name ev /\ incl fs' fs /\ (forall x, h = Some x -> p_aq p = true /\ In (Some x) fs).
Proof.
  unfold refetch, next_fetch, evs_ok. intros p db name fs h fs' ev H.
  destruct (p_aq p) eqn:Eaq; [destruct fs as [|f fs0]|]; inversion H; subst.
  - split; [auto|]. split; [intros ? []|intros ? ?; discriminate].
  - split; [auto|]. split; [intros x Hx; right; exact Hx|].
    intros x ->. split; [reflexivity|left; reflexivity].
  - split; [constructor|]. split; [intros x Hx; exact Hx|intros ? ?; discriminate].
Qed.

(** how [user_md5] ends once a PasswordMessage with [body] has been read: the body is the answer for
    a secret of the user and the pool is validated, or the password error is sent *)
Inductive answered (e : auth_env) (p : pool) (u : user) (db name salt body : bytes) : result -> Prop :=
| AnsValid ev c' : evs_ok p db name ev -> valid_body e p u name salt body ->
    answered e p u db name salt body (finish_user e db name [RMd5Request salt] ev c')
| AnsWrong ev c' w : evs_ok p db name ev ->
    w = WInvalidPassword \/ w = WRefetchFailed \/ w = WPassthrough \/ w = WAuthImpossible ->
    answered e p u db name salt body (mk (Rejected w) [RMd5Request salt; RError (EWrongPassword name)] ev c').

(** the step every accepting path takes: [body] is compared with the answer [x] for one secret *)
Lemma answered_if : forall e p u db name salt body x ev c' k,
  evs_ok p db name ev -> (x = body -> valid_body e p u name salt body) -> answered e p u db name salt body k ->
  answered e p u db name salt body (if bytes_eqb x body then finish_user e db name [RMd5Request salt] ev c' else k).
Proof.
  intros e p u db name salt body x ev c' k Hev Hv Hk.
  destruct (bytes_eqb x body) eqn:Eb; [|exact Hk]. apply bytes_eqb_eq in Eb. apply AnsValid; auto.
Qed.

Lemma user_md5_cases : forall c e p u db name salt rest,
  let r := user_md5 md5 chk c e p u db name salt rest in
  match read_password chk rest with
  | PwOk body _ => answered e p u db name salt body r
  | PwSocket st => r = mk (Rejected (WSocket st)) [RMd5Request salt] [] (cached e)
  | PwNotP code => r = mk (Rejected (WExpectedP code)) [RMd5Request salt] [] (cached e)
  | PwPanic => r = mk TaskPanic [RMd5Request salt] [] (cached e)
  end.
Proof.
  intros c e p u db name salt rest r. subst r. unfold user_md5.
  destruct (read_password chk rest) as [body tail|st|code|]; try reflexivity.
  (* every path that has not accepted the answer ends with one more fetch, compared with the answer *)
  assert (Last : forall fs ev1 c1, incl fs (fetches e) -> evs_ok p db name ev1 ->
    answered e p u db name salt body
      (let '(h2, _, ev2) := refetch p db name fs in
       match h2 with
       | None => mk (Rejected WRefetchFailed) [RMd5Request salt; RError (EWrongPassword name)] (ev1 ++ ev2) c1
       | Some h' =>
         if bytes_eqb (md5_hash_second_pass md5 h' salt) body
         then finish_user e db name [RMd5Request salt] (ev1 ++ ev2) (Some h')
         else mk (Rejected WInvalidPassword) [RMd5Request salt; RError (EWrongPassword name)] (ev1 ++ ev2) c1
       end)).
  { intros fs ev1 c1 Hfs Hev1.
    destruct (refetch p db name fs) as [[h2 fs2] ev2] eqn:Ef.
    destruct (refetch_spec _ _ _ _ _ _ _ Ef) as (Hev2 & _ & Hh).
    assert (Hev : evs_ok p db name (ev1 ++ ev2)) by (apply Forall_app; auto).
    destruct h2 as [h'|]; [|apply AnsWrong; auto].
    apply answered_if; [assumption| |apply AnsWrong; auto].
    intros <-. right; right. exists h'. destruct (Hh _ eq_refl). auto. }
  destruct (u_password u) as [pw|] eqn:Ep.
  - apply answered_if; [constructor|intros <-; left; eauto|].
    exact (Last (fetches e) [] (cached e) (incl_refl _) (Forall_nil _)).
  - destruct (cfg_aq c); cbn [negb]; [|apply AnsWrong; [constructor|auto]].
    destruct (cached e) as [h0|] eqn:Ec.
    + apply answered_if; [constructor|intros <-; right; left; eauto|].
      exact (Last (fetches e) [] (Some h0) (incl_refl _) (Forall_nil _)).
    + destruct (refetch p db name (fetches e)) as [[h fs1] ev1] eqn:Ef.
      destruct (refetch_spec _ _ _ _ _ _ _ Ef) as (Hev1 & Hfs & Hh).
      destruct h as [h|]; [|apply AnsWrong; auto].
      apply answered_if; [assumption| |exact (Last fs1 ev1 (Some h) Hfs Hev1)].
      intros <-. right; right. exists h. destruct (Hh _ eq_refl). auto.
Qed.

Lemma admin_md5_cases : forall c e name salt rest,
  let r := admin_md5 md5 chk c e name salt rest in
  match read_password chk rest with
  | PwOk body _ =>
    body = md5_hash_password md5 (admin_user c) (admin_password c) salt /\
      r = mk AdminAdmitted (RMd5Request salt :: auth_tail) [] (cached e) \/
    body <> md5_hash_password md5 (admin_user c) (admin_password c) salt /\
      r = mk (Rejected WInvalidPassword) [RMd5Request salt; RError (EWrongPassword name)] [] (cached e)
  | PwSocket st => r = mk (Rejected (WSocket st)) [RMd5Request salt] [] (cached e)
  | PwNotP code => r = mk (Rejected (WExpectedP code)) [RMd5Request salt] [] (cached e)
  | PwPanic => r = mk TaskPanic [RMd5Request salt] [] (cached e)
  end.
Proof.
  intros c e name salt rest r. subst r. unfold admin_md5.
  destruct (read_password chk rest) as [body tail|st|code|]; try reflexivity.
  destruct (bytes_eqb _ body) eqn:Eb; [left; apply bytes_eqb_eq in Eb|right; apply bytes_eqb_neq in Eb]; auto.
Qed.

Lemma valid_body_secret : forall c e db name p u salt body,
  served c db name p u -> valid_body e p u name salt body ->
  exists s, secret_of c e db name s /\ body = expected md5 name s salt.
Proof.
  intros c e db name p u salt body Hs [(pw & H1 & ->)|[(h & H1 & H2 & ->)|(h & H1 & H2 & ->)]];
    [exists (Clear pw)|exists (Shadow h)..];
    (split; [exists p, u; eauto 7|cbn [expected]; rewrite <- ?hash_password_eq, <- ?second_pass_eq; reflexivity]).
Qed.

(** What [Client::startup] has done, read off its outcome: who was admitted and on what grounds, what
    was said.  The soundness, reply-order and panic theorems below are its readings. *)
Definition startup_verdict (c : cfg) (sd : bool) (salt payload rest : bytes) (e : auth_env) (r : result) : Prop :=
  match out r with
  | PoolAdmitted db name =>
    ident payload = IdOk name db /\ sd = false /\ is_admin_db db = false /\
    exists p u, served c db name p u /\
      (u_auth u = Trust /\ replies r = auth_tail \/
       replies r = RMd5Request salt :: auth_tail /\
       exists body tail, read_password chk rest = PwOk body tail /\ valid_body e p u name salt body)
  | AdminAdmitted =>
    exists name db, ident payload = IdOk name db /\ is_admin_db db = true /\
      (admin_auth c = Trust /\ replies r = auth_tail \/
       replies r = RMd5Request salt :: auth_tail /\
       exists body tail, read_password chk rest = PwOk body tail /\
         body = md5_hash_password md5 (admin_user c) (admin_password c) salt)
  | Rejected _ => forallb refusal_reply (replies r) = true
  | TaskPanic => replies r = [RMd5Request salt] /\ read_password chk rest = PwPanic
  | CancelRequest => False
  end.

Lemma startup_verdict_holds : forall c sd salt payload rest e,
  startup_verdict c sd salt payload rest e (startup md5 chk c sd salt payload rest e).
Proof.
  intros c sd salt payload rest e. unfold startup.
  destruct (ident payload) as [name db| |] eqn:Ei; try exact eq_refl.
  destruct (is_admin_db db) eqn:Ea; cbn [negb andb].
  { destruct (admin_auth c) eqn:Et; [exists name, db; auto|].
    pose proof (admin_md5_cases c e name salt rest) as H. cbv zeta in H. unfold startup_verdict.
    destruct (read_password chk rest) as [body tail| | |]; [destruct H as [[Hb ->]|[_ ->]]|rewrite H..]; cbn; auto.
    exists name, db. split; [assumption|]. split; [assumption|]. right. split; [reflexivity|]. exists body, tail. auto. }
  destruct sd; [exact eq_refl|].
  destruct (get_pool c db name) as [[p u]|] eqn:Eg; [|exact eq_refl].
  pose proof (get_pool_served _ _ _ _ _ Eg) as Hs.
  (* both the trust and the MD5 path end in [finish_user] *)
  assert (Fin : forall pre ev c',
    (u_auth u = Trust /\ pre = [] \/
     pre = [RMd5Request salt] /\ exists body tail, read_password chk rest = PwOk body tail /\ valid_body e p u name salt body) ->
    startup_verdict c false salt payload rest e (finish_user e db name pre ev c')).
  { intros pre ev c' Hpre. unfold startup_verdict.
    destruct (finish_user_cases e db name pre ev c') as (_ & _ & [(-> & ->)|(-> & -> & _)]).
    - repeat split; auto. exists p, u. split; [assumption|].
      destruct Hpre as [(Ht & ->)|(-> & Hb)]; [left|right]; auto.
    - destruct Hpre as [(_ & ->)|(-> & _)]; reflexivity. }
  destruct (u_auth u) eqn:Eu; [apply Fin; auto|].
  pose proof (user_md5_cases c e p u db name salt rest) as H. cbv zeta in H.
  destruct (read_password chk rest) as [body tail| | |] eqn:Er; [|rewrite H; cbn; auto..].
  destruct H as [ev c' _ Hv|ev c' w _ _]; [|exact eq_refl].
  apply Fin. right. split; [reflexivity|]. exists body, tail. auto.
Qed.

Lemma admit_sound : forall c sd salt payload rest e db name,
  out (startup md5 chk c sd salt payload rest e) = PoolAdmitted db name ->
  ident payload = IdOk name db /\ sd = false /\ is_admin_db db = false /\ configured c db name /\
  (trust c db name \/
   exists body tail s, read_password chk rest = PwOk body tail /\
     secret_of c e db name s /\ body = expected md5 name s salt).
Proof.
  intros c sd salt payload rest e db name H.
  pose proof (startup_verdict_holds c sd salt payload rest e) as V. unfold startup_verdict in V. rewrite H in V.
  destruct V as (Hi & Hsd & Ha & p & u & Hs & Hc). repeat split; auto. { eapply served_configured; eassumption. }
  destruct Hc as [(Ht & _)|(_ & body & tail & Hr & Hv)]; [left; exists p, u; auto|right].
  destruct (valid_body_secret _ _ _ _ _ _ _ _ Hs Hv) as (s & S1 & S2). exists body, tail, s. auto.
Qed.

(** *** the admin database requires the admin credentials *)
Lemma admin_sound : forall c sd salt payload rest e,
  out (startup md5 chk c sd salt payload rest e) = AdminAdmitted ->
  exists name db, ident payload = IdOk name db /\ is_admin_db db = true /\
    (admin_auth c = Trust \/
     exists body tail, read_password chk rest = PwOk body tail /\
       body = pg_md5 md5 (admin_user c) (admin_password c) salt).
Proof.
  intros c sd salt payload rest e H.
  pose proof (startup_verdict_holds c sd salt payload rest e) as V. unfold startup_verdict in V. rewrite H in V.
  destruct V as (name & db & Hi & Ha & Hc). exists name, db. repeat split; auto.
  destruct Hc as [(Ht & _)|(_ & Hb)]; [left; assumption|right]. rewrite <- hash_password_eq. exact Hb.
Qed.

(** *** replies: AuthenticationOk only at admission, only challenges before it *)
Definition replies_ok (r : result) : Prop :=
  if is_admitted (out r)
  then exists pre, replies r = pre ++ auth_tail /\ forallb pre_auth_reply pre = true
  else forallb refusal_reply (replies r) = true.

Lemma replies_ok_startup : forall c sd salt payload rest e, replies_ok (startup md5 chk c sd salt payload rest e).
Proof.
  intros c sd salt payload rest e. unfold replies_ok.
  pose proof (startup_verdict_holds c sd salt payload rest e) as V. unfold startup_verdict in V.
  destruct (out (startup md5 chk c sd salt payload rest e)); cbn [is_admitted].
  - destruct V as (_ & _ & _ & p & u & _ & [(_ & ->)|(-> & _)]); [exists []|exists [RMd5Request salt]]; auto.
  - destruct V as (name & db & _ & _ & [(_ & ->)|(-> & _)]); [exists []|exists [RMd5Request salt]]; auto.
  - exact V.
  - destruct V as [-> _]. reflexivity.
  - contradiction.
Qed.

Lemma shutdown_gate : forall c salt payload rest e name db,
  ident payload = IdOk name db -> is_admin_db db = false ->
  startup md5 chk c true salt payload rest e = mk (Rejected WShuttingDown) [RError EAdminOnly] [] (cached e).
Proof.
  intros c salt payload rest e name db Hi Ha. unfold startup. rewrite Hi, Ha. reflexivity.
Qed.

(** *** server contacts before admission: only the pooler's own, for the served pool *)
Definition event_ok (c : cfg) (db name : bytes) (x : event) : Prop :=
  match x with
  | EvAuthQuery d n => d = db /\ n = name /\ exists p u, served c db name p u /\ p_aq p = true
  | EvValidate d n => d = db /\ n = name /\ exists p u, served c db name p u
  | EvClientBytes _ => False
  end.

Lemma events_startup : forall c sd salt payload rest e,
  let r := startup md5 chk c sd salt payload rest e in
  match ident payload with
  | IdOk name db => Forall (event_ok c db name) (events r) /\ (is_admin_db db = true -> events r = [])
  | _ => events r = []
  end.
Proof.
  intros c sd salt payload rest e r. subst r. unfold startup.
  destruct (ident payload) as [n d| |] eqn:Ei; try reflexivity.
  destruct (is_admin_db d) eqn:Ea; cbn [negb andb].
  { destruct (admin_auth c); [split; [constructor|reflexivity]|].
    pose proof (admin_md5_cases c e n salt rest) as H. cbv zeta in H.
    destruct (read_password chk rest); [destruct H as [[_ ->]|[_ ->]]|rewrite H..]; split; constructor. }
  split; [|discriminate].
  destruct sd; [constructor|].
  destruct (get_pool c d n) as [[p u]|] eqn:Eg; [|constructor].
  pose proof (get_pool_served _ _ _ _ _ Eg) as Hs.
  assert (Hev : forall ev, evs_ok p d n ev -> Forall (event_ok c d n) ev).
  { intros ev. apply Forall_impl. intros a [-> Haq]. cbn. repeat split; auto. exists p, u. auto. }
  assert (Hfin : forall pre ev c', evs_ok p d n ev -> Forall (event_ok c d n) (events (finish_user e d n pre ev c'))).
  { intros pre ev c' H. destruct (finish_user_cases e d n pre ev c') as (_ & [-> | ->] & _); [auto|].
    apply Forall_app. split; [auto|]. constructor; [|constructor]. cbn. repeat split; auto. exists p, u. auto. }
  destruct (u_auth u); [apply Hfin; constructor|].
  pose proof (user_md5_cases c e p u d n salt rest) as H. cbv zeta in H.
  destruct (read_password chk rest); [|rewrite H; constructor..].
  destruct H as [ev c' Hok _|ev c' w Hok _]; [apply Hfin|apply Hev]; assumption.
Qed.

(** *** client_entrypoint is [startup] on the packet [startup_packet_of] finds, after the answer to an
    SSLRequest; without such a packet nobody is challenged or admitted.  The packet is the one handed to
    Client::startup, with what has been said before: directly, after a declined SSLRequest (plain), or
    inside the accepted TLS session *)
Definition startup_packet_of (c : cfg) (e : auth_env) (stream : bytes) : option (list reply * bytes * bytes) :=
  match get_startup stream with
  | GsOk CtStartup payload rest => Some ([], payload, rest)
  | GsOk CtTls _ r0 =>
    if tls c
    then (if tls_ok e
          then match get_startup r0 with GsOk CtStartup p r => Some ([RTlsYes], p, r) | _ => None end
          else None)
    else match get_startup r0 with GsOk CtStartup p r => Some ([RTlsNo], p, r) | _ => None end
  | _ => None
  end.

Definition tls_answer (rs : list reply) : Prop := rs = [] \/ rs = [RTlsYes] \/ rs = [RTlsNo].

Lemma tls_answer_no_challenge : forall rs s, tls_answer rs -> ~ In (RMd5Request s) rs.
Proof. intros rs s [-> | [-> | ->]]; [intros []|intros [H|[]]; discriminate..]. Qed.

Lemma entry_via_startup : forall c sd salt stream e pre payload rest,
  startup_packet_of c e stream = Some (pre, payload, rest) ->
  let r := entry md5 chk c sd salt stream e in
  let r0 := startup md5 chk c sd salt payload rest e in
  tls_answer pre /\ out r = out r0 /\ replies r = pre ++ replies r0 /\ events r = events r0 /\ cache' r = cache' r0.
Proof.
  intros c sd salt stream e pre payload rest H. unfold startup_packet_of in H. unfold entry, tls_answer.
  destruct (get_startup stream) as [[| |] p0 r0| | |]; try discriminate.
  - destruct (tls c); [destruct (tls_ok e); [|discriminate]|];
      destruct (get_startup r0) as [[| |] p2 r2| | |]; try discriminate; inversion H; subst; cbn; auto 6.
  - inversion H; subst. cbn. auto 6.
Qed.

Lemma entry_without_startup_packet : forall c sd salt stream e,
  startup_packet_of c e stream = None ->
  let r := entry md5 chk c sd salt stream e in
  is_admitted (out r) = false /\ tls_answer (replies r) /\ events r = [].
Proof.
  intros c sd salt stream e H. unfold startup_packet_of in H. unfold entry, tls_answer.
  destruct (get_startup stream) as [[| |] p0 r0| | |]; try discriminate; try (cbn; auto).
  destruct (tls c); [destruct (tls_ok e); [|cbn; auto]|];
    destruct (get_startup r0) as [[| |] p2 r2| | |]; try discriminate; cbn; auto.
Qed.

Lemma replies_ok_entry : forall c sd salt stream e, replies_ok (entry md5 chk c sd salt stream e).
Proof.
  intros c sd salt stream e. unfold replies_ok.
  destruct (startup_packet_of c e stream) as [[[pre payload] rest]|] eqn:Hp.
  - destruct (entry_via_startup c sd salt stream e _ _ _ Hp) as (Hpre & -> & -> & _).
    pose proof (replies_ok_startup c sd salt payload rest e) as H. unfold replies_ok in H.
    destruct (is_admitted _).
    + destruct H as (q & -> & Hq). exists (pre ++ q). split; [apply app_assoc|].
      rewrite forallb_app, Hq. destruct Hpre as [-> | [-> | ->]]; reflexivity.
    + rewrite forallb_app, H. destruct Hpre as [-> | [-> | ->]]; reflexivity.
  - destruct (entry_without_startup_packet c sd salt stream e Hp) as (-> & Hr & _).
    destruct Hr as [-> | [-> | ->]]; reflexivity.
Qed.

Lemma no_authok_before : forall c sd salt stream e,
  let r := entry md5 chk c sd salt stream e in
  is_admitted (out r) = false -> ~ In RAuthOk (replies r) /\ forallb refusal_reply (replies r) = true.
Proof.
  intros c sd salt stream e r H. subst r.
  pose proof (replies_ok_entry c sd salt stream e) as Hr. unfold replies_ok in Hr. rewrite H in Hr.
  split; [|assumption]. intro Hin. rewrite forallb_forall in Hr. specialize (Hr _ Hin). discriminate.
Qed.

Lemma authok_after_challenges_only : forall c sd salt stream e,
  let r := entry md5 chk c sd salt stream e in
  is_admitted (out r) = true ->
  exists pre, replies r = pre ++ [RAuthOk; RParamStatuses; RBackendKeyData; RReadyForQuery] /\
              forallb pre_auth_reply pre = true.
Proof.
  intros c sd salt stream e r H. subst r.
  pose proof (replies_ok_entry c sd salt stream e) as Hr. unfold replies_ok in Hr. rewrite H in Hr. exact Hr.
Qed.

(** who is challenged with an MD5 request *)
Definition user_login (c : cfg) (payload name db : bytes) (p : pool) (u : user) : Prop :=
  ident payload = IdOk name db /\ is_admin_db db = false /\ served c db name p u /\ u_auth u = MD5.
Definition admin_login (c : cfg) (payload name db : bytes) : Prop :=
  ident payload = IdOk name db /\ is_admin_db db = true /\ admin_auth c = MD5.

Lemma startup_user : forall c salt payload rest e name db p u,
  user_login c payload name db p u ->
  startup md5 chk c false salt payload rest e = user_md5 md5 chk c e p u db name salt rest.
Proof.
  intros c salt payload rest e name db p u (Hi & Ha & Hs & Hu). unfold startup.
  rewrite Hi, Ha. cbn [negb andb]. rewrite (served_get_pool _ _ _ _ _ Hs), Hu. reflexivity.
Qed.

Lemma startup_admin : forall c sd salt payload rest e name db,
  admin_login c payload name db ->
  startup md5 chk c sd salt payload rest e = admin_md5 md5 chk c e name salt rest.
Proof.
  intros c sd salt payload rest e name db (Hi & Ha & Hm). unfold startup.
  rewrite Hi, Ha. cbn [negb andb]. rewrite Hm. reflexivity.
Qed.

(** any well-framed answer that is not the MD5 answer for a secret of the user is refused with
    the password error, and nothing else is said *)
Lemma wrong_response_rejected : forall c salt payload rest e name db p u body tail,
  user_login c payload name db p u ->
  rest = password_frame body ++ tail -> blen body + 4 < 2147483648 ->
  (forall s, secret_of c e db name s -> body <> expected md5 name s salt) ->
  let r := startup md5 chk c false salt payload rest e in
  exists w, out r = Rejected w /\
    (w = WInvalidPassword \/ w = WRefetchFailed \/ w = WPassthrough \/ w = WAuthImpossible) /\
    replies r = [RMd5Request salt; RError (EWrongPassword name)].
Proof.
  intros c salt payload rest e name db p u body tail Hl -> Hb Hs r. subst r.
  rewrite (startup_user _ _ _ _ _ _ _ _ _ Hl). destruct Hl as (_ & _ & Hsv & _).
  pose proof (user_md5_cases c e p u db name salt (password_frame body ++ tail)) as H. cbv zeta in H.
  rewrite read_password_frame in H by assumption.
  destruct H as [ev c' _ Hv|ev c' w _ Hw]; [|exists w; auto].
  destruct (valid_body_secret _ _ _ _ _ _ _ _ Hsv Hv) as (s & S1 & S2). exfalso. exact (Hs s S1 S2).
Qed.

(** a user whose only secret is the configured cleartext password *)
Definition cleartext_only (p : pool) (u : user) (pw : bytes) : Prop := u_password u = Some pw /\ p_aq p = false.

Lemma cleartext_wrong_rejected : forall c salt payload e name db p u pw body tail,
  user_login c payload name db p u -> cleartext_only p u pw ->
  body <> pg_md5 md5 name pw salt -> blen body + 4 < 2147483648 ->
  let r := startup md5 chk c false salt payload (password_frame body ++ tail) e in
  exists w, out r = Rejected w /\ replies r = [RMd5Request salt; RError (EWrongPassword name)].
Proof.
  intros c salt payload e name db p u pw body tail Hl Hc Hne Hb.
  destruct (wrong_response_rejected c salt payload _ e name db p u body tail Hl eq_refl Hb) as (w & Ho & _ & Hr);
    [|exists w; auto].
  intros s (p' & u' & Hsv' & Hs). destruct Hl as (_ & _ & Hsv & _). destruct Hc as [Hp Hq].
  destruct (served_unique _ _ _ _ _ _ _ Hsv Hsv') as [<- <-].
  destruct Hs as [(pw' & H1 & ->)|[(h & H1 & _)|(h & H1 & _)]]; [|congruence..].
  replace pw' with pw by congruence. exact Hne.
Qed.

(** *** and the right answer is accepted (the hypotheses above are not vacuous) *)
Lemma correct_response_admitted : forall c salt payload e name db p u pw tail,
  user_login c payload name db p u -> u_password u = Some pw ->
  blen (pg_md5 md5 name pw salt) + 4 < 2147483648 ->
  validated e = true \/ validate_ok e = true ->
  let r := startup md5 chk c false salt payload (password_frame (pg_md5 md5 name pw salt) ++ tail) e in
  out r = PoolAdmitted db name /\ exists pre, replies r = RMd5Request salt :: auth_tail /\ pre = [RMd5Request salt].
Proof.
  intros c salt payload e name db p u pw tail Hl Hp Hb Hv r. subst r.
  rewrite (startup_user _ _ _ _ _ _ _ _ _ Hl). unfold user_md5.
  rewrite read_password_frame by assumption. rewrite Hp, hash_password_eq, bytes_eqb_refl.
  unfold finish_user. destruct (validated e); [cbn; eauto|].
  destruct Hv as [Hv|Hv]; [discriminate|]. rewrite Hv. cbn. eauto.
Qed.

End Main.
