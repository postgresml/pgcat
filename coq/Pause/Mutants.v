(** C16 — two mutants of the gate protocol, each PROVED to lose a wake-up (and the second also to
    let a client through while paused).  They show that [c16_no_lost_wakeup] /
    [c16_held_while_paused] are not statements every protocol satisfies: the order
    "register, then load" in [wait_paused] and "store, then notify" in [resume] is what the
    theorems are about. *)
From Coq Require Import Arith Bool List.
From PV Require Import Pause.Model.
Import ListNotations.

(** * Mutant 1: [load_before_register]
      [let paused = self.paused.load(); let waiter = self.paused_waiter.notified(); if paused { waiter.await }] *)

Inductive mpc : Type :=
| MIdle | MPre (p : bool) | MLoaded (snap : nat) (p : bool) | MWaiting (snap : nat) | MPassed.

Record mstate : Type := mkM { m_paused : bool; m_gen : nat; m_apc : apc_t; m_pcs : client -> mpc }.

Definition m_init : mstate := mkM false 0 AIdle (fun _ => MIdle).

Definition m_set (st : mstate) (c : client) (p : mpc) : mstate :=
  mkM (m_paused st) (m_gen st) (m_apc st) (upd (m_pcs st) c p).

(** Same events as the model; only [CLoad] and [CReg] swap places in the client's program. *)
Definition m1_step (st : mstate) (e : ev) : option mstate :=
  match e with
  | CLoad c => match m_pcs st c with MIdle => Some (m_set st c (MPre (m_paused st))) | _ => None end
  | CReg c => match m_pcs st c with MPre p => Some (m_set st c (MLoaded (m_gen st) p)) | _ => None end
  | CDecide c => match m_pcs st c with
                 | MLoaded s p => Some (m_set st c (if p then MWaiting s else MPassed))
                 | _ => None end
  | CWake c => match m_pcs st c with
               | MWaiting s => if Nat.ltb s (m_gen st) then Some (m_set st c MPassed) else None
               | _ => None end
  | CDone c => match m_pcs st c with MPassed => Some (m_set st c MIdle) | _ => None end
  | APause => match m_apc st with AIdle => Some (mkM true (m_gen st) AIdle (m_pcs st)) | _ => None end
  | AStore => match m_apc st with AIdle => Some (mkM false (m_gen st) AMidResume (m_pcs st)) | _ => None end
  | ANotify => match m_apc st with AMidResume => Some (mkM (m_paused st) (S (m_gen st)) AIdle (m_pcs st)) | _ => None end
  end.

Fixpoint m1_run (st : mstate) (l : list ev) : option mstate :=
  match l with
  | [] => Some st
  | e :: r => match m1_step st e with Some st' => m1_run st' r | None => None end
  end.

Definition m1_reachable (st : mstate) : Prop := exists l, m1_run m_init l = Some st.

(** PAUSE; the client reads [paused = true]; a whole RESUME happens; only then the client creates
    its [Notified] (snapshot = 1 = gen) and goes to sleep: nobody will ever wake it. *)
Definition m1_witness : list ev := [APause; CLoad 0; AStore; ANotify; CReg 0; CDecide 0].

Lemma m1_loses_wakeup : exists st c snap,
  m1_reachable st /\ m_paused st = false /\ m_apc st = AIdle /\
  m_pcs st c = MWaiting snap /\ ~ snap < m_gen st /\ m1_step st (CWake c) = None.
Proof.
  eexists _, 0, 1. split; [exists m1_witness; vm_compute; reflexivity|].
  vm_compute. repeat split. apply Nat.lt_irrefl.
Qed.

(** * Mutant 2: [notify_before_store]
      [resume]: [self.paused_waiter.notify_waiters(); self.paused.store(false)] — the client side
      is the real one ([step_core]); only the two admin steps of a RESUME swap places. *)

Definition m2_step (st : state) (e : ev) : option state :=
  match e with
  | ANotify => match apc st with
               | AIdle => Some (observe (mkState (paused st) (S (gen st)) AMidResume (pcs st) (unpaused_since_reg st)))
               | AMidResume => None end
  | AStore => match apc st with
              | AMidResume => Some (observe (mkState false (gen st) AIdle (pcs st) (unpaused_since_reg st)))
              | AIdle => None end
  | _ => step st e
  end.

Fixpoint m2_run (st : state) (l : list ev) : option state :=
  match l with
  | [] => Some st
  | e :: r => match m2_step st e with Some st' => m2_run st' r | None => None end
  end.

Definition m2_reachable (st : state) : Prop := exists l, m2_run init l = Some st.

(** PAUSE; RESUME notifies (gen = 1); the client registers (snapshot 1) and still reads
    [paused = true]; RESUME stores false; the client sleeps on a notification that already
    happened. *)
Definition m2_witness : list ev := [APause; ANotify; CReg 0; CLoad 0; AStore; CDecide 0].

Lemma m2_loses_wakeup : exists st c snap,
  m2_reachable st /\ paused st = false /\ apc st = AIdle /\
  pcs st c = Waiting snap /\ ~ snap < gen st /\ m2_step st (CWake c) = None.
Proof.
  eexists _, 0, 1. split; [exists m2_witness; vm_compute; reflexivity|].
  vm_compute. repeat split. apply Nat.lt_irrefl.
Qed.

(** ... and a client held by PAUSE is released while [paused] is still true. *)
Definition m2_witness_unsafe : list ev := [APause; CReg 0; CLoad 0; CDecide 0; ANotify; CWake 0].

Lemma m2_passes_while_paused : exists st c,
  m2_reachable st /\ pcs st c = Passed /\ unpaused_since_reg st c = false /\ paused st = true.
Proof.
  eexists _, 0. split; [exists m2_witness_unsafe; vm_compute; reflexivity|].
  vm_compute. repeat split.
Qed.
