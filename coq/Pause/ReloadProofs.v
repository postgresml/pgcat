(** C16 — RELOAD: with a shared pause cell a reload is invisible to the gate (all theorems of
    Proofs.v carry over); with a fresh cell (the code before the repair) held sessions are
    stranded; because a session looks its pool up right before it waits, PAUSE holds after any
    reload history. *)
From Coq Require Import Arith Bool List.
From PV Require Import Pause.Model Pause.Proofs Pause.ReloadModel.
Import ListNotations.

(** What each enabled step does.  A [Base] step of the current code is, for a [CReg], the lookup
    and then the gate step on the cell of the registered pool object ([rs_reg]); for any other
    event the gate step on the cell of the pool object the party addresses ([rs_base]). *)
Inductive rstep_shape (st : rstate) : rev -> rstate -> Prop :=
| rs_base : forall b s', reg_of b = None -> gone st && is_admin b = false ->
    step (cells st (target st b)) b = Some s' ->
    rstep_shape st (Base b) (mkR (upd (cells st) (target st b) s') (registered st) (holds st) (fresh st) (gone st))
| rs_reg : forall c s', gone st = false -> pcs (cells st (holds st c)) c = Idle ->
    step (cells st (registered st)) (CReg c) = Some s' ->
    rstep_shape st (Base (CReg c)) (mkR (upd (cells st) (registered st) s') (registered st)
                                        (upd (holds st) c (registered st)) (fresh st) false)
| rs_shared : rstep_shape st ReloadShared st
| rs_fresh : rstep_shape st ReloadFresh (mkR (cells st) (fresh st) (holds st) (S (fresh st)) false)
| rs_remove : forall s', gone st = false -> run (cells st (registered st)) [AStore; ANotify] = Some s' ->
    rstep_shape st ReloadRemove (mkR (upd (cells st) (registered st) s') (registered st) (holds st) (fresh st) true)
| rs_stay : forall c, gone st = true \/ holds st c = registered st -> rstep_shape st (Refresh c) st
| rs_move : forall c, gone st = false -> holds st c <> registered st -> pcs (cells st (holds st c)) c = Passed ->
    rstep_shape st (Refresh c)
      (mkR (upd (upd (cells st) (holds st c) (set_pc (cells st (holds st c)) c Idle))
                (registered st) (set_pc (cells st (registered st)) c Passed))
           (registered st) (upd (holds st) c (registered st)) (fresh st) false).

Lemma base_on_some : forall st b st', base_on st b = Some st' ->
  exists s', step (cells st (target st b)) b = Some s' /\
             st' = mkR (upd (cells st) (target st b) s') (registered st) (holds st) (fresh st) (gone st).
Proof.
  intros st b st' H. unfold base_on in H.
  destruct (step (cells st (target st b)) b) as [s'|]; inversion H; subst. eauto.
Qed.

Lemma rstep_inv : forall st e st', rstep st e = Some st' -> rstep_shape st e st'.
Proof.
  intros st e st' H. unfold rstep, rstep_gen in H. destruct e as [b| | | |c].
  - destruct (gone st && is_admin b) eqn:GA; [discriminate|]. destruct (reg_of b) as [c|] eqn:R.
    + destruct b; inversion R; subst. destruct (gone st) eqn:G; [discriminate|].
      destruct (pcs (cells st (holds st c)) c) eqn:P; try discriminate.
      destruct (base_on_some _ _ _ H) as (s' & S & ->). unfold target in *.
      cbn [actor cells registered holds fresh gone] in *. rewrite upd_same in *.
      apply rs_reg; assumption.
    + destruct (base_on_some _ _ _ H) as (s' & S & ->). apply rs_base; assumption.
  - inversion H; subst. constructor.
  - inversion H; subst. constructor.
  - destruct (gone st) eqn:G; [discriminate|].
    destruct (run (cells st (registered st)) [AStore; ANotify]) as [s'|] eqn:Er; inversion H; subst.
    apply rs_remove; assumption.
  - destruct (gone st) eqn:G; [inversion H; subst; apply rs_stay; auto|].
    destruct (Nat.eqb_spec (holds st c) (registered st)) as [E|N]; [inversion H; subst; apply rs_stay; auto|].
    destruct (pcs (cells st (holds st c)) c) eqn:P; inversion H; subst. apply rs_move; assumption.
Qed.

Lemma admin_or_client : forall b, is_admin b = true \/ exists c, actor b = Some c.
Proof. intro b. unfold is_admin. destruct (actor b); eauto. Qed.

Lemma resume_result : forall s s', run s [AStore; ANotify] = Some s' -> paused s' = false /\ apc s' = AIdle.
Proof.
  intros s s' H. unfold run, run_gen, step_gen, step_core in H.
  destruct (apc s); inversion H; subst. auto.
Qed.

(** What a step does to one cell: nothing, a session moving in or out ([Refresh]), a gate step
    (by the console only on the registered cell of a pool that is not gone), or the RESUME of a
    removal (on the registered cell). *)
Lemma rstep_cell : forall st e st' k, rstep st e = Some st' ->
  cells st' k = cells st k \/
  (exists c p, cells st' k = set_pc (cells st k) c p) \/
  (exists b, step (cells st k) b = Some (cells st' k) /\
             (is_admin b = true -> gone st = false /\ k = registered st)) \/
  (run (cells st k) [AStore; ANotify] = Some (cells st' k) /\ gone st = false /\ k = registered st).
Proof.
  intros st e st' k H.
  destruct (rstep_inv _ _ _ H) as [b s' _ GA S|c s' _ _ S| | |s' G R|c _|c _ _ _]; cbn [cells]; auto.
  - split_upd k (target st b); [|auto].
    right; right; left. exists b. split; [exact S|].
    intro A. rewrite A, andb_true_r in GA. unfold is_admin in A. unfold target.
    destruct (actor b); [discriminate|auto].
  - split_upd k (registered st); [|auto].
    right; right; left. exists (CReg c). split; [exact S|discriminate].
  - split_upd k (registered st); [right; right; right|]; auto.
  - split_upd k (registered st); [eauto|]. split_upd k (holds st c); eauto.
Qed.

Lemma rrun_cons : forall s e l, rrun s (e :: l) = match rstep s e with Some s' => rrun s' l | None => None end.
Proof. reflexivity. Qed.

Lemma rrun_inv : forall (P : rstate -> Prop) (Q : rev -> Prop),
  (forall st e st', P st -> Q e -> rstep st e = Some st' -> P st') ->
  forall l s st, P s -> Forall Q l -> rrun s l = Some st -> P st.
Proof.
  intros P Q HS. induction l as [|e l IH]; intros s st H0 HQ H.
  - inversion H; subst. exact H0.
  - rewrite rrun_cons in H. destruct (rstep s e) as [s1|] eqn:E; [|discriminate].
    inversion HQ; subst. eauto.
Qed.

(** * A reload that shares the cell is invisible *)

(** Everybody is, and stays, on cell 0; a removed pool has been resumed. *)
Definition on_cell0 (st : rstate) : Prop :=
  registered st = 0 /\ (forall c, holds st c = 0) /\
  (gone st = true -> paused (cells st 0) = false /\ apc (cells st 0) = AIdle).

Lemma shared_step : forall s e s', on_cell0 s -> e <> ReloadFresh -> rstep s e = Some s' ->
  on_cell0 s' /\ run (cells s 0) (erase [e]) = Some (cells s' 0).
Proof.
  intros s e s' (HR & HH & HG) NF H. unfold on_cell0.
  destruct (rstep_inv _ _ _ H) as [b s1 _ GA S|c s1 _ _ S| | |s1 _ R|c _|c _ N _];
    cbn [erase cells registered holds gone]; auto.
  - assert (T : target s b = 0) by (unfold target; destruct (actor b); auto).
    rewrite T in *. rewrite upd_same. unfold run. rewrite (run_cons _ _ _ _ _ S).
    split; [split; [exact HR|split; [exact HH|]]|reflexivity].
    (* a gone pool takes client steps only, and they leave [paused] and [apc] alone *)
    intro G. rewrite G in GA. destruct (admin_or_client b) as [A|[c A]]; [rewrite A in GA; discriminate|].
    destruct (client_step_shared _ _ _ _ _ S A) as (-> & _ & ->). exact (HG G).
  - rewrite HR in *. rewrite upd_same. unfold run. rewrite (run_cons _ _ _ _ _ S).
    split; [split; [reflexivity|split; [|discriminate]]|reflexivity].
    intro d. split_upd d c; auto.
  - contradiction NF. reflexivity.
  - rewrite HR in *. rewrite upd_same. repeat split; auto; apply (resume_result _ _ R).
  - contradiction N. rewrite HH. auto.
Qed.

Lemma erase_cons : forall e l, erase (e :: l) = erase [e] ++ erase l.
Proof. intros [b| | | |c] l; reflexivity. Qed.

(** The extended model projects onto Pause.Model: cell 0 runs the erased schedule. *)
Lemma shared_invisible_from : forall l s st, on_cell0 s -> ~ In ReloadFresh l -> rrun s l = Some st ->
  on_cell0 st /\ run (cells s 0) (erase l) = Some (cells st 0).
Proof.
  induction l as [|e l IH]; intros s st H0 NF H.
  - inversion H; subst. auto.
  - rewrite rrun_cons in H. destruct (rstep s e) as [s1|] eqn:E; [|discriminate].
    destruct (shared_step s e s1 H0) as [H1 R1]; [intros ->; apply NF; left; reflexivity|exact E|].
    destruct (IH s1 st H1) as [H2 R2]; [intro K; apply NF; right; exact K|exact H|].
    split; [exact H2|]. rewrite erase_cons. unfold run in *. rewrite run_app, R1. exact R2.
Qed.

Lemma shared_invisible : forall l st, ~ In ReloadFresh l -> rrun rinit l = Some st ->
  on_cell0 st /\ run init (erase l) = Some (cells st 0).
Proof. intros l st. apply shared_invisible_from. repeat split; discriminate. Qed.

(** * Cells that no RESUME can reach any more

    While the pool is gone, and at any time on a cell that is not the registered one, no step
    changes [paused] or [gen]: the console cannot address the cell. *)
Lemma cell_frozen : forall st e st' k, rstep st e = Some st' -> gone st = true \/ k <> registered st ->
  paused (cells st' k) = paused (cells st k) /\ gen (cells st' k) = gen (cells st k).
Proof.
  intros st e st' k H F.
  assert (X : ~ (gone st = false /\ k = registered st)) by (intros [G K]; destruct F; congruence).
  destruct (rstep_cell _ _ _ k H) as [->|[(c & p & ->)|[(b & S & A)|(_ & G)]]]; auto; [|contradiction].
  destruct (admin_or_client b) as [Ad|[c Ac]]; [contradiction (X (A Ad))|].
  destruct (client_step_shared _ _ _ _ _ S Ac) as (-> & -> & _). auto.
Qed.

(** The code before the repair: a session held at RELOAD time is stranded. *)
Definition fresh_witness : list rev :=
  [Base APause; Base (CReg 0); Base (CLoad 0); Base (CDecide 0); ReloadFresh; Base AStore; Base ANotify].

Lemma reload_fresh_strands : exists st,
  rrun rinit fresh_witness = Some st /\
  paused (cells st (registered st)) = false /\ apc (cells st (registered st)) = AIdle /\
  holds st 0 <> registered st /\
  pcs (cells st (holds st 0)) 0 = Waiting 0 /\ gen (cells st (holds st 0)) = 0 /\
  rstep st (Base (CWake 0)) = None.
Proof. eexists. split; [vm_compute; reflexivity|]. vm_compute. repeat split. discriminate. Qed.

(** * PAUSE holds after any reload history (the session looks its pool up before it waits) *)

Definition held_pc (p : cpc) (g : nat) : Prop := p = Reg g \/ p = Loaded g true \/ p = Waiting g.

(** Every step but those that could legitimately let client [c] through, or start another
    passage of it. *)
Definition quiet (c : client) (e : rev) : Prop :=
  e <> Base AStore /\ e <> ReloadRemove /\ e <> ReloadFresh /\ e <> Base (CReg c).

Definition mid_inv (st : rstate) : Prop :=
  forall k, apc (cells st k) = AMidResume -> paused (cells st k) = false.

Lemma mid_inv_init : mid_inv rinit.
Proof. intros k A. discriminate A. Qed.

Lemma mid_inv_rstep : forall st e st', mid_inv st -> rstep st e = Some st' -> mid_inv st'.
Proof.
  intros st e st' I H k.
  destruct (rstep_cell _ _ _ k H) as [->|[(c & p & ->)|[(b & S & _)|(R & _)]]]; try apply I.
  - exact (mid_step _ _ _ (I k) S).
  - intros _. apply (resume_result _ _ R).
Qed.

Lemma mid_inv_reach : forall l s st, mid_inv s -> rrun s l = Some st -> mid_inv st.
Proof.
  intros l s st I. apply (rrun_inv mid_inv (fun _ => True)); [|exact I|apply Forall_forall; trivial].
  intros s1 e s2 I1 _. exact (mid_inv_rstep s1 e s2 I1).
Qed.

Definition held_by_pause (c : client) (st : rstate) : Prop :=
  holds st c = registered st /\ gone st = false /\
  paused (cells st (registered st)) = true /\ apc (cells st (registered st)) = AIdle /\
  held_pc (pcs (cells st (registered st)) c) (gen (cells st (registered st))).

Lemma held_by_pause_gate : forall c st, held_by_pause c st <->
  holds st c = registered st /\ gone st = false /\ held_gate (cells st (registered st)) c.
Proof.
  intros c st. unfold held_by_pause, held_gate, held_pc.
  assert (K : forall g p, parked g p <-> p = Reg g \/ p = Loaded g true \/ p = Waiting g).
  { intros g p. split; [|intros [-> | [-> | ->]]; reflexivity].
    destruct p as [|s|s [|]|s|]; cbn; intros; subst; tauto. }
  rewrite K. tauto.
Qed.

Lemma held_step : forall c st e st', held_by_pause c st -> quiet c e -> rstep st e = Some st' ->
  held_by_pause c st'.
Proof.
  intros c st e st' J (Q1 & Q2 & Q3 & Q4) H. apply held_by_pause_gate in J. destruct J as (Hh & Hg & J).
  apply held_by_pause_gate.
  destruct (rstep_inv _ _ _ H) as [b s1 _ _ S|c1 s1 _ _ S| | |s1 _ _|d _|d _ N _];
    cbn [cells registered holds gone]; try congruence; auto.
  - split; [exact Hh|split; [exact Hg|]].
    destruct (Nat.eq_dec (registered st) (target st b)) as [T|T]; [|rewrite upd_other by exact T; exact J].
    rewrite <- T, upd_same in *. apply (held_gate_step _ _ _ _ _ S); congruence.
  - rewrite upd_same, upd_other by congruence. split; [exact Hh|split; [reflexivity|]].
    apply (held_gate_step _ _ _ _ _ S); congruence.
  - assert (Hdc : c <> d) by congruence.
    rewrite upd_same, upd_other by exact Hdc. split; [exact Hh|split; [reflexivity|]].
    unfold held_gate, set_pc in *; cbn [paused gen apc pcs]. rewrite upd_other by exact Hdc. exact J.
Qed.

Lemma held_run : forall c l st st', held_by_pause c st -> Forall (quiet c) l -> rrun st l = Some st' ->
  held_by_pause c st'.
Proof. intros c l st st'. apply rrun_inv. exact (held_step c). Qed.

(** After ANY reload history, a client that starts a gate passage (needs a checkout) while the
    registered pool is paused is held for as long as no RESUME / removal / replacement happens —
    whatever pool object its session resolved in the past. *)
Lemma pause_holds_after_reloads : forall l0 s0 c l st,
  rrun rinit l0 = Some s0 -> paused (cells s0 (registered s0)) = true ->
  rrun s0 (Base (CReg c) :: l) = Some st -> Forall (quiet c) l ->
  held_by_pause c st /\ pcs (cells st (holds st c)) c <> Passed.
Proof.
  intros l0 s0 c l st H0 P0 H Q. rewrite rrun_cons in H.
  destruct (rstep s0 (Base (CReg c))) as [s1|] eqn:E; [|discriminate].
  assert (J : held_by_pause c st).
  { apply (held_run c l s1 st); [|exact Q|exact H]. apply held_by_pause_gate.
    apply rstep_inv in E. inversion E as [b s' R|c1 s' _ _ S| | | | |]; subst; [discriminate R|].
    cbn [cells registered holds gone]. rewrite !upd_same. split; [reflexivity|split; [reflexivity|]].
    exact (held_gate_reg _ _ _ _ S P0 (mid_inv_reach l0 rinit s0 mid_inv_init H0 _)). }
  split; [exact J|]. destruct J as (-> & _ & _ & _ & [X|[X|X]]); rewrite X; discriminate.
Qed.

(** The code before the repair (the session waits on the pool object it resolved earlier,
    [rstep_gen false]): the F36 schedule — the user's pool is removed by one RELOAD and added again
    by another, PAUSE, and the old session's statement goes straight through. *)
Definition f36_history : list rev := [ReloadRemove; ReloadFresh; Base APause].
Definition f36_rest : list rev := [Base (CLoad 0); Base (CDecide 0)].

Lemma stale_lookup_refuted : exists s0 st,
  rrun_gen false rinit f36_history = Some s0 /\ gone s0 = false /\ paused (cells s0 (registered s0)) = true /\
  rrun_gen false s0 (Base (CReg 0) :: f36_rest) = Some st /\ Forall (quiet 0) f36_rest /\
  pcs (cells st (holds st 0)) 0 = Passed /\ paused (cells st (registered st)) = true /\
  holds st 0 <> registered st.
Proof.
  do 2 eexists. split; [vm_compute; reflexivity|]. do 2 (split; [reflexivity|]).
  split; [vm_compute; reflexivity|].
  split; [repeat constructor; discriminate|]. vm_compute. repeat split. discriminate.
Qed.
