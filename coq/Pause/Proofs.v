(** C16 — proofs about the pause-gate model (all histories, any number of clients). *)
From Coq Require Import Arith Bool List.
From PV Require Import Pause.Model.
Import ListNotations.

Lemma run_app : forall pdr l1 l2 s,
  run_gen pdr s (l1 ++ l2) = match run_gen pdr s l1 with Some s1 => run_gen pdr s1 l2 | None => None end.
Proof.
  induction l1 as [|a r IH]; intros l2 s; cbn; [reflexivity|].
  destruct (step_gen pdr s a); [apply IH|reflexivity].
Qed.

Lemma run_snoc : forall pdr l s s1 e s2,
  run_gen pdr s l = Some s1 -> step_gen pdr s1 e = Some s2 -> run_gen pdr s (l ++ [e]) = Some s2.
Proof. intros pdr l s s1 e s2 H1 H2. rewrite run_app, H1. cbn. rewrite H2. reflexivity. Qed.

Lemma run_cons : forall pdr st e st' r,
  step_gen pdr st e = Some st' -> run_gen pdr st (e :: r) = run_gen pdr st' r.
Proof. intros pdr st e st' r H. cbn. rewrite H. reflexivity. Qed.

Lemma run_ind : forall pdr s (P : list ev -> state -> Prop),
  P [] s ->
  (forall l st e st', run_gen pdr s l = Some st -> P l st -> step_gen pdr st e = Some st' -> P (l ++ [e]) st') ->
  forall l st, run_gen pdr s l = Some st -> P l st.
Proof.
  intros pdr s P H0 HS. induction l as [|e l IH] using rev_ind; intros st H.
  - inversion H; subst. exact H0.
  - rewrite run_app in H. destruct (run_gen pdr s l) as [s1|] eqn:E; [|discriminate].
    cbn in H. destruct (step_gen pdr s1 e) as [s2|] eqn:E2; inversion H; subst. eapply HS; eauto.
Qed.

Lemma reachable_ind : forall pdr (P : state -> Prop),
  P init -> (forall st e st', P st -> step_gen pdr st e = Some st' -> P st') ->
  forall st, reachable_gen pdr st -> P st.
Proof. intros pdr P H0 HS st [l H]. revert l st H. apply (run_ind pdr init (fun _ => P)); eauto. Qed.

Lemma upd_same : forall A (f : client -> A) c v, upd f c v c = v.
Proof. intros. unfold upd. rewrite Nat.eqb_refl. reflexivity. Qed.

Lemma upd_other : forall A (f : client -> A) c v x, x <> c -> upd f c v x = f x.
Proof. intros. unfold upd. destruct (Nat.eqb_spec x c); [contradiction|reflexivity]. Qed.

(** Is [c0] the point [c] at which an [upd] changed the function? *)
Ltac split_upd c0 c :=
  destruct (Nat.eq_dec c0 c) as [->|?];
  [rewrite ?upd_same in *|rewrite ?upd_other in * by assumption].

(** Shape of a step: what each enabled event does to the core fields (ghost aside). *)
Inductive step_shape (pdr : bool) (st : state) : ev -> state -> Prop :=
| sh_reg : forall c (Epc : pcs st c = Idle),
    step_shape pdr st (CReg c) (mkState (paused st) (gen st) (apc st) (upd (pcs st) c (Reg (gen st)))
                                       (upd (unpaused_since_reg st) c false))
| sh_load : forall c s (Epc : pcs st c = Reg s),
    step_shape pdr st (CLoad c) (set_pc st c (Loaded s (paused st)))
| sh_decide : forall c s p (Epc : pcs st c = Loaded s p),
    step_shape pdr st (CDecide c) (set_pc st c (if p then Waiting s else Passed))
| sh_wake : forall c s (Epc : pcs st c = Waiting s) (Lt : s < gen st),
    step_shape pdr st (CWake c) (set_pc st c Passed)
| sh_done : forall c (Epc : pcs st c = Passed),
    step_shape pdr st (CDone c) (set_pc st c Idle)
| sh_pause : forall (Eapc : apc st = AIdle \/ pdr = true),
    step_shape pdr st APause (mkState true (gen st) (apc st) (pcs st) (unpaused_since_reg st))
| sh_store : forall (Eapc : apc st = AIdle),
    step_shape pdr st AStore (mkState false (gen st) AMidResume (pcs st) (unpaused_since_reg st))
| sh_notify : forall (Eapc : apc st = AMidResume),
    step_shape pdr st ANotify (mkState (paused st) (S (gen st)) AIdle (pcs st) (unpaused_since_reg st)).

Lemma step_core_shape : forall pdr st e st', step_core pdr st e = Some st' -> step_shape pdr st e st'.
Proof.
  intros pdr st e st' H.
  destruct e as [c|c|c|c|c| | |]; unfold step_core in H;
    first [destruct (pcs st c) eqn:E|destruct (apc st) eqn:E]; try discriminate.
  1-3, 5, 8-9: inversion H; subst; econstructor; eassumption.
  - destruct (Nat.ltb_spec snap (gen st)); inversion H; subst. econstructor; eassumption.
  - inversion H; subst. rewrite <- E. constructor. left. exact E.
  - destruct pdr; inversion H; subst. rewrite <- E. constructor. right. reflexivity.
Qed.

Lemma step_gen_inv : forall pdr st e st', step_gen pdr st e = Some st' ->
  exists m, step_shape pdr st e m /\ st' = observe m.
Proof.
  intros pdr st e st' H. unfold step_gen in H.
  destruct (step_core pdr st e) as [m|] eqn:E; inversion H; subst.
  exists m. split; [apply step_core_shape; exact E|reflexivity].
Qed.

Definition same_shared (st st' : state) : Prop :=
  paused st' = paused st /\ gen st' = gen st /\ apc st' = apc st.

Lemma client_step_shared : forall pdr st e st' c, step_gen pdr st e = Some st' -> actor e = Some c ->
  same_shared st st'.
Proof.
  intros pdr st e st' c H A. destruct (step_gen_inv _ _ _ _ H) as [m [Hm ->]].
  destruct Hm; try discriminate A; repeat split.
Qed.

Lemma step_other_actor : forall pdr st e st' c, step_gen pdr st e = Some st' -> actor e <> Some c ->
  pcs st' c = pcs st c.
Proof.
  intros pdr st e st' c H N. destruct (step_gen_inv _ _ _ _ H) as [m [Hm ->]].
  destruct Hm; cbn in *; try reflexivity; apply upd_other; congruence.
Qed.

Lemma idle_step : forall pdr st e st' c, step_gen pdr st e = Some st' ->
  e = CReg c \/ (pcs st' c <> Idle -> pcs st c <> Idle).
Proof.
  intros pdr st e st' c H. destruct (step_gen_inv _ _ _ _ H) as [m [Hm ->]].
  destruct Hm; cbn; auto; split_upd c c0; auto; right; congruence.
Qed.

Lemma passed_step : forall pdr st e st' c, step_gen pdr st e = Some st' -> pcs st c = Passed ->
  pcs st' c = Passed \/ (e = CDone c /\ pcs st' c = Idle).
Proof.
  intros pdr st e st' c H P. destruct (step_gen_inv _ _ _ _ H) as [m [Hm ->]].
  destruct Hm; cbn; auto; split_upd c c0; auto; congruence.
Qed.

Lemma paused_step : forall pdr st e st', step_gen pdr st e = Some st' -> e <> AStore ->
  paused st = true -> paused st' = true.
Proof.
  intros pdr st e st' H N P. destruct (step_gen_inv _ _ _ _ H) as [m [Hm ->]].
  destruct Hm; cbn; congruence.
Qed.

(** With one console, [paused] is false between the two halves of a RESUME. *)
Lemma mid_step : forall st e st', (apc st = AMidResume -> paused st = false) -> step st e = Some st' ->
  apc st' = AMidResume -> paused st' = false.
Proof.
  intros st e st' I H. destruct (step_gen_inv _ _ _ _ H) as [m [Hm ->]].
  destruct Hm as [| | | | |[A|]| |]; cbn; auto; congruence.
Qed.

Lemma ghost_step : forall pdr st e st' c, step_gen pdr st e = Some st' -> unpaused_since_reg st' c = true ->
  (e <> CReg c /\ unpaused_since_reg st c = true) \/ (at_gate (pcs st' c) = true /\ paused st' = false).
Proof.
  intros pdr st e st' c H U. destruct (step_gen_inv _ _ _ _ H) as [m [Hm ->]].
  cbn in *. apply orb_true_iff in U. destruct U as [U|U].
  - left. destruct Hm; cbn in U; try (split; [discriminate|exact U]).
    split_upd c c0; [discriminate|split; [congruence|exact U]].
  - right. apply andb_true_iff in U. destruct U as [G P]. apply negb_true_iff in P. auto.
Qed.

(** The client's own program up to the gate: at [pc], its event [k c] is enabled and leads to
    [pc']; nothing else of the state moves. *)
Inductive own_move (st : state) : cpc -> (client -> ev) -> cpc -> Prop :=
| mv_reg : own_move st Idle CReg (Reg (gen st))
| mv_load : forall s, own_move st (Reg s) CLoad (Loaded s (paused st))
| mv_decide : forall s p, own_move st (Loaded s p) CDecide (if p then Waiting s else Passed)
| mv_wake : forall s, s < gen st -> own_move st (Waiting s) CWake Passed.

Lemma do_move : forall st c {pc k pc'}, pcs st c = pc -> own_move st pc k pc' ->
  exists st', step st (k c) = Some st' /\ pcs st' c = pc' /\ same_shared st st'.
Proof.
  intros st c pc k pc' E M. unfold step, step_gen.
  destruct M as [|s|s p|s L]; cbn [step_core]; rewrite E; try (apply Nat.ltb_lt in L; rewrite L);
    (eexists; split; [reflexivity|]); unfold same_shared; cbn; rewrite upd_same; auto.
Qed.

(** * No lost wake-up (also with a second console pausing in the middle of a RESUME) *)

(** What the counter says about one client: its snapshot is not ahead of [gen]; and if it waits,
    or has decided to, while the pool is un-paused and no RESUME is half done, then the
    [notify_waiters] it waits for has happened.  [AStore] and [APause] falsify the premise,
    [ANotify] turns [s <= gen] into [s < S gen], a client inherits from its previous pc. *)
Definition counter_ok (st : state) (pc : cpc) : Prop :=
  match pc with
  | Idle | Passed => True
  | Reg s | Loaded s false => s <= gen st
  | Loaded s true | Waiting s => s <= gen st /\ (paused st = false -> apc st = AIdle -> s < gen st)
  end.

Definition Inv (st : state) : Prop := forall c, counter_ok st (pcs st c).

Lemma inv_init : Inv init.
Proof. intro c. exact I. Qed.

Lemma inv_step : forall pdr st e st', Inv st -> step_gen pdr st e = Some st' -> Inv st'.
Proof.
  intros pdr st e st' HI H c0. specialize (HI c0).
  destruct (step_gen_inv _ _ _ _ H) as [m [Hm ->]]. unfold counter_ok in *.
  destruct Hm; cbn; try (split_upd c0 c; [rewrite Epc in HI|exact HI]); cbn.
  - apply le_n.
  - destruct (paused st) eqn:P; [split; [exact HI|congruence]|exact HI].
  - destruct p; [exact HI|exact I].
  - exact I.
  - exact I.
  - destruct (pcs st c0) as [|s|s [|]|s|]; intuition discriminate.
  - destruct (pcs st c0) as [|s|s [|]|s|]; intuition discriminate.
  - destruct (pcs st c0) as [|s|s [|]|s|]; intuition auto with arith.
Qed.

Lemma reach_inv : forall pdr st, reachable_gen pdr st -> Inv st.
Proof. intro pdr. apply reachable_ind; [exact inv_init|exact (inv_step pdr)]. Qed.

(** A [Notified] never carries a snapshot from the future: polled with [snap <> gen] means
    polled with [snap < gen]. *)
Lemma snap_le_gen : forall pdr st, reachable_gen pdr st -> forall c s, pcs st c = Waiting s -> s <= gen st.
Proof. intros pdr st R c s Hc. pose proof (reach_inv pdr st R c) as HI. rewrite Hc in HI. apply HI. Qed.

Lemma no_lost_wakeup_gen : forall pdr st, reachable_gen pdr st -> paused st = false -> apc st = AIdle ->
  forall c snap, pcs st c = Waiting snap -> snap < gen st.
Proof.
  intros pdr st R Hp Ha c s Hc. pose proof (reach_inv pdr st R c) as HI.
  rewrite Hc in HI. apply HI; assumption.
Qed.

Lemma finish_own : forall c st,
  Forall (fun e => actor e = Some c) (finish c st) /\ length (finish c st) <= 3.
Proof.
  intros c st. unfold finish.
  destruct (pcs st c) as [|s|s [|]|s|]; cbn; split; repeat constructor.
Qed.

Lemma finish_passes : forall st c, Inv st -> paused st = false -> apc st = AIdle ->
  exists st', run st (finish c st) = Some st' /\ pcs st' c = Passed.
Proof.
  intros st c HI Hp Ha. specialize (HI c). unfold finish, run.
  destruct (pcs st c) as [|s|s p|s|] eqn:E; cbn in HI.
  - destruct (do_move st c E (mv_reg st)) as (s1 & S1 & P1 & Q1 & _).
    destruct (do_move s1 c P1 (mv_load s1 _)) as (s2 & S2 & P2 & _). rewrite Q1, Hp in P2.
    destruct (do_move s2 c P2 (mv_decide s2 _ _)) as (s3 & S3 & P3 & _).
    exists s3. rewrite (run_cons _ _ _ _ _ S1), (run_cons _ _ _ _ _ S2), (run_cons _ _ _ _ _ S3). auto.
  - destruct (do_move st c E (mv_load st _)) as (s2 & S2 & P2 & _). rewrite Hp in P2.
    destruct (do_move s2 c P2 (mv_decide s2 _ _)) as (s3 & S3 & P3 & _).
    exists s3. rewrite (run_cons _ _ _ _ _ S2), (run_cons _ _ _ _ _ S3). auto.
  - destruct (do_move st c E (mv_decide st _ _)) as (s2 & S2 & P2 & _ & G2 & _). destruct p.
    + destruct HI as [_ L]. rewrite <- G2 in L.
      destruct (do_move s2 c P2 (mv_wake s2 _ (L Hp Ha))) as (s3 & S3 & P3 & _).
      exists s3. rewrite (run_cons _ _ _ _ _ S2), (run_cons _ _ _ _ _ S3). auto.
    + exists s2. rewrite (run_cons _ _ _ _ _ S2). auto.
  - destruct HI as [_ L]. destruct (do_move st c E (mv_wake st _ (L Hp Ha))) as (s3 & S3 & P3 & _).
    exists s3. rewrite (run_cons _ _ _ _ _ S3). auto.
  - exists st. auto.
Qed.

(** * Gate safety (one console) *)

(** [due g pc]: the client has been let through, or will be without looking at [paused] again
    (it read [false], or its [Notified] of generation [s < g] is complete). *)
Definition due (g : nat) (pc : cpc) : Prop :=
  match pc with
  | Idle => False
  | Loaded _ false | Passed => True
  | Reg s | Loaded s true | Waiting s => s < g
  end.

Definition justified (st : state) (c : client) : Prop :=
  due (gen st) (pcs st c) -> unpaused_since_reg st c = true.

Record Inv1 (st : state) : Prop := {
  inv_mid : apc st = AMidResume -> paused st = false;
  inv_just : forall c, justified st c
}.

Lemma inv1_init : Inv1 init.
Proof. split; [discriminate|intros c []]. Qed.

(** The ghost only grows while [due] stays what it was, ... *)
Lemma just_frame : forall g pc (u b : bool), (due g pc -> u = true) -> due g pc -> u || b = true.
Proof. intros g pc u b J D. rewrite (J D). reflexivity. Qed.

(** ... and at an instant at which [paused] is false it is set for everyone at the gate. *)
Lemma just_unpaused : forall g g' pc (u : bool), (due g pc -> u = true) -> due g' pc ->
  u || at_gate pc && true = true.
Proof.
  intros g g' [|s|s [|]|s|] u J D; cbn; try apply orb_true_r; [destruct D|rewrite (J I); reflexivity].
Qed.

Lemma inv1_step : forall st e st', Inv1 st -> step st e = Some st' -> Inv1 st'.
Proof.
  intros st e st' [HM HJ] H. split; [exact (mid_step _ _ _ HM H)|].
  intro c0. specialize (HJ c0). destruct (step_gen_inv _ _ _ _ H) as [m [Hm ->]].
  unfold justified in *.
  destruct Hm; cbn; try (split_upd c0 c; [rewrite Epc in HJ|exact (just_frame _ _ _ _ HJ)]); cbn.
  - (* a fresh [Notified] is not complete *) intro L. destruct (Nat.lt_irrefl _ L).
  - destruct (paused st); [exact (just_frame _ _ _ _ HJ)|intros _; apply orb_true_r].
  - destruct p; exact (just_frame _ _ _ _ HJ).
  - intros _. rewrite (HJ Lt). reflexivity.
  - intros [].
  - exact (just_frame _ _ _ _ HJ).
  - exact (just_unpaused _ _ _ _ HJ).
  - (* [gen] grows while [paused] is still false *) rewrite (HM Eapc). exact (just_unpaused _ _ _ _ HJ).
Qed.

Lemma reach_inv1 : forall st, reachable st -> Inv1 st.
Proof. apply reachable_ind; [exact inv1_init|exact inv1_step]. Qed.

Lemma held_while_paused : forall st, reachable st ->
  forall c, pcs st c = Passed -> unpaused_since_reg st c = true.
Proof.
  intros st R c Hc. pose proof (inv_just st (reach_inv1 st R) c) as J.
  unfold justified in J. rewrite Hc in J. exact (J I).
Qed.

Lemma mid_resume_unpaused : forall st, reachable st -> apc st = AMidResume -> paused st = false.
Proof. intros st R. exact (inv_mid st (reach_inv1 st R)). Qed.

(** ** The ghost means what it says: a ghost-free statement over schedules.

    If the ghost of [c] is set after schedule [l], then [l] splits as [l1 ++ l2] where [l1]
    contains [c]'s latest registration, [l2] contains no registration of [c], and [paused] was
    false in the state reached after [l1] — i.e. at some instant at or after it registered. *)

Lemma reg_before : forall pdr l st c, run_gen pdr init l = Some st -> pcs st c <> Idle -> In (CReg c) l.
Proof.
  intros pdr l st c. revert l st.
  apply (run_ind pdr init (fun l st => pcs st c <> Idle -> In (CReg c) l)).
  - intro N. contradiction N. reflexivity.
  - intros l st e st' _ IH S N. apply in_or_app.
    destruct (idle_step _ _ _ _ c S) as [->|K]; [right; left; reflexivity|auto].
Qed.

Lemma ghost_sound : forall pdr l st c, run_gen pdr init l = Some st -> unpaused_since_reg st c = true ->
  exists l1 l2 st1, l = l1 ++ l2 /\ run_gen pdr init l1 = Some st1 /\ paused st1 = false /\
                    In (CReg c) l1 /\ ~ In (CReg c) l2.
Proof.
  intros pdr l st c. revert l st.
  apply (run_ind pdr init (fun l st => unpaused_since_reg st c = true -> exists l1 l2 st1,
    l = l1 ++ l2 /\ run_gen pdr init l1 = Some st1 /\ paused st1 = false /\ In (CReg c) l1 /\ ~ In (CReg c) l2));
    [discriminate|].
  intros l st e st' R IH S U. pose proof (run_snoc _ _ _ _ _ _ R S) as R'.
  destruct (ghost_step _ _ _ _ c S U) as [[Ne U0]|[G P]].
  - destruct (IH U0) as (l1 & l2 & st1 & -> & R1 & P1 & I1 & N2).
    exists l1, (l2 ++ [e]), st1. rewrite app_assoc. repeat split; auto.
    intro K. apply in_app_or in K. destruct K as [K|[K|[]]]; auto.
  - exists (l ++ [e]), [], st'. rewrite app_nil_r. repeat split; auto.
    apply (reg_before _ _ _ _ R'). intro E. rewrite E in G. discriminate.
Qed.

Lemma held_while_paused_trace : forall l st c, run init l = Some st -> pcs st c = Passed ->
  exists l1 l2 st1, l = l1 ++ l2 /\ run init l1 = Some st1 /\ paused st1 = false /\
                    In (CReg c) l1 /\ ~ In (CReg c) l2.
Proof.
  intros l st c H Hc. apply (ghost_sound false l st c H).
  apply held_while_paused; [exists l; exact H|exact Hc].
Qed.

(** ** A client that registers while the pool is paused stays held for as long as no RESUME
    stores [false]. *)

Lemma paused_stays : forall l s st, run s l = Some st -> paused s = true -> ~ In AStore l -> paused st = true.
Proof.
  intros l s st H P. revert l st H.
  apply (run_ind false s (fun l st => ~ In AStore l -> paused st = true)); [auto|].
  intros l st e st' _ IH S N. apply (paused_step _ _ _ _ S).
  - intros ->. apply N, in_or_app. right. left. reflexivity.
  - apply IH. intro K. apply N, in_or_app. left. exact K.
Qed.

(** [parked g pc]: the client waits, or is about to, on a [Notified] of the current generation. *)
Definition parked (g : nat) (pc : cpc) : Prop :=
  match pc with Reg s | Loaded s true | Waiting s => s = g | _ => False end.

(** The situation of a client held by PAUSE: kept by every step except the store of a RESUME
    ([ANotify], its own [CWake] and a new registration of the client are not enabled). *)
Definition held_gate (st : state) (c : client) : Prop :=
  paused st = true /\ apc st = AIdle /\ parked (gen st) (pcs st c).

Lemma held_gate_step : forall pdr st e st' c, step_gen pdr st e = Some st' ->
  e <> AStore -> held_gate st c -> held_gate st' c.
Proof.
  intros pdr st e st' c H NS (P & A & K). destruct (step_gen_inv _ _ _ _ H) as [m [Hm ->]].
  unfold held_gate.
  destruct Hm; cbn; try congruence; try (split_upd c c0; [rewrite Epc in K|auto]); cbn in *; auto.
  - rewrite P. auto.
  - destruct p; [auto|destruct K].
  - rewrite K in Lt. destruct (Nat.lt_irrefl _ Lt).
Qed.

Lemma held_gate_run : forall pdr c l s st, run_gen pdr s l = Some st ->
  held_gate s c -> ~ In AStore l -> held_gate st c.
Proof.
  intros pdr c l s st H G. revert l st H.
  apply (run_ind pdr s (fun l st => ~ In AStore l -> held_gate st c)); [auto|].
  intros l st e st' _ IH S NS.
  apply (held_gate_step _ _ _ _ _ S); [intros ->|apply IH; intro K]; apply NS, in_or_app; auto using in_eq.
Qed.

Lemma held_gate_reg : forall pdr st c st', step_gen pdr st (CReg c) = Some st' -> paused st = true ->
  (apc st = AMidResume -> paused st = false) -> held_gate st' c.
Proof.
  intros pdr st c st' H P M. destruct (step_gen_inv _ _ _ _ H) as [m [Hm ->]].
  inversion Hm; subst. unfold held_gate; cbn. rewrite upd_same. repeat split; [exact P|].
  destruct (apc st); [reflexivity|]. rewrite M in P by reflexivity. discriminate.
Qed.

Lemma arrival_while_paused_is_held : forall l0 l s0 st c,
  run init l0 = Some s0 -> paused s0 = true ->
  run s0 (CReg c :: l) = Some st -> ~ In AStore l -> pcs st c <> Passed.
Proof.
  intros l0 l s0 st c H0 P0 H NS.
  unfold run in H. cbn in H. destruct (step_gen false s0 (CReg c)) as [s1|] eqn:S1; [|discriminate].
  pose proof (held_gate_reg _ _ _ _ S1 P0 (mid_resume_unpaused s0 (ex_intro _ l0 H0))) as G.
  destruct (held_gate_run _ _ _ _ _ H G NS) as (_ & _ & K). intro E. rewrite E in K. exact K.
Qed.

(** * The two-console race is outside the guarantee *)

Definition two_admin_schedule : list ev :=
  [APause; AStore; APause; CReg 0; CLoad 0; CDecide 0; ANotify; CWake 0].

Lemma two_admin_refuted : exists st, reachable_gen true st /\ pcs st 0 = Passed /\ unpaused_since_reg st 0 = false
                                     /\ paused st = true.
Proof. eexists. split; [exists two_admin_schedule; vm_compute; reflexivity|]. vm_compute. auto. Qed.
