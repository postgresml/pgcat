(** C16 — property theorems only.  Each is an instance or a short corollary of a theorem of
    Proofs.v / ReloadProofs.v / Mutants.v and is audited with [Print Assumptions]; [Example]s show
    non-vacuity and pin the model's behaviour on the schedules the property text talks about. *)
From Coq Require Import Arith Bool List.
From PV Require Import Pause.Model Pause.Proofs Pause.Mutants Pause.ReloadModel Pause.ReloadProofs.
Import ListNotations.

(** Every schedule (list of atomic steps of any length, over any number of clients) that the
    model can execute ends in a [reachable] state: the theorems below quantify over all of them. *)
Theorem c16_every_schedule : forall l st, run init l = Some st -> reachable st.
Proof. intros l st H. exists l. exact H. Qed.
Print Assumptions c16_every_schedule.

(** RESUME releases everyone: once [paused = false] and no RESUME is half done, every client
    suspended in [waiter.await] holds a [Notified] older than the last [notify_waiters], i.e. its
    wake-up has been delivered ([CWake] is enabled).  No client sleeps through a RESUME that
    raced with its arrival. *)
Theorem c16_no_lost_wakeup : forall st, reachable st -> paused st = false -> apc st = AIdle ->
  forall c snap, pcs st c = Waiting snap -> snap < gen st.
Proof. exact (no_lost_wakeup_gen false). Qed.
Print Assumptions c16_no_lost_wakeup.

(** ... and taking that step puts the client past the gate without touching anyone else. *)
Theorem c16_wake_progress : forall st, reachable st -> paused st = false -> apc st = AIdle ->
  forall c snap, pcs st c = Waiting snap ->
  exists st', step st (CWake c) = Some st' /\ pcs st' c = Passed /\
              (forall d, d <> c -> pcs st' d = pcs st d) /\ paused st' = paused st /\ apc st' = apc st.
Proof.
  intros st R Hp Ha c s Hc.
  destruct (do_move st c Hc (mv_wake st s (no_lost_wakeup_gen false st R Hp Ha c s Hc))) as (st' & S & P & Q1 & _ & Q3).
  exists st'. repeat split; auto.
  intros d Hd. apply (step_other_actor _ _ _ _ d S). cbn. congruence.
Qed.
Print Assumptions c16_wake_progress.

(** Wherever a client is (idle, registered, loaded, suspended), after a completed RESUME it gets
    past the gate by at most three steps of its own, with no further admin step. *)
Theorem c16_client_progress : forall st, reachable st -> paused st = false -> apc st = AIdle ->
  forall c, exists st', run st (finish c st) = Some st' /\ pcs st' c = Passed /\
                        Forall (fun e => actor e = Some c) (finish c st) /\ length (finish c st) <= 3.
Proof.
  intros st R Hp Ha c. destruct (finish_passes st c (reach_inv false st R) Hp Ha) as (st' & S & P).
  exists st'. destruct (finish_own c st). auto.
Qed.
Print Assumptions c16_client_progress.

(** The same no-lost-wake-up statement holds when a second console may PAUSE in the middle of a
    RESUME ([pdr = true]). *)
Theorem c16_no_lost_wakeup_two_admins : forall pdr st, reachable_gen pdr st -> paused st = false ->
  apc st = AIdle -> forall c snap, pcs st c = Waiting snap -> snap < gen st.
Proof. exact no_lost_wakeup_gen. Qed.
Print Assumptions c16_no_lost_wakeup_two_admins.

(** PAUSE holds: a client is past the gate only if [paused] was false at some instant at or after
    its latest registration (ghost form).  This is the exact guarantee of code that reads
    [paused] once: it does NOT say that [paused] is false at the instant of passing. *)
Theorem c16_held_while_paused : forall st, reachable st ->
  forall c, pcs st c = Passed -> unpaused_since_reg st c = true.
Proof. exact held_while_paused. Qed.
Print Assumptions c16_held_while_paused.

(** Ghost-free form over schedules. *)
Theorem c16_held_while_paused_trace : forall l st c, run init l = Some st -> pcs st c = Passed ->
  exists l1 l2 st1, l = l1 ++ l2 /\ run init l1 = Some st1 /\ paused st1 = false /\
                    In (CReg c) l1 /\ ~ In (CReg c) l2.
Proof. exact held_while_paused_trace. Qed.
Print Assumptions c16_held_while_paused_trace.

(** A client that arrives while the pool is paused is not let through as long as no RESUME has
    stored [false] (however the other clients and PAUSEs interleave). *)
Theorem c16_arrival_while_paused_is_held : forall l0 l s0 st c,
  run init l0 = Some s0 -> paused s0 = true ->
  run s0 (CReg c :: l) = Some st -> ~ In AStore l -> ~ In (CReg c) l ->
  pcs st c <> Passed.
Proof. intros l0 l s0 st c H0 P0 H NS _. exact (arrival_while_paused_is_held l0 l s0 st c H0 P0 H NS). Qed.
Print Assumptions c16_arrival_while_paused_is_held.

(** Transactions already running finish normally: no step of the admin console or of another
    client changes the pc of a client; a client past the gate leaves that state only by its own
    [CDone]. *)
Theorem c16_running_unaffected : forall st e st' c, step st e = Some st' -> pcs st c = Passed ->
  (actor e = None -> pcs st' c = Passed) /\ (pcs st' c <> Passed -> e = CDone c /\ pcs st' c = Idle).
Proof.
  intros st e st' c H Hc. split.
  - intro A. rewrite (step_other_actor _ _ _ _ c H); [exact Hc|congruence].
  - destruct (passed_step _ _ _ _ c H Hc); tauto.
Qed.
Print Assumptions c16_running_unaffected.

Theorem c16_steps_are_local : forall pdr st e st' c, step_gen pdr st e = Some st' -> actor e <> Some c ->
  pcs st' c = pcs st c.
Proof. exact step_other_actor. Qed.
Print Assumptions c16_steps_are_local.

(** Outside the guarantee, documented: two consoles, PAUSE issued between the store and the
    notify of another console's RESUME — a client that arrived after that PAUSE is released by the
    stale notify although [paused] was true ever since it registered. *)
Theorem c16_two_admin_refuted : exists st, reachable_gen true st /\ pcs st 0 = Passed /\
  unpaused_since_reg st 0 = false /\ paused st = true.
Proof. exact two_admin_refuted. Qed.
Print Assumptions c16_two_admin_refuted.

(** The theorems discriminate: both re-orderings of the protocol lose a wake-up. *)
Theorem c16_mutant_load_before_register_refuted : exists st c snap,
  m1_reachable st /\ m_paused st = false /\ m_apc st = AIdle /\
  m_pcs st c = MWaiting snap /\ ~ snap < m_gen st /\ m1_step st (CWake c) = None.
Proof. exact m1_loses_wakeup. Qed.
Print Assumptions c16_mutant_load_before_register_refuted.

Theorem c16_mutant_notify_before_store_refuted : exists st c snap,
  m2_reachable st /\ paused st = false /\ apc st = AIdle /\
  pcs st c = Waiting snap /\ ~ snap < gen st /\ m2_step st (CWake c) = None.
Proof. exact m2_loses_wakeup. Qed.
Print Assumptions c16_mutant_notify_before_store_refuted.

Theorem c16_mutant_notify_before_store_unsafe : exists st c,
  m2_reachable st /\ pcs st c = Passed /\ unpaused_since_reg st c = false /\ paused st = true.
Proof. exact m2_passes_while_paused. Qed.
Print Assumptions c16_mutant_notify_before_store_unsafe.

(** * RELOAD (a pool object replaced while sessions hold the old one)

    With the repaired [from_config] the new pool object shares the old one's pause flag and
    [Notify] ([ReloadShared]): any schedule with such reloads (and sessions re-resolving their pool)
    is, for the gate, the schedule without them — every session still holds, and the console still
    addresses, cell 0, which evolves exactly as Pause.Model on the erased schedule. *)
Theorem c16_reload_shared_is_invisible : forall l st, ~ In ReloadFresh l -> rrun rinit l = Some st ->
  registered st = 0 /\ (forall c, holds st c = 0) /\ run init (erase l) = Some (cells st 0) /\
  (gone st = true -> paused (cells st 0) = false /\ apc (cells st 0) = AIdle).
Proof. intros l st NF H. destruct (shared_invisible l st NF H) as [(R & HH & G) Run]. auto. Qed.
Print Assumptions c16_reload_shared_is_invisible.

Theorem c16_no_lost_wakeup_with_reload : forall l st, ~ In ReloadFresh l -> rrun rinit l = Some st ->
  paused (cells st (registered st)) = false -> apc (cells st (registered st)) = AIdle ->
  forall c snap, pcs (cells st (holds st c)) c = Waiting snap -> snap < gen (cells st (holds st c)).
Proof.
  intros l st NF H Hp Ha c snap Hc. destruct (shared_invisible l st NF H) as [(R & HH & _) Run].
  rewrite R in Hp, Ha. rewrite HH in *.
  exact (no_lost_wakeup_gen false _ (ex_intro _ _ Run) Hp Ha c snap Hc).
Qed.
Print Assumptions c16_no_lost_wakeup_with_reload.

Theorem c16_held_while_paused_with_reload : forall l st, ~ In ReloadFresh l -> rrun rinit l = Some st ->
  forall c, pcs (cells st (holds st c)) c = Passed ->
  exists l1 l2 st1, erase l = l1 ++ l2 /\ run init l1 = Some st1 /\ paused st1 = false /\
                    In (CReg c) l1 /\ ~ In (CReg c) l2.
Proof.
  intros l st NF H c Hc. destruct (shared_invisible l st NF H) as [(_ & HH & _) Run].
  rewrite HH in Hc. exact (held_while_paused_trace _ _ c Run Hc).
Qed.
Print Assumptions c16_held_while_paused_with_reload.

(** A RELOAD that removes the pool ([ReloadRemove]: the repaired [from_config] resumes the pool it
    drops) releases its sessions for good: every session sits on a reachable, un-paused cell with
    no resume in flight, every suspended client has its wake-up ([c16_client_progress] then takes
    it past the gate), and while the pool is gone nothing can pause that cell again. *)
Theorem c16_removed_pool_releases : forall l st, ~ In ReloadFresh l -> rrun rinit l = Some st -> gone st = true ->
  forall c, reachable (cells st (holds st c)) /\
            paused (cells st (holds st c)) = false /\ apc (cells st (holds st c)) = AIdle /\
            (forall snap, pcs (cells st (holds st c)) c = Waiting snap -> snap < gen (cells st (holds st c))).
Proof.
  intros l st NF H G c. destruct (shared_invisible l st NF H) as [(_ & HH & HG) Run].
  destruct (HG G) as [P A]. rewrite HH.
  pose proof (ex_intro _ _ Run : reachable (cells st 0)) as Re.
  repeat split; auto. intro snap. exact (no_lost_wakeup_gen false _ Re P A c snap).
Qed.
Print Assumptions c16_removed_pool_releases.

Theorem c16_gone_pool_stays_unpaused : forall st e st' k, rstep st e = Some st' -> gone st = true ->
  paused (cells st' k) = paused (cells st k) /\ gen (cells st' k) = gen (cells st k).
Proof. intros st e st' k H G. apply (cell_frozen st e st' k H). left. exact G. Qed.
Print Assumptions c16_gone_pool_stays_unpaused.

(** After ANY reload history — shared replacements, removals, a removed pool added again with a
    fresh flag and [Notify] ([ReloadFresh] after [ReloadRemove]), sessions that re-resolved their
    pool or not — a client that needs a checkout while the REGISTERED pool is paused is held (old
    sessions included: the session looks its pool up right before it waits), for as long as no
    RESUME, removal or replacement of that pool happens. *)
Theorem c16_pause_holds_after_reloads : forall l0 s0 c l st,
  rrun rinit l0 = Some s0 -> gone s0 = false -> paused (cells s0 (registered s0)) = true ->
  rrun s0 (Base (CReg c) :: l) = Some st -> Forall (quiet c) l ->
  held_by_pause c st /\ pcs (cells st (holds st c)) c <> Passed.
Proof. intros l0 s0 c l st H0 _. exact (pause_holds_after_reloads l0 s0 c l st H0). Qed.
Print Assumptions c16_pause_holds_after_reloads.

(** The lookup before the wait is what makes it true: with the session waiting on the pool object
    it resolved earlier ([rrun_gen false], the code before commit "a session whose user was removed
    and re-added by reloads is held by PAUSE again") the same statement fails on the F36 schedule:
    remove, re-add, PAUSE, and the old session's statement is past the gate. *)
Theorem c16_stale_pool_lookup_refuted : exists s0 st,
  rrun_gen false rinit f36_history = Some s0 /\ gone s0 = false /\ paused (cells s0 (registered s0)) = true /\
  rrun_gen false s0 (Base (CReg 0) :: f36_rest) = Some st /\ Forall (quiet 0) f36_rest /\
  pcs (cells st (holds st 0)) 0 = Passed /\ paused (cells st (registered st)) = true /\
  holds st 0 <> registered st.
Proof. exact stale_lookup_refuted. Qed.
Print Assumptions c16_stale_pool_lookup_refuted.

(** The code before the repair (fresh flag and [Notify] for a replaced pool): PAUSE, a client is
    held, RELOAD, RESUME completes on the registered pool — the client still sleeps on the old
    cell, whose generation no step can change any more.  (Finding C16-RELOAD-WHILE-PAUSED, fixed.) *)
Theorem c16_reload_fresh_refuted : exists st,
  rrun rinit fresh_witness = Some st /\
  paused (cells st (registered st)) = false /\ apc (cells st (registered st)) = AIdle /\
  holds st 0 <> registered st /\
  pcs (cells st (holds st 0)) 0 = Waiting 0 /\ gen (cells st (holds st 0)) = 0 /\
  rstep st (Base (CWake 0)) = None.
Proof. exact reload_fresh_strands. Qed.
Print Assumptions c16_reload_fresh_refuted.

Theorem c16_detached_cell_frozen : forall st e st' k, rstep st e = Some st' -> k <> registered st ->
  gen (cells st' k) = gen (cells st k) /\ paused (cells st' k) = paused (cells st k).
Proof. intros st e st' k H N. apply and_comm, (cell_frozen st e st' k H). right. exact N. Qed.
Print Assumptions c16_detached_cell_frozen.

(** * Non-vacuity / spec validation *)

Definition final (n : nat) (l : list ev) : option (bool * bool * list vpc) :=
  match run init l with Some st => Some (view n st) | None => None end.

(** PAUSE holds an arriving client ... *)
Example ex_held : final 1 [APause; CReg 0; CLoad 0; CDecide 0] = Some (true, false, [VBlocked]).
Proof. vm_compute. reflexivity. Qed.

(** ... RESUME releases it (the premise of [c16_no_lost_wakeup] is satisfiable with a waiting
    client: after [ANotify] client 0 is [Waiting 0] with [gen = 1]). *)
Example ex_released_enabled :
  match run init [APause; CReg 0; CLoad 0; CDecide 0; AStore; ANotify] with
  | Some st => (paused st, apc st, pcs st 0, gen st) = (false, AIdle, Waiting 0, 1)
  | None => False end.
Proof. vm_compute. reflexivity. Qed.

Example ex_released : final 1 [APause; CReg 0; CLoad 0; CDecide 0; AStore; ANotify; CWake 0]
                      = Some (false, false, [VPassed]).
Proof. vm_compute. reflexivity. Qed.

(** The race of the property text: the whole RESUME happens between the client's load and its
    await; the client still gets through. *)
Example ex_resume_races_arrival :
  final 1 [APause; CReg 0; CLoad 0; AStore; ANotify; CDecide 0; CWake 0] = Some (false, false, [VPassed]).
Proof. vm_compute. reflexivity. Qed.

(** Between the store and the notify a suspended client is (legitimately) still blocked. *)
Example ex_mid_resume_blocked :
  final 1 [APause; CReg 0; CLoad 0; CDecide 0; AStore] = Some (false, true, [VBlocked]).
Proof. vm_compute. reflexivity. Qed.

(** A running transaction is not disturbed by PAUSE, and its client is held at its next one. *)
Example ex_running_then_held :
  final 2 [CReg 0; CLoad 0; CDecide 0; APause; CDone 0; CReg 0; CLoad 0; CDecide 0; CReg 1; CLoad 1]
  = Some (true, false, [VBlocked; VLoaded true]).
Proof. vm_compute. reflexivity. Qed.

(** [wait_paused] does not loop: a client released by RESUME proceeds although PAUSE was issued
    again before it ran; [paused] is read once: a client that read [false] proceeds although
    PAUSE came in between.  Both are inside the guarantee of [c16_held_while_paused]. *)
Example ex_repause_after_release :
  match run init [APause; CReg 0; CLoad 0; CDecide 0; AStore; ANotify; APause; CWake 0] with
  | Some st => (paused st, pcs st 0, unpaused_since_reg st 0) = (true, Passed, true)
  | None => False end.
Proof. vm_compute. reflexivity. Qed.

Example ex_pause_after_load :
  match run init [CReg 0; CLoad 0; APause; CDecide 0] with
  | Some st => (paused st, pcs st 0, unpaused_since_reg st 0) = (true, Passed, true)
  | None => False end.
Proof. vm_compute. reflexivity. Qed.

(** Steps that are not enabled are rejected (the step relation is not total). *)
Example ex_not_enabled :
  (run init [CLoad 0], run init [ANotify], run init [AStore; APause],
   run init [APause; CReg 0; CLoad 0; CDecide 0; CWake 0]) = (None, None, None, None).
Proof. vm_compute. reflexivity. Qed.

(** The mutants' witnesses executed on the REAL protocol order are harmless. *)
Example ex_real_order_on_m2_witness :
  final 1 [APause; CReg 0; CLoad 0; AStore; ANotify; CDecide 0] = Some (false, false, [VPassed]).
Proof. vm_compute. reflexivity. Qed.

(** The regression scenario of the finding on the repaired model: held client, RELOAD (shared),
    RESUME, a second session's first query after the RESUME. *)
Example ex_reload_shared_releases :
  match rrun rinit [Base APause; Base (CReg 0); Base (CLoad 0); Base (CDecide 0); ReloadShared;
                    Base AStore; Base ANotify; Base (CWake 0); Refresh 0;
                    Base (CReg 1); Base (CLoad 1); Base (CDecide 1)] with
  | Some st => (view 2 (cells st 0), registered st, holds st 0, holds st 1) = ((false, false, [VPassed; VPassed]), 0, 0, 0)
  | None => False end.
Proof. vm_compute. reflexivity. Qed.

(** ... and the pause survives the reload. *)
Example ex_reload_shared_keeps_pause :
  match rrun rinit [Base APause; ReloadShared; Base (CReg 0); Base (CLoad 0); Base (CDecide 0)] with
  | Some st => view 1 (cells st (registered st)) = (true, false, [VBlocked])
  | None => False end.
Proof. vm_compute. reflexivity. Qed.

(** PAUSE; a client is held; RELOAD removes the pool: the client is released (and will be told
    that its pool is gone); PAUSE / RESUME can no longer address the pool. *)
Example ex_reload_remove_releases :
  match rrun rinit [Base APause; Base (CReg 0); Base (CLoad 0); Base (CDecide 0); ReloadRemove; Base (CWake 0)] with
  | Some st => (view 1 (cells st (holds st 0)), gone st, rstep st (Base APause), rstep st (Base AStore))
               = ((false, false, [VPassed]), true, None, None)
  | None => False end.
Proof. vm_compute. reflexivity. Qed.

(** F36 on the current code: the old session is held by the PAUSE of the re-added pool and
    released by its RESUME; a session whose pool is gone cannot even start to wait. *)
Example ex_f36_now_held :
  (rtrace_codes 1 (f36_history ++ [Base (CReg 0); Base (CLoad 0); Base (CDecide 0); Base AStore; Base ANotify; Base (CWake 0)]))
  = [[2; 0; 0]; [0; 0; 0]; [1; 0; 0]; [1; 0; 1]; [1; 0; 3]; [1; 0; 4]; [0; 1; 4]; [0; 0; 5]; [0; 0; 5]].
Proof. vm_compute. reflexivity. Qed.

Example ex_gone_pool_lookup_fails : rtrace_codes 1 [Base APause; ReloadRemove; Base (CReg 0)] = [[1; 0; 0]; [2; 0; 0]; []].
Proof. vm_compute. reflexivity. Qed.
