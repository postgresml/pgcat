(** C01 and C02 — property theorems about the session model (coq/Session/Model.v), for EVERY
    sequence of client messages and faults, any number of clients, any pool size. *)
From Coq Require Import List Bool Arith.
From PV Require Import Session.Model Session.Proofs.
Import ListNotations.

(** C02: whenever a server connection is handed to a client, the backend session is not in a
    transaction block, not in COPY, has no SET left from outside a transaction and no
    prepared statement — however the previous holder stopped (COMMIT, Terminate, socket drop,
    malformed message, panic, idle-in-transaction timeout, statement timeout, write failure,
    server failure). *)
Theorem c02_clean_handoff : forall n c0 ops s c b,
  In (CheckedOut s c b) (snd (run (init n c0) ops)) -> clean c0 b = true.
Proof. exact clean_handoff. Qed.
Print Assumptions c02_clean_handoff.

(** C02: a connection goes back to the pool only clean; an unclean one is closed. *)
Theorem c02_returned_only_clean : forall n c0 ops s b,
  In (Returned s b) (snd (run (init n c0) ops)) -> clean c0 b = true.
Proof.
  intros n c0 ops s b. destruct (run_init_ok n c0 ops) as [(h & M & _) _].
  exact (monitor_clean _ _ _ _ (Returned s b) M).
Qed.
Print Assumptions c02_returned_only_clean.

Theorem c02_idle_is_clean : forall n c0 ops s k,
  get s (conns (fst (run (init n c0) ops))) = Some k -> loc k = Idle -> clean c0 (truth k) = true.
Proof.
  intros n c0 ops s k G L. destruct (run_init_ok n c0 ops) as (_ & (_ & _ & T) & _ & C).
  destruct (T _ _ G) as [Ht Hi]. rewrite C in Hi. exact (not_broken_clean _ _ _ Ht (Hi L)).
Qed.
Print Assumptions c02_idle_is_clean.

(** C01 + C02 as one statement: the whole event log of any run passes the monitor (exclusive
    holder per connection, statements only from the holder, hand-off only when clean). *)
Theorem c01_c02_log_monitor : forall n c0 ops, exists h, monitor c0 [] (snd (run (init n c0) ops)) = Some h.
Proof. intros n c0 ops. destruct (run_init_ok n c0 ops) as [(h & M & _) _]. eauto. Qed.
Print Assumptions c01_c02_log_monitor.

(** C01: every statement executed on a server connection comes from the client that holds
    it at that moment (so between a client's check-out and the release nobody else's
    statement runs there, and a release needs a finished transaction by c02_returned_only_clean). *)
Theorem c01_exec_by_holder : forall n c0 ops e1 s c ss e2,
  snd (run (init n c0) ops) = e1 ++ Exec s c ss :: e2 ->
  exists h1, monitor c0 [] e1 = Some h1 /\ get s h1 = Some (Some c).
Proof.
  intros n c0 ops e1 s c ss e2 E. destruct (run_init_ok n c0 ops) as [(h & M & _) _].
  rewrite E in M. exact (monitor_exec _ _ _ _ _ _ _ _ M).
Qed.
Print Assumptions c01_exec_by_holder.

(** C01: a server connection serves one client at a time. *)
Theorem c01_one_holder : forall n c0 ops c1 c2 cl1 cl2 s,
  get c1 (clients (fst (run (init n c0) ops))) = Some cl1 -> cst cl1 = Inner s ->
  get c2 (clients (fst (run (init n c0) ops))) = Some cl2 -> cst cl2 = Inner s -> c1 = c2.
Proof.
  intros n c0 ops c1 c2 cl1 cl2 s G1 I1 G2 I2. destruct (run_init_ok n c0 ops) as (_ & _ & HK & _).
  destruct (HK _ _ _ G1 I1) as (k1 & A1 & B1). destruct (HK _ _ _ G2 I2) as (k2 & A2 & B2). congruence.
Qed.
Print Assumptions c01_one_holder.

(** The belief pgcat keeps about a connection is right at every message boundary. *)
Theorem c02_belief_tracks_truth : forall n c0 ops s k,
  get s (conns (fst (run (init n c0) ops))) = Some k -> tracksb (belief k) (truth k) = true.
Proof. intros n c0 ops s k. apply J_tracks. apply (run_init_ok n c0 ops). Qed.
Print Assumptions c02_belief_tracks_truth.

(** Discrimination: with the code as it was before the repairs the statement is false.
    [has_broken_old] looked at [bad] only: a task that dies inside a transaction hands the
    open transaction to the next client. *)
Definition put_back_old (st : state) (s : sid) : state * list event :=
  match get s (conns st) with
  | Some k => if bad (belief k) then (drop_conn st s, [ClosedS s])
              else (set_conn st s {| truth := truth k; belief := belief k; loc := Idle |}, [Returned s (truth k)])
  | None => (st, [])
  end.
Example c02_old_has_broken_refuted :
  let st0 := fst (run (init 1 true) [Connect 1 false; Connect 2 false; Query 1 [Begin]]) in
  let '(st1, ev) := put_back_old st0 0 in
  exists b, In (Returned 0 b) ev /\ clean true b = false.
Proof. vm_compute. eexists. split; [left; reflexivity|reflexivity]. Qed.

(** With cleanup_server_connections = false the operator gave up the reset of session state; the
    transaction / COPY part still holds ([clean false]) and a panic inside a transaction
    still closes the connection. *)
Example c02_cleanup_off :
  let ev := snd (run (init 1 false) [Connect 1 false; Connect 2 false; Query 1 [SetG]; Query 2 [Begin]; PanicMsg 2; Connect 3 false; Query 3 [Select]]) in
  monitor false [] ev <> None /\ In (ClosedS 0) ev /\ monitor true [] ev = None.
Proof. vm_compute. repeat split; try discriminate. auto 10. Qed.

(** Non-vacuity: a history with three clients on a pool of one connection, with a COMMIT; SET
    in one query, a COPY abandoned by a disconnect, a panic inside a transaction, session mode. *)
Example c02_history :
  let ops := [Connect 1 false; Connect 2 false; Connect 3 true; Query 1 [Begin]; Query 1 [Commit; SetG];
              Query 2 [Select]; Query 1 [Prepare; CopyIn]; Drop 1; Query 2 [Begin]; PanicMsg 2;
              Query 3 [SetG]; Batch 3 true Select; Terminate 3] in
  let ev := snd (run (init 1 true) ops) in
  length (filter (fun e => match e with CheckedOut _ _ _ => true | _ => false end) ev) = 5 /\
  length (filter (fun e => match e with ClosedS _ => true | _ => false end) ev) = 2 /\
  monitor true [] ev <> None.
Proof. vm_compute. repeat split; discriminate. Qed.
