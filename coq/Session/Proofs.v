(** The invariants of the session model and the proof that every run passes the log monitor.
    First the finite facts about one (truth, belief) pair, by evaluation over all pairs; then
    [ok], which says of a piece of a step that the monitor passes on its events and that the
    invariants hold after it: every step is a sequence ([ok_seq]) of such pieces. *)
From Coq Require Import List Bool Arith Lia.
From PV Require Import Session.Model.
Import ListNotations.

Definition all_tx := [TI; TT; TE].
Definition all_bool := [true; false].
Definition all_bt : list bt :=
  flat_map (fun t => flat_map (fun c => flat_map (fun g => flat_map (fun gt => flat_map (fun gi =>
    map (fun p => {| txn := t; copy := c; gout := g; gtxn := gt; gin := gi; prep := p |}) all_bool)
    all_bool) all_bool) all_bool) all_bool) all_tx.
Definition all_bel : list bel :=
  flat_map (fun a => flat_map (fun b => flat_map (fun c => flat_map (fun d =>
    map (fun e => {| in_txn := a; in_copy := b; need_set := c; need_prep := d; bad := e |}) all_bool)
    all_bool) all_bool) all_bool) all_bool.
Definition all_sql := [Begin; Commit; Rollback; Select; SetG; Prepare; Fail; CopyIn; DeallocAll].
Definition all_rtag := [RBegin; RCommit; RRollback; RSelect; RSet; RPrepare; RError; RCopyIn; RDealloc; ROther].

Lemma in_all_bool x : In x all_bool. Proof. destruct x; cbn; auto. Qed.
Lemma in_all_tx x : In x all_tx. Proof. destruct x; cbn; auto. Qed.
Lemma in_all_sql x : In x all_sql. Proof. destruct x; cbn; auto 10. Qed.
Lemma in_all_bt x : In x all_bt.
Proof.
  destruct x as [t c g gt gi p]. unfold all_bt.
  apply in_flat_map; exists t; split; [apply in_all_tx|].
  apply in_flat_map; exists c; split; [apply in_all_bool|].
  apply in_flat_map; exists g; split; [apply in_all_bool|].
  apply in_flat_map; exists gt; split; [apply in_all_bool|].
  apply in_flat_map; exists gi; split; [apply in_all_bool|].
  apply (in_map (fun p => Build_bt t c g gt gi p)), in_all_bool.
Qed.
Lemma in_all_bel x : In x all_bel.
Proof.
  destruct x as [a b c d e]. unfold all_bel.
  apply in_flat_map; exists a; split; [apply in_all_bool|].
  apply in_flat_map; exists b; split; [apply in_all_bool|].
  apply in_flat_map; exists c; split; [apply in_all_bool|].
  apply in_flat_map; exists d; split; [apply in_all_bool|].
  apply (in_map (fun e => Build_bel a b c d e)), in_all_bool.
Qed.

Lemma sweep_bt (P : bt -> bool) : forallb P all_bt = true -> forall b, P b = true.
Proof. intros H b. rewrite forallb_forall in H. apply H, in_all_bt. Qed.
Lemma sweep_bel (P : bel -> bool) : forallb P all_bel = true -> forall l, P l = true.
Proof. intros H l. rewrite forallb_forall in H. apply H, in_all_bel. Qed.
Lemma sweep_sql (P : sql -> bool) : forallb P all_sql = true -> forall s, P s = true.
Proof. intros H s. rewrite forallb_forall in H. apply H, in_all_sql. Qed.
Lemma sweep_bool (P : bool -> bool) : forallb P all_bool = true -> forall s, P s = true.
Proof. intros H s. rewrite forallb_forall in H. apply H, in_all_bool. Qed.

(** The facts about a (truth, belief) pair below that are case tables rather than arguments
    are proved this way: stated as a boolean predicate, evaluated once over the 96 x 32 pairs. *)
Lemma sweep_bt_bel (P : bt -> bel -> bool) :
  forallb (fun b => forallb (P b) all_bel) all_bt = true -> forall b l, P b l = true.
Proof. intros H b. apply sweep_bel. revert b. apply (sweep_bt (fun b => forallb (P b) all_bel)), H. Qed.

Lemma implb_andb_true (a b c : bool) : implb (a && b) c = true -> a = true -> b = true -> c = true.
Proof. intros H -> ->. exact H. Qed.

(** Between the replies of one message (no ReadyForQuery yet). *)
Definition midb (l : bel) (b : bt) : bool :=
  bad l || (eqb (in_copy l) (copy b) && implb (gout b) (need_set l) && implb (prep b) (need_prep l)
            && implb (tx_eqb (txn b) TI) (negb (in_txn l))).
(** At a message boundary: exact transaction status unless COPY IN is in progress. *)
Definition tracksb (l : bel) (b : bt) : bool :=
  bad l || (eqb (in_copy l) (copy b) && implb (gout b) (need_set l) && implb (prep b) (need_prep l)
            && (if copy b then implb (tx_eqb (txn b) TI) (negb (in_txn l))
                else eqb (in_txn l) (negb (tx_eqb (txn b) TI)))).

Lemma tracks0 : tracksb bel0 bt0 = true. Proof. reflexivity. Qed.

Lemma mark_bad_tracks l b : tracksb (mark_bad l) b = true.
Proof. reflexivity. Qed.

(** [midb] and [tracksb] differ in their last clause only. *)
Lemma orb_andb_mono (a p t m : bool) : (t = true -> m = true) -> a || (p && t) = true -> a || (p && m) = true.
Proof. destruct a, p, t; cbn; auto. Qed.

Lemma tracks_mid l b : tracksb l b = true -> midb l b = true.
Proof.
  unfold tracksb, midb. apply orb_andb_mono. destruct (copy b); [exact id|].
  destruct (in_txn l), (tx_eqb (txn b) TI); easy.
Qed.

Lemma mid_copy l b : copy b = true -> midb l b = true -> tracksb l b = true.
Proof. intros Hc H. unfold tracksb, midb in *. rewrite Hc in *. exact H. Qed.

(** ReadyForQuery carries the exact status *)
Lemma mid_z l b : copy b = false -> midb l b = true -> tracksb (on_z l (txn b)) b = true.
Proof.
  intros Hc. unfold tracksb, midb. cbn [on_z in_txn in_copy need_set need_prep bad]. rewrite Hc.
  apply orb_andb_mono. intros _. apply eqb_reflx.
Qed.

(** one statement: the backend executes it, recv sees its tag *)
Lemma step_mid l b s : copy b = false -> midb l b = true ->
  midb (on_tag l (snd (bexec b s))) (fst (bexec b s)) = true.
Proof.
  intros Hc%negb_true_iff. revert Hc. apply implb_andb_true.
  revert s. apply sweep_sql. revert b l. apply sweep_bt_bel. vm_compute. reflexivity.
Qed.

Lemma bexec_copy b s : copy b = false ->
  copy (fst (bexec b s)) = match snd (bexec b s) with RCopyIn => true | _ => false end.
Proof. intros Hc. unfold bexec. destruct (txn b), s; exact Hc || reflexivity. Qed.

Lemma bexec_list_tracks : forall ss l b, copy b = false -> midb l b = true ->
  let '(b1, ts, z) := bexec_list b ss in
  tracksb (on_reply l ts z (txn b1)) b1 = true.
Proof.
  induction ss as [|s r IH]; intros l b Hc H; cbn [bexec_list].
  - apply mid_z; assumption.
  - pose proof (step_mid l b s Hc H) as Hs. pose proof (bexec_copy b s Hc) as Hcp.
    destruct (bexec b s) as [b1 t]. cbn [fst snd] in *.
    destruct t; try (specialize (IH _ b1 Hcp Hs); destruct (bexec_list b1 r) as [[b2 ts] z]; exact IH).
    + apply mid_z; assumption.
    + (* RCopyIn: no ReadyForQuery *) apply mid_copy; assumption.
Qed.

(** [bad] and [need_prep] are flags that no reply clears. *)
Lemma run_on_keeps (f : bel -> bool) k ss :
  (forall l t, f l = true -> f (on_tag l t) = true) -> (forall l t, f l = true -> f (on_z l t) = true) ->
  f (belief k) = true -> f (belief (run_on k ss)) = true.
Proof.
  intros Ht Hz. unfold run_on. destruct (bexec_list (truth k) ss) as [[b1 ts] z]. cbn [belief]. unfold on_reply.
  generalize (belief k). induction ts as [|t ts IH]; intros l H; cbn [fold_left].
  - destruct z; auto.
  - apply IH, Ht, H.
Qed.

Lemma run_on_bad k ss : bad (belief k) = true -> bad (belief (run_on k ss)) = true.
Proof. apply run_on_keeps; [intros l []|]; trivial. Qed.

Lemma run_on_need_prep k ss : need_prep (belief k) = true -> need_prep (belief (run_on k ss)) = true.
Proof. apply run_on_keeps; [intros l []|]; trivial. Qed.

Lemma run_on_loc k ss : loc (run_on k ss) = loc k.
Proof. unfold run_on. destruct (bexec_list (truth k) ss) as [[b1 ts] z]. reflexivity. Qed.

Lemma run_on_tracks k ss : in_copy (belief k) = false -> tracksb (belief k) (truth k) = true ->
  tracksb (belief (run_on k ss)) (truth (run_on k ss)) = true.
Proof.
  intros Hic H. destruct (bad (belief k)) eqn:Hb.
  - (* a bad connection stays bad *)
    unfold tracksb. rewrite run_on_bad by exact Hb. reflexivity.
  - assert (Hc: copy (truth k) = false).
    { unfold tracksb in H. rewrite Hb, Hic in H. destruct (copy (truth k)); [discriminate H|reflexivity]. }
    pose proof (bexec_list_tracks ss _ _ Hc (tracks_mid _ _ H)) as G.
    unfold run_on. destruct (bexec_list (truth k) ss) as [[b1 ts] z]. exact G.
Qed.

(** a named Parse: pgcat marks the connection dirty before the statement exists on the backend
    ([tracksb] has [need_set] and [need_prep] only on the right of an implication) *)
Lemma tracks_dirty l b : tracksb l b = true -> tracksb (mark_dirty l) b = true.
Proof. apply implb_true_iff. revert b l. apply sweep_bt_bel. vm_compute. reflexivity. Qed.

Lemma tracks_prep l b : need_prep l = true -> tracksb l b = true ->
  tracksb l {| txn := txn b; copy := copy b; gout := gout b; gtxn := gtxn b; gin := gin b; prep := true |} = true.
Proof. intros Hn. unfold tracksb. cbn [txn copy gout prep]. rewrite Hn. destruct (prep b); exact id. Qed.

(** the end of a COPY IN: CommandComplete or ErrorResponse, then ReadyForQuery *)
Lemma copy_end_tracks l b (failed : bool) : copy b = true -> tracksb l b = true ->
  let t1 := if failed then (match txn b with TT => TE | x => x end) else txn b in
  tracksb (on_reply l [if failed then RError else ROther] true t1)
          {| txn := t1; copy := false; gout := gout b; gtxn := gtxn b; gin := gin b; prep := prep b |} = true.
Proof.
  cbv zeta. apply implb_andb_true.
  revert b l. destruct failed; apply sweep_bt_bel; vm_compute; reflexivity.
Qed.

Lemma not_broken_clean c0 l b : tracksb l b = true -> has_broken c0 l = false -> clean c0 b = true.
Proof.
  intros H1 H2%negb_true_iff. revert H1 H2. apply implb_andb_true.
  revert b l. destruct c0; apply sweep_bt_bel; vm_compute; reflexivity.
Qed.

Lemma cleanup_tracks c0 k s : tracksb (belief k) (truth k) = true ->
  tracksb (belief (fst (cleanup c0 k s))) (truth (fst (cleanup c0 k s))) = true.
Proof.
  destruct k as [b l lc]. cbn [belief truth]. apply implb_true_iff. revert b l.
  (* [cleanup] only copies [lc] and [s] *)
  destruct c0; apply sweep_bt_bel; vm_compute; reflexivity.
Qed.

Lemma cleanup_shape c0 k s :
  loc (fst (cleanup c0 k s)) = loc k /\
  (snd (cleanup c0 k s) = [] \/ exists x y z, snd (cleanup c0 k s) = [Cleanup s x y z]).
Proof.
  unfold cleanup. destruct (in_copy (belief k)); [auto|].
  destruct (if in_txn (belief k) then _ else _) as [b1 l1].
  destruct (if c0 && _ then _ else _) as [b2 l2]. cbn [fst snd loc]. split; [reflexivity|right; eauto].
Qed.

Lemma get_del {A} k k' (l : list (nat * A)) : get k (del k' l) = if Nat.eqb k k' then None else get k l.
Proof.
  induction l as [|[k2 v] r IH]; cbn [del get]; [destruct (Nat.eqb k k'); reflexivity|].
  destruct (Nat.eqb_spec k' k2) as [<-|N]; cbn [get]; rewrite IH.
  - destruct (Nat.eqb k k'); reflexivity.
  - destruct (Nat.eqb_spec k k') as [->|_]; [|reflexivity]. destruct (Nat.eqb_spec k' k2); [contradiction|reflexivity].
Qed.

Lemma get_put {A} k k' (v : A) l : get k (put k' v l) = if Nat.eqb k k' then Some v else get k l.
Proof. unfold put. cbn [get]. rewrite get_del. destruct (Nat.eqb k k'); reflexivity. Qed.

Lemma get_set_conn st s k : get s (conns (set_conn st s k)) = Some k.
Proof. cbn [conns set_conn]. rewrite get_put, Nat.eqb_refl. reflexivity. Qed.

Lemma in_keys_del {A} k k' (l : list (nat * A)) : In k (map fst (del k' l)) -> In k (map fst l) /\ k <> k'.
Proof.
  induction l as [|[k2 v] r IH]; cbn [del map fst In]; [tauto|].
  destruct (Nat.eqb_spec k' k2) as [|N].
  - intros H. destruct (IH H). tauto.
  - cbn [map fst In]. intros [<-|H]; [auto|]. destruct (IH H). tauto.
Qed.

Lemma nodup_del {A} k (l : list (nat * A)) : NoDup (map fst l) -> NoDup (map fst (del k l)).
Proof.
  induction l as [|[k2 v] r IH]; cbn [del map fst]; intros H; [constructor|].
  inversion H as [|x xs Hn Hr]; subst.
  destruct (Nat.eqb k k2); [apply IH; exact Hr|].
  cbn [map fst]. constructor; [|apply IH; exact Hr].
  intros Hin. apply in_keys_del in Hin. tauto.
Qed.

Lemma nodup_put {A} k (v : A) l : NoDup (map fst l) -> NoDup (map fst (put k v l)).
Proof.
  intros H. unfold put. cbn [map fst]. constructor; [|apply nodup_del; exact H].
  intros Hin. apply in_keys_del in Hin. tauto.
Qed.

Lemma in_get {A} k (l : list (nat * A)) : In k (map fst l) -> exists v, get k l = Some v.
Proof.
  induction l as [|[k2 v2] r IH]; cbn [get map fst In]; [tauto|].
  destruct (Nat.eqb_spec k k2); [eauto|]. intros [H|H]; [congruence|auto].
Qed.

Lemma in_get_nodup {A} k (v : A) l : NoDup (map fst l) -> In (k, v) l -> get k l = Some v.
Proof.
  induction l as [|[k2 v2] r IH]; cbn [get In map fst]; intros Hn Hin; [destruct Hin|].
  inversion Hn as [|x xs Hnot Hr]; subst. destruct Hin as [[= -> ->]|Hin].
  - rewrite Nat.eqb_refl. reflexivity.
  - destruct (Nat.eqb_spec k k2) as [->|_]; [|auto].
    exfalso. apply Hnot. exact (in_map fst _ _ Hin).
Qed.

Lemma first_idle_in l s : first_idle l = Some s -> exists k, In (s, k) l /\ loc k = Idle.
Proof.
  induction l as [|[s' k] r IH]; cbn [first_idle]; [discriminate|].
  destruct (loc k) eqn:E.
  - intros [= ->]. exists k. split; [left; reflexivity|exact E].
  - intros H. destruct (IH H) as (k0 & I & L). exists k0. split; [right; exact I|exact L].
Qed.

Lemma first_idle_none l : first_idle l = None -> forall s k, get s l = Some k -> exists c, loc k = Held c.
Proof.
  induction l as [|[s' k'] r IH]; cbn [first_idle get]; intros H s k G; [discriminate|].
  destruct (loc k') eqn:E; [discriminate|].
  destruct (Nat.eqb s s'); [inversion G; subst; eauto|eapply IH; eauto].
Qed.

Definition hold (k : conn) : option cid := match loc k with Idle => None | Held c => Some c end.

Lemma map_del {A B} (f : A -> B) k (l : list (nat * A)) :
  map (fun p => (fst p, f (snd p))) (del k l) = del k (map (fun p => (fst p, f (snd p))) l).
Proof.
  induction l as [|[k2 v] r IH]; cbn [del map fst snd]; [reflexivity|].
  destruct (Nat.eqb k k2); [exact IH|]. cbn [map fst snd]. rewrite IH. reflexivity.
Qed.

Lemma holders_eq st : holders st = map (fun p => (fst p, hold (snd p))) (conns st).
Proof. reflexivity. Qed.

Lemma holders_set_conn st s k : holders (set_conn st s k) = put s (hold k) (holders st).
Proof. rewrite !holders_eq. unfold set_conn, put. cbn [conns map fst snd]. rewrite map_del. reflexivity. Qed.

Lemma holders_drop_conn st s : holders (drop_conn st s) = del s (holders st).
Proof. rewrite !holders_eq. apply map_del. Qed.

Lemma holders_set_client st c v : holders (set_client st c v) = holders st.
Proof. reflexivity. Qed.

Lemma get_holders st s : get s (holders st) = option_map hold (get s (conns st)).
Proof.
  rewrite holders_eq. induction (conns st) as [|[s' k] r IH]; cbn [map get fst snd option_map]; [reflexivity|].
  destruct (Nat.eqb s s'); [reflexivity|exact IH].
Qed.

Lemma held_holders st s k c : get s (conns st) = Some k -> loc k = Held c -> get s (holders st) = Some (Some c).
Proof. intros G L. rewrite get_holders, G. unfold option_map, hold. rewrite L. reflexivity. Qed.

(** The monitor reads the holder map only through [get]. *)
Definition heq {A} (h1 h2 : list (nat * A)) : Prop := forall s, get s h1 = get s h2.

Lemma heq_put {A} s (v : A) h1 h2 : heq h1 h2 -> heq (put s v h1) (put s v h2).
Proof. intros H s'. rewrite !get_put. destruct (Nat.eqb s' s); [reflexivity|apply H]. Qed.

Lemma heq_del {A} s (h1 h2 : list (nat * A)) : heq h1 h2 -> heq (del s h1) (del s h2).
Proof. intros H s'. rewrite !get_del. destruct (Nat.eqb s' s); [reflexivity|apply H]. Qed.

Lemma monitor_heq c0 : forall ev h1 h2 h1', heq h1 h2 -> monitor c0 h1 ev = Some h1' ->
  exists h2', monitor c0 h2 ev = Some h2' /\ heq h1' h2'.
Proof.
  induction ev as [|e r IH]; intros h1 h2 h1' He Hm; cbn [monitor] in *.
  - inversion Hm; subst. eauto.
  - destruct e as [s c b|s c ss|s x y z|s b|s|c|c]; try rewrite <- (He s).
    + destruct (get s h1) as [[c'|]|]; [discriminate| |];
        (destruct (clean c0 b); [|discriminate]); eapply IH; eauto using heq_put.
    + destruct (get s h1) as [[c'|]|]; try discriminate.
      destruct (Nat.eqb c c'); [|discriminate]. eapply IH; eauto.
    + destruct (get s h1) as [[c'|]|]; try discriminate. eapply IH; eauto.
    + destruct (get s h1) as [[c'|]|]; try discriminate.
      destruct (clean c0 b); [|discriminate]. eapply IH; eauto using heq_put.
    + eapply IH; eauto using heq_del.
    + eapply IH; eauto.
    + eapply IH; eauto.
Qed.

Lemma monitor_app c0 e2 : forall e1 h,
  monitor c0 h (e1 ++ e2) = match monitor c0 h e1 with Some h1 => monitor c0 h1 e2 | None => None end.
Proof.
  induction e1 as [|e r IH]; intros h; cbn [monitor app]; [reflexivity|].
  destruct e as [s c b|s c ss|s x y z|s b|s|c|c]; try apply IH; destruct (get s h) as [[c'|]|]; try reflexivity; try apply IH.
  - destruct (clean c0 b); [apply IH|reflexivity].
  - destruct (clean c0 b); [apply IH|reflexivity].
  - destruct (Nat.eqb c c'); [apply IH|reflexivity].
  - destruct (clean c0 b); [apply IH|reflexivity].
Qed.

Lemma monitor_clean c0 h ev h' e : monitor c0 h ev = Some h' -> In e ev ->
  match e with CheckedOut _ _ b | Returned _ b => clean c0 b = true | _ => True end.
Proof.
  intros M Hin. destruct (in_split _ _ Hin) as (e1 & e2 & ->).
  rewrite monitor_app in M. destruct (monitor c0 h e1) as [h1|]; [|discriminate].
  destruct e as [s c b|s c ss|s x y z|s b|s|c|c]; trivial; cbn [monitor] in M;
    (destruct (clean c0 b); [reflexivity|]); destruct (get s h1) as [[c'|]|]; discriminate.
Qed.

Lemma monitor_exec c0 h e1 s c ss e2 h' : monitor c0 h (e1 ++ Exec s c ss :: e2) = Some h' ->
  exists h1, monitor c0 h e1 = Some h1 /\ get s h1 = Some (Some c).
Proof.
  rewrite monitor_app. destruct (monitor c0 h e1) as [h1|]; [|discriminate]. cbn [monitor]. intros M.
  exists h1. split; [reflexivity|]. destruct (get s h1) as [[c'|]|]; try discriminate.
  destruct (Nat.eqb_spec c c') as [->|]; [reflexivity|discriminate].
Qed.

Definition J (st : state) : Prop :=
  NoDup (map fst (conns st)) /\
  (forall s k, get s (conns st) = Some k -> s < next st) /\
  (forall s k, get s (conns st) = Some k ->
     tracksb (belief k) (truth k) = true /\ (loc k = Idle -> has_broken (cc st) (belief k) = false)).

Definition K (st : state) : Prop :=
  forall c cl s, get c (clients st) = Some cl -> cst cl = Inner s ->
    exists k, get s (conns st) = Some k /\ loc k = Held c.

Definition ok (st : state) (res : state * list event) : Prop :=
  (exists h', monitor (cc st) (holders st) (snd res) = Some h' /\ heq h' (holders (fst res))) /\ J (fst res) /\ K (fst res) /\ cc (fst res) = cc st.

(** Pieces in sequence, in the shape in which [with_server] and [run] write it; the second piece
    may use the invariants the first has established. *)
Lemma ok_seq st st1 ev1 res : ok st (st1, ev1) -> (J st1 -> K st1 -> ok st1 res) ->
  ok st (let '(st2, ev2) := res in (st2, ev1 ++ ev2)).
Proof.
  intros [(h1 & M1 & E1) (J1 & K1 & C1)] O2. destruct res as [st2 ev2].
  destruct (O2 J1 K1) as [(h2 & M2 & E2) (J2 & K2 & C2)]. unfold ok. cbn [fst snd] in *.
  split; [|split; [assumption|split; [assumption|congruence]]].
  rewrite C1 in M2. rewrite monitor_app, M1.
  assert (E1': heq (holders st1) h1) by (intros s; symmetry; apply E1).
  destruct (monitor_heq _ _ _ _ _ E1' M2) as (h2' & M2' & E2').
  exists h2'. split; [exact M2'|]. intros s. rewrite <- E2'. apply E2.
Qed.

Lemma ok_same st ev : J st -> K st -> monitor (cc st) (holders st) ev = Some (holders st) -> ok st (st, ev).
Proof. intros HJ HK M. split; [exists (holders st); split; [exact M|intros s; reflexivity]|auto]. Qed.

Lemma ok_nop st : J st -> K st -> ok st (st, []).
Proof. intros HJ HK. apply ok_same; auto. Qed.

Lemma ok_task_end st st1 ev c : ok st (st1, ev) -> ok st (st1, ev ++ [TaskEnd c]).
Proof. intros O. apply (ok_seq _ _ _ (st1, [TaskEnd c]) O). intros J1 K1. apply ok_same; auto. Qed.

Lemma ok_exec st s c ss k res : get s (conns st) = Some k -> loc k = Held c -> ok st res ->
  ok st (let '(st1, ev) := res in (st1, Exec s c ss :: ev)).
Proof.
  intros G L [(h' & M & E) R]. destruct res as [st1 ev]. split; [|exact R].
  exists h'. split; [|exact E]. cbn [monitor snd]. rewrite (held_holders _ _ _ _ G L), Nat.eqb_refl. exact M.
Qed.

Lemma J_tracks st s k : J st -> get s (conns st) = Some k -> tracksb (belief k) (truth k) = true.
Proof. intros (_ & _ & T) G. apply (T _ _ G). Qed.

Lemma J_set_conn st s k k0 : J st -> get s (conns st) = Some k0 ->
  tracksb (belief k) (truth k) = true -> (loc k = Idle -> has_broken (cc st) (belief k) = false) -> J (set_conn st s k).
Proof.
  intros (N & B & T) G Ht Hi. split; [|split]; cbn [conns next cc set_conn].
  - apply nodup_put. exact N.
  - intros s' k'. rewrite get_put. destruct (Nat.eqb_spec s' s) as [->|_]; [intros _; exact (B _ _ G)|apply B].
  - intros s' k'. rewrite get_put. destruct (Nat.eqb s' s); [intros [= <-]; split; assumption|apply T].
Qed.

Lemma J_drop_conn st s : J st -> J (drop_conn st s).
Proof.
  intros (N & B & T). split; [|split]; cbn [conns next cc drop_conn].
  - apply nodup_del. exact N.
  - intros s' k'. rewrite get_del. destruct (Nat.eqb s' s); [discriminate|apply B].
  - intros s' k'. rewrite get_del. destruct (Nat.eqb s' s); [discriminate|apply T].
Qed.

Lemma J_set_client st c v : J st -> J (set_client st c v).
Proof. intros H. exact H. Qed.

Lemma ok_set_client st c v : J st -> K st ->
  (forall s, cst v = Inner s -> exists k, get s (conns st) = Some k /\ loc k = Held c) ->
  ok st (set_client st c v, []).
Proof.
  intros HJ HK Hv. split; [|split; [|split]]; cbn [fst snd].
  - exists (holders st). split; [reflexivity|intros s; reflexivity].
  - apply J_set_client, HJ.
  - intros c1 cl1 s1. cbn [clients conns set_client]. rewrite get_put.
    destruct (Nat.eqb_spec c1 c) as [->|_]; [intros [= <-]; apply Hv|apply HK].
  - reflexivity.
Qed.

Lemma ok_set_conn st s k0 k c : J st -> K st -> get s (conns st) = Some k0 -> loc k0 = Held c -> loc k = Held c ->
  tracksb (belief k) (truth k) = true -> ok st (set_conn st s k, []).
Proof.
  intros HJ HK G L0 L Ht. split; [|split; [|split]]; cbn [fst snd].
  - exists (holders st). split; [reflexivity|]. intros s'. rewrite holders_set_conn, get_put.
    destruct (Nat.eqb_spec s' s) as [->|_]; [|reflexivity]. unfold hold. rewrite L. exact (held_holders _ _ _ _ G L0).
  - apply (J_set_conn st s k k0 HJ G Ht). rewrite L. discriminate.
  - intros c1 cl1 s1 G1 I1. destruct (HK _ _ _ G1 I1) as (k1 & Gk & Lk). cbn [conns set_conn]. rewrite get_put.
    destruct (Nat.eqb_spec s1 s) as [->|_]; [|eauto]. exists k. split; [reflexivity|congruence].
  - reflexivity.
Qed.

Lemma K_handback st st' c s k v : K st -> get s (conns st) = Some k -> loc k = Held c ->
  clients st' = clients st -> (forall s', s' <> s -> get s' (conns st') = get s' (conns st)) ->
  (forall s2, cst v <> Inner s2) -> K (set_client st' c v).
Proof.
  intros HK G L Hc Hs Hv c1 cl1 s1. cbn [clients conns set_client]. rewrite Hc, get_put.
  destruct (Nat.eqb_spec c1 c) as [->|Nc]; [intros [= <-] I1; destruct (Hv _ I1)|].
  intros G1 I1. destruct (HK _ _ _ G1 I1) as (k1 & Gk & Lk). exists k1.
  (* nobody else is in the loop on [s] *)
  rewrite Hs by (intros ->; congruence). auto.
Qed.

(** The guard is dropped: the connection goes back idle if [has_broken] lets it, else it is
    closed; the client that held it is no longer in the transaction loop. *)
Lemma handback_ok st c s k v : J st -> K st -> get s (conns st) = Some k -> loc k = Held c ->
  (forall s2, cst v <> Inner s2) ->
  ok st (set_client (fst (put_back st s)) c v, snd (put_back st s)).
Proof.
  intros HJ HK G L Hv. pose proof (J_tracks _ _ _ HJ G) as Ht.
  unfold put_back. rewrite G. destruct (has_broken (cc st) (belief k)) eqn:Hb; cbn [fst snd];
    (split; [|split; [|split; [|reflexivity]]]); cbn [fst snd].
  - exists (holders (drop_conn st s)). split; [|intros x; reflexivity]. cbn [monitor]. rewrite holders_drop_conn. reflexivity.
  - apply J_drop_conn, HJ.
  - apply (K_handback st _ c s k); auto. intros s' N. cbn [conns drop_conn]. rewrite get_del.
    apply Nat.eqb_neq in N. rewrite N. reflexivity.
  - eexists. split; [|intros x; reflexivity]. cbn [monitor].
    rewrite (held_holders _ _ _ _ G L), (not_broken_clean _ _ _ Ht Hb), holders_set_client, holders_set_conn. reflexivity.
  - apply (J_set_conn _ _ _ k); auto.
  - apply (K_handback st _ c s k); auto. intros s' N. cbn [conns set_conn]. rewrite get_put.
    apply Nat.eqb_neq in N. rewrite N. reflexivity.
Qed.

Lemma exit_holding_ok st c m s k : J st -> K st -> get s (conns st) = Some k -> loc k = Held c ->
  ok st (exit_holding st c m s).
Proof.
  intros HJ HK G L. pose proof (handback_ok st c s k {| cst := Gone; smode := m |} HJ HK G L) as O.
  unfold exit_holding, end_task. destruct (put_back st s) as [st1 ev]. apply ok_task_end, O. discriminate.
Qed.

(** To the end of the section, client [c] is in the transaction loop of [st] on connection [s],
    whose entry is [k0]; [k] is what the step has made of that connection so far. *)
Section Holder.
Variables (st : state) (c : cid) (s : sid) (k0 k : conn).
Hypotheses (HJ : J st) (HK : K st) (G : get s (conns st) = Some k0) (L0 : loc k0 = Held c)
  (L : loc k = Held c) (Ht : tracksb (belief k) (truth k) = true).

(** checkin_cleanup on a held connection: its events are the holder's own *)
Lemma cleanup_ok : ok st (set_conn st s (fst (cleanup (cc st) k s)), snd (cleanup (cc st) k s)).
Proof.
  destruct (cleanup_shape (cc st) k s) as [L1 Hev]. rewrite L in L1.
  apply (ok_seq _ _ [] (_, snd (cleanup (cc st) k s)) (ok_set_conn st s k0 _ c HJ HK G L0 L1 (cleanup_tracks (cc st) k s Ht))).
  intros J1 K1. apply ok_same; [assumption..|].
  destruct Hev as [->|(x & y & z & ->)]; [reflexivity|]. cbn [monitor cc set_conn].
  rewrite (held_holders _ _ _ _ (get_set_conn st s _) L1). reflexivity.
Qed.

Lemma cleanup_handback_ok v : (forall s2, cst v <> Inner s2) ->
  ok st (let '(k1, ev1) := cleanup (cc st) k s in
         let '(st1, ev2) := put_back (set_conn st s k1) s in (set_client st1 c v, ev1 ++ ev2)).
Proof.
  intros Hv. pose proof cleanup_ok as O1.
  pose proof (proj1 (cleanup_shape (cc st) k s)) as L1. rewrite L in L1.
  destruct (cleanup (cc st) k s) as [k1 ev1]. cbn [fst snd] in *.
  pose proof (fun J1 K1 => handback_ok _ c s k1 v J1 K1 (get_set_conn st s k1) L1 Hv) as O2.
  destruct (put_back (set_conn st s k1) s) as [st1 ev2]. exact (ok_seq _ _ _ (_, _) O1 O2).
Qed.

Lemma release_ok m : ok st (release st c m s k).
Proof. apply cleanup_handback_ok. discriminate. Qed.

Lemma exit_cleanup_ok m : ok st (exit_cleanup st c m s k).
Proof.
  pose proof (cleanup_handback_ok {| cst := Gone; smode := m |}) as O.
  unfold exit_cleanup, end_task. destruct (cleanup (cc st) k s) as [k1 ev1]. destruct (put_back (set_conn st s k1) s) as [st1 ev2].
  rewrite app_assoc. apply ok_task_end, O. discriminate.
Qed.

Lemma stay_ok m : ok st (set_client (set_conn st s k) c {| cst := Inner s; smode := m |}, []).
Proof.
  apply (ok_seq _ _ [] (_, _) (ok_set_conn st s k0 k c HJ HK G L0 L Ht)).
  intros J1 K1. apply ok_set_client; [assumption..|].
  intros s2 [= <-]. exists k. split; [apply get_set_conn|exact L].
Qed.

Lemma after_cycle_ok m : ok st (after_cycle st c m s k).
Proof.
  unfold after_cycle. destruct (negb (in_txn (belief k)) && negb m && negb (in_copy (belief k))); [apply release_ok|apply stay_ok].
Qed.

Lemma copy_end_ok (b : bool) m : ok st (if b then release st c m s k else (set_conn st s k, [])).
Proof. destruct b; [apply release_ok|exact (ok_set_conn st s k0 k c HJ HK G L0 L Ht)]. Qed.

End Holder.

(** an idle connection is not broken, so clean *)
Lemma take_idle_ok st c s k : J st -> K st -> get s (conns st) = Some k -> loc k = Idle ->
  ok st (set_conn st s {| truth := truth k; belief := belief k; loc := Held c |}, [CheckedOut s c (truth k)]).
Proof.
  intros HJ HK G L. destruct (proj2 (proj2 HJ) _ _ G) as [Ht Hi]. specialize (Hi L).
  split; [|split; [|split; [|reflexivity]]]; cbn [fst snd].
  - eexists. split; [|intros x; reflexivity]. cbn [monitor].
    rewrite get_holders, G. unfold option_map, hold at 1. rewrite L, (not_broken_clean _ _ _ Ht Hi), holders_set_conn. reflexivity.
  - apply (J_set_conn _ _ _ k); auto.
  - intros c1 cl1 s1 G1 I1. destruct (HK _ _ _ G1 I1) as (k2 & Gk & Lk). cbn [conns set_conn]. rewrite get_put.
    destruct (Nat.eqb_spec s1 s) as [->|_]; [congruence|eauto].
Qed.

(** a new connection gets the id [next st], which no connection has *)
Lemma new_conn_ok st c : J st -> K st ->
  ok st ({| conns := (next st, {| truth := bt0; belief := bel0; loc := Held c |}) :: conns st;
            clients := clients st; maxc := maxc st; next := S (next st); cc := cc st |}, [CheckedOut (next st) c bt0]).
Proof.
  intros HJ HK. pose proof HJ as (N & B & T).
  assert (Hfresh: get (next st) (conns st) = None).
  { destruct (get (next st) (conns st)) eqn:E; [|reflexivity]. apply B in E. lia. }
  split; [|split; [|split; [|reflexivity]]]; cbn [fst snd].
  - assert (Hc0: clean (cc st) bt0 = true) by (destruct (cc st); reflexivity).
    cbn [monitor]. rewrite get_holders, Hfresh, Hc0. eexists. split; [reflexivity|].
    intros x. rewrite get_put. destruct (Nat.eqb x (next st)) eqn:E; cbn [holders conns map get fst snd]; rewrite E; reflexivity.
  - split; [|split]; cbn [conns next get cc map fst].
    + constructor; [|exact N]. intros Hin. apply in_get in Hin. destruct Hin as (v & Hv). congruence.
    + intros s1 k1. destruct (Nat.eqb_spec s1 (next st)) as [->|_]; [lia|]. intros G1. apply B in G1. lia.
    + intros s1 k1. destruct (Nat.eqb s1 (next st)); [|apply T].
      intros [= <-]. split; [apply tracks0|discriminate].
  - intros c1 cl1 s1 G1 I1. destruct (HK _ _ _ G1 I1) as (k2 & Gk & Lk). cbn [conns get].
    destruct (Nat.eqb_spec s1 (next st)) as [->|_]; [congruence|eauto].
Qed.

Lemma checkout_ok st c st1 s ev : J st -> K st -> checkout st c = Some (st1, s, ev) ->
  ok st (st1, ev) /\ exists k, get s (conns st1) = Some k /\ loc k = Held c.
Proof.
  intros HJ HK. unfold checkout. destruct (first_idle (rev (conns st))) as [s0|] eqn:F.
  - destruct (first_idle_in _ _ F) as (k0 & I & L). pose proof HJ as (N & _).
    pose proof (in_get_nodup _ _ _ N (proj2 (in_rev _ _) I)) as G. rewrite G. intros [= <- <- <-].
    split; [apply take_idle_ok; assumption|].
    eexists. split; [apply get_set_conn|reflexivity].
  - destruct (Nat.ltb (length (conns st)) (maxc st)); [|discriminate]. intros [= <- <- <-].
    split; [apply new_conn_ok; assumption|]. eexists. cbn [conns get]. rewrite Nat.eqb_refl. auto.
Qed.

(** what [with_server] asks of the function it runs on the client's server *)
Definition fgood (c : cid) (f : state -> sid -> conn -> state * list event) : Prop :=
  forall st s k, J st -> K st -> get s (conns st) = Some k -> loc k = Held c ->
    tracksb (belief k) (truth k) = true -> ok st (f st s k).

Lemma with_server_ok st c m cl f : J st -> K st -> get c (clients st) = Some cl -> fgood c f ->
  ok st (with_server st c m (cst cl) f).
Proof.
  intros HJ HK G Hf. unfold with_server. destruct (cst cl) as [| |s] eqn:Ec.
  - apply ok_nop; assumption.
  - destruct (checkout st c) as [[[st1 s] ev]|] eqn:Ck; [|apply ok_same; auto].
    destruct (checkout_ok _ _ _ _ _ HJ HK Ck) as (O1 & k & Gk & Lk).
    rewrite Gk. apply (ok_seq _ _ _ _ O1). intros J1 K1. apply Hf; eauto using J_tracks.
  - destruct (HK _ _ _ G Ec) as (k & Gk & Lk). rewrite Gk. apply Hf; eauto using J_tracks.
Qed.

(** the ops of a client that must be in the transaction loop look up the client, then its server *)
Lemma in_loop_ok st c (F : client -> sid -> conn -> state * list event) (X : client -> state * list event) :
  J st -> K st ->
  (forall cl s k, get s (conns st) = Some k -> loc k = Held c -> tracksb (belief k) (truth k) = true ->
     ok st (F cl s k)) ->
  (forall cl, ok st (X cl)) ->
  ok st (match get c (clients st) with
         | Some cl => match cst cl with
                      | Inner s => match get s (conns st) with Some k => F cl s k | None => (st, []) end
                      | Outer => X cl
                      | Gone => (st, [])
                      end
         | None => (st, [])
         end).
Proof.
  intros HJ HK HF HX. destruct (get c (clients st)) as [cl|] eqn:G; [|apply ok_nop; assumption].
  destruct (cst cl) as [| |s] eqn:Ec; [apply ok_nop; assumption|apply HX|].
  destruct (HK _ _ _ G Ec) as (k & Gk & Lk). rewrite Gk. apply HF; eauto using J_tracks.
Qed.

Lemma connect_ok st c m : J st -> K st -> ok st (step st (Connect c m)).
Proof.
  intros HJ HK. cbn [step]. destruct (get c (clients st)); [apply ok_nop; assumption|].
  apply ok_set_client; [assumption..|]. discriminate.
Qed.

Lemma query_ok st c ss : J st -> K st -> ok st (step st (Query c ss)).
Proof.
  intros HJ HK. cbn [step]. destruct (get c (clients st)) as [cl|] eqn:G; [|apply ok_nop; assumption].
  apply with_server_ok; try assumption. intros st1 s k J1 K1 Gk Lk Ht.
  destruct (in_copy (belief k)) eqn:Ic; [apply ok_nop; assumption|].
  apply (ok_exec _ _ _ _ k); try assumption. apply (after_cycle_ok _ _ _ k); try assumption.
  - rewrite run_on_loc. exact Lk.
  - apply run_on_tracks; assumption.
Qed.

Lemma batch_ok st c named q : J st -> K st -> ok st (step st (Batch c named q)).
Proof.
  intros HJ HK. cbn [step]. destruct (get c (clients st)) as [cl|] eqn:G; [|apply ok_nop; assumption].
  apply with_server_ok; try assumption. intros st1 s k J1 K1 Gk Lk Ht.
  destruct (in_copy (belief k)) eqn:Ic; [apply ok_nop; assumption|].
  apply (ok_exec _ _ _ _ k); try assumption. apply (after_cycle_ok _ _ _ k); try assumption.
  - destruct named; [destruct (txn (truth k))|]; cbn [loc]; rewrite run_on_loc; exact Lk.
  - destruct named; [|apply run_on_tracks; assumption].
    (* marked dirty first, so [need_prep] holds whatever the statement does *)
    set (k0 := {| truth := truth k; belief := mark_dirty (belief k); loc := loc k |}).
    assert (T1: tracksb (belief (run_on k0 [q])) (truth (run_on k0 [q])) = true)
      by (apply run_on_tracks; [exact Ic|apply tracks_dirty, Ht]).
    destruct (txn (truth k)); try exact T1; cbn [belief truth];
      (apply tracks_prep; [apply run_on_need_prep; reflexivity|exact T1]).
Qed.

(** CopyDone and CopyFail *)
Lemma copy_end_step_ok st c (failed : bool) : J st -> K st ->
  ok st (step st (if failed then CopyFail c else CopyDone c)).
Proof.
  intros HJ HK. destruct failed; cbn [step]; (apply in_loop_ok; try assumption; [|intros _; apply ok_nop; assumption]).
  (* the two differ only in the flag given to [copy_end_tracks] *)
  all: intros cl s k Gk Lk Ht; destruct (copy (truth k)) eqn:Cp; [|apply ok_nop; assumption].
  all: apply (copy_end_ok _ _ _ k); try assumption.
  - exact (copy_end_tracks _ _ true Cp Ht).
  - exact (copy_end_tracks _ _ false Cp Ht).
Qed.

Lemma end_task_ok st c m : J st -> K st -> ok st (end_task st c m, [TaskEnd c]).
Proof. intros HJ HK. apply (ok_task_end _ _ []), ok_set_client; [assumption..|]. discriminate. Qed.

(** Terminate and Drop *)
Lemma terminate_ok st c : J st -> K st -> ok st (step st (Terminate c)).
Proof.
  intros HJ HK. cbn [step]. apply in_loop_ok; try assumption.
  - intros cl s k Gk Lk Ht. eapply exit_cleanup_ok; eassumption.
  - intros cl. apply end_task_ok; assumption.
Qed.

(** BadMsg and PanicMsg *)
Lemma bad_msg_ok st c : J st -> K st -> ok st (step st (BadMsg c)).
Proof.
  intros HJ HK. cbn [step]. destruct (get c (clients st)) as [cl|] eqn:G; [|apply ok_nop; assumption].
  destruct (cst cl) as [| |s] eqn:Ec; [apply ok_nop; assumption|apply end_task_ok; assumption|].
  destruct (HK _ _ _ G Ec) as (k & Gk & Lk). eapply exit_holding_ok; eassumption.
Qed.

Lemma idle_timeout_ok st c : J st -> K st -> ok st (step st (IdleTimeout c)).
Proof.
  intros HJ HK. cbn [step]. apply in_loop_ok; try assumption.
  - intros cl s k Gk Lk Ht. eapply release_ok; eassumption.
  - intros _. apply ok_nop; assumption.
Qed.

(** WriteFail, StmtTimeout and ServerDies: whatever the backend did, the connection is marked bad *)
Lemma write_fail_ok st c ss : J st -> K st -> ok st (step st (WriteFail c ss)).
Proof.
  intros HJ HK. cbn [step]. destruct (get c (clients st)) as [cl|] eqn:G; [|apply ok_nop; assumption].
  apply with_server_ok; try assumption. intros st1 s k J1 K1 Gk Lk Ht.
  destruct (in_copy (belief k)) eqn:Ic; [apply ok_nop; assumption|].
  apply (ok_exec _ _ _ _ k); try assumption.
  set (k2 := {| truth := truth (run_on k ss); belief := mark_bad (belief (run_on k ss)); loc := loc (run_on k ss) |}).
  assert (L2: loc k2 = Held c) by (cbn [k2 loc]; rewrite run_on_loc; exact Lk).
  pose proof (fun J2 K2 => exit_holding_ok _ c (smode cl) s k2 J2 K2 (get_set_conn st1 s k2) L2) as O2.
  destruct (exit_holding (set_conn st1 s k2) c (smode cl) s) as [st3 ev].
  exact (ok_seq _ _ [] (_, _) (ok_set_conn st1 s k k2 c J1 K1 Gk Lk L2 (mark_bad_tracks _ _)) O2).
Qed.

Theorem step_ok st o : J st -> K st -> ok st (step st o).
Proof.
  destruct o.
  - apply connect_ok.
  - apply query_ok.
  - apply batch_ok.
  - apply (copy_end_step_ok st c false).
  - apply (copy_end_step_ok st c true).
  - apply terminate_ok.
  - apply terminate_ok.
  - apply bad_msg_ok.
  - apply bad_msg_ok.
  - apply idle_timeout_ok.
  - apply write_fail_ok.
  - apply write_fail_ok.
  - apply write_fail_ok.
Qed.

Lemma init_J n c0 : J (init n c0).
Proof. split; [constructor|split]; intros s k H; discriminate. Qed.
Lemma init_K n c0 : K (init n c0).
Proof. intros c cl s H; discriminate. Qed.

Theorem run_ok : forall ops st, J st -> K st -> ok st (run st ops).
Proof.
  induction ops as [|o r IH]; intros st HJ HK; cbn [run].
  - apply ok_nop; assumption.
  - pose proof (step_ok st o HJ HK) as O1. destruct (step st o) as [st1 e1]. exact (ok_seq _ _ _ _ O1 (IH st1)).
Qed.

Corollary run_init_ok n c0 ops : ok (init n c0) (run (init n c0) ops).
Proof. apply run_ok; [apply init_J|apply init_K]. Qed.

Lemma clean_handoff n c0 ops s c b : In (CheckedOut s c b) (snd (run (init n c0) ops)) -> clean c0 b = true.
Proof. destruct (run_init_ok n c0 ops) as [(h & M & _) _]. exact (monitor_clean _ _ _ _ (CheckedOut s c b) M). Qed.
