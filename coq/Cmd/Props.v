(** C13 — the property theorems, each audited with [Print Assumptions]; the [Example]s
    validate the specification and show that the hypotheses are satisfiable. *)
From Coq Require Import NArith String Ascii List Bool Lia.
From PV Require Import Cmd.Model Cmd.Spec Cmd.Proofs Cmd.WireProofs.
Import ListNotations.
Open Scope N_scope.

(** The recogniser (the seven regexes + the "exactly one matches" rule) accepts exactly the
    grammar of Spec.v, with exactly its capture.  Recognition is a property of the WHOLE text. *)
Theorem c13_exact : forall s c a, classify s = Some (c, a) <-> Lang c a s.
Proof. exact classify_exact. Qed.
Print Assumptions c13_exact.

Theorem c13_unambiguous : forall s c a c' a', Lang c a s -> Lang c' a' s -> c = c' /\ a = a'.
Proof. intros s c a c' a' H1 H2. apply classify_exact in H1, H2. rewrite H1 in H2. inversion H2; auto. Qed.
Print Assumptions c13_unambiguous.

(** matches.len() != 1  is the same test as  matches.is_empty() : never two regexes at once *)
Theorem c13_one_match_rule : forall s, matches_of forms s = [] \/ exists x, matches_of forms s = [x].
Proof. exact one_match_rule. Qed.
Print Assumptions c13_one_match_rule.

(** Commands are pure ASCII: a query containing any non-ASCII byte (U+017F, U+212A, invalid
    UTF-8, ...) is never a command (the regexes carry (?i-u)). *)
Theorem c13_commands_are_ascii : forall c a s, Lang c a s -> is_ascii s = true.
Proof.
  intros c a s H. destruct (Lang_bytes _ _ _ H) as (hd & tl & -> & Hh & T & _). apply Tail_bytes in T.
  apply forallb_forall. intros b I. apply N.ltb_lt. rewrite Forall_forall in Hh, T.
  apply in_app_or in I as [I|I]; [apply Hh in I; unfold cmd_byte, digitP, wordhead in I|apply T in I]; lia.
Qed.
Print Assumptions c13_commands_are_ascii.

Theorem c13_non_ascii_never_command : forall s, is_ascii s = false -> classify s = None.
Proof.
  intros s H. destruct (classify s) as [[c a]|] eqn:C; auto.
  apply classify_exact in C. apply c13_commands_are_ascii in C. congruence.
Qed.
Print Assumptions c13_non_ascii_never_command.

(** A query is answered by the pooler iff it is a command; anything else is left alone
    (state unchanged, nothing written, the message goes on to the server as it is). *)
Theorem c13_handled_iff_command : forall e st q o,
  (exists r, snd (on_query e st q o) = Some r) <-> (exists c a, Lang c a q).
Proof.
  intros. unfold on_query. split.
  - intros [r H]. destruct (classify q) as [[c a]|] eqn:C; [|discriminate]. exists c, a. apply classify_exact; auto.
  - intros (c & a & H). apply classify_exact in H. rewrite H. destruct (handle e st c a o). eexists; reflexivity.
Qed.
Print Assumptions c13_handled_iff_command.

Theorem c13_other_untouched : forall e st q o, (forall c a, ~ Lang c a q) -> on_query e st q o = (st, None).
Proof.
  intros e st q o H. unfold on_query. destruct (classify q) as [[c a]|] eqn:C; auto.
  apply classify_exact in C. destruct (H _ _ C).
Qed.
Print Assumptions c13_other_untouched.

(** Every command, whatever its argument (digit strings of any length included), gets a
    reply that a client parses back into exactly the intended messages, ending in
    ReadyForQuery('I'); the router state stays within usize. *)
Theorem c13_never_forwarded_always_answered : forall e st q o,
  wf_env e -> st_ok st -> o < e_shards e -> len32 q < qlimit -> (exists c a, Lang c a q) ->
  exists r, snd (on_query e st q o) = Some r /\
            decode_reply (encode r) = Some r /\ ends_with_rfq (encode r) = true /\
            st_ok (fst (on_query e st q o)).
Proof.
  intros e st q o [_ W] OK O LQ (c & a & H). pose proof (Lang_arg_len _ _ _ H) as LA.
  pose proof (Lang_arg_no_nul _ _ _ H) as AP. apply classify_exact in H.
  unfold on_query. rewrite H.
  assert (LA' : len32 a < 536870912) by (unfold len32, qlimit in *; lia).
  destruct (handle_answers e st c a o W OK O AP LA') as [R S].
  destruct (handle e st c a o) as [st1 r]. cbn [fst snd] in *.
  exists r. repeat split; auto using reply_roundtrip, reply_ends_rfq.
Qed.
Print Assumptions c13_never_forwarded_always_answered.

Theorem c13_session_answered : forall e l st, wf_env e -> st_ok st -> Forall (input_sane e) l ->
  Forall reply_ok (snd (run e st l)) /\ st_ok (fst (run e st l)).
Proof.
  intros e l. induction l as [|[[c a] o] l IH]; intros st W OK F; cbn [run].
  - split; [constructor|exact OK].
  - inversion F as [|i l' [[s R] [O LA]] F']; subst. cbn [fst snd] in *.
    apply classify_exact in R. pose proof (Lang_arg_no_nul _ _ _ R) as AP.
    destruct (handle_answers e st c a o (proj2 W) OK O AP LA) as [Rk S].
    destruct (handle e st c a o) as [st1 r]. cbn [fst snd] in *.
    destruct (IH st1 W S F') as [Rs S2]. destruct (run e st1 l) as [st2 rs]. cbn [fst snd] in *.
    split; auto.
Qed.
Print Assumptions c13_session_answered.

(** The three encoders, for EVERY NUL-free string below 2^30 bytes: frames, length fields,
    field layout and the closing ReadyForQuery are right. *)
Theorem c13_replies_wellformed : forall r, reply_ok r ->
  decode_reply (encode r) = Some r /\ ends_with_rfq (encode r) = true.
Proof. intros r H. split; [exact (reply_roundtrip r H) | exact (reply_ends_rfq r H)]. Qed.
Print Assumptions c13_replies_wellformed.

(** SHOW reports what the preceding SETs established, after ANY sequence of commands. *)
Theorem c13_show_reflects_sets : forall e l, wf_env e -> Forall (input_ok e) l ->
  let st := fst (run e (init e) l) in
  let x := arun e ainit l in
  handle e st ShowShard [] 0 = (st, RShow (B "shard") (render_shard x)) /\
  handle e st ShowServerRole [] 0 = (st, RShow (B "server role") (render_role e x)) /\
  handle e st ShowPrimaryReads [] 0 = (st, RShow (B "primary reads") (render_preads e x)).
Proof.
  intros e l [_ W] F st x. subst st x. rewrite <- concr_init. rewrite run_refines; auto using show_renders.
  eapply Forall_impl; [|exact F]. intros i [_ O]. exact O.
Qed.
Print Assumptions c13_show_reflects_sets.

(** What is not a SET changes nothing: an ordinary statement, a transaction, RELOAD, PAUSE /
    RESUME or a refused checkout between two commands is a no-op on the session's command
    state; with unchanged settings the replies are those of the commands alone (so
    c13_show_reflects_sets holds across them) ... *)
Theorem c13_other_events_are_noops : forall e l st, same_env e l ->
  run_ev e st l = (e, fst (run e st (cmds_of l)), snd (run e st (cmds_of l))).
Proof.
  intros e l. induction l as [|ev l IH]; intros st S; [reflexivity|].
  inversion S as [|x y Hx Hl]; subst. destruct ev as [c a o|e'].
  - cbn [run_ev cmds_of run]. destruct (handle e st c a o) as [st1 r]. rewrite IH by auto.
    destruct (run e st1 (cmds_of l)) as [st2 rs]. reflexivity.
  - subst e'. cbn [run_ev cmds_of]. apply IH; auto.
Qed.
Print Assumptions c13_other_events_are_noops.

(** ... and whatever settings a RELOAD that rebuilt the pool brings (pool size, default role,
    shard count, sharding function), SHOW keeps reporting every explicit SET: the selected
    shard (even one the new configuration no longer has), a role / parser choice, primary reads. *)
Theorem c13_explicit_sets_survive_reload : forall e e' st,
  snd (handle e st ShowShard [] 0) = snd (handle e' st ShowShard [] 0) /\
  (st_role st <> None \/ st_parser st <> None ->
   snd (handle e st ShowServerRole [] 0) = snd (handle e' st ShowServerRole [] 0)) /\
  (st_preads st <> None -> snd (handle e st ShowPrimaryReads [] 0) = snd (handle e' st ShowPrimaryReads [] 0)).
Proof.
  intros e e' [sh r p pr]. split; [reflexivity|]. split; cbn [st_role st_parser st_preads].
  - intros [H|H]; destruct r as [r|], p; try reflexivity; congruence.
  - intros H. destruct pr; [reflexivity|congruence].
Qed.
Print Assumptions c13_explicit_sets_survive_reload.

(** Numbers of any length: recognised, and when they do not fit they are refused with an
    error reply and the state is exactly what it was. *)
Theorem c13_any_digits_recognised : forall d, digits1 d ->
  classify (B "SET SHARDING KEY TO " ++ d) = Some (SetShardingKey, d) /\
  classify (B "SET SHARD TO " ++ d) = Some (SetShard, d).
Proof.
  intros d D. split; apply classify_exact.
  - pose proof (L_set_sharding_key [] (B "SET SHARDING KEY TO ") [] d [] []) as H.
    cbn [app] in H. rewrite app_nil_r in H. apply H; [constructor | apply ci_str_refl | left; auto | auto | left; auto | apply Tail_nil].
  - pose proof (L_set_shard [] (B "SET SHARD TO ") [] d [] []) as H.
    cbn [app] in H. rewrite app_nil_r in H. apply H; [constructor | apply ci_str_refl | left; auto | auto | left; auto | apply Tail_nil].
Qed.
Print Assumptions c13_any_digits_recognised.

Theorem c13_big_key_refused : forall e st d o, i64_max < num_of d ->
  handle e st SetShardingKey d o = (st, RErr (msg_bad_key d)).
Proof.
  intros. unfold handle, texec, parse_i64.
  replace (num_of d <=? i64_max) with false by (symmetry; apply N.leb_gt; auto). reflexivity.
Qed.
Print Assumptions c13_big_key_refused.

Theorem c13_big_shard_refused : forall e st d o, digits1 d -> e_shards e <= usize_max -> e_shards e <= num_of d ->
  handle e st SetShard d o = (st, RErr (msg_bad_shard (parse_usize_or_max d) (e_shards e) (st_shard st))).
Proof.
  intros e st d o D W H. unfold handle, texec. rewrite (digits_not_any d D).
  cbn [st_shard set_shard].
  rewrite shard_out_of_range by assumption. destruct st; reflexivity.
Qed.
Print Assumptions c13_big_shard_refused.

(** Text after the ';' of a command is blank: two statements in one message, or a command
    embedded in front of something else, are never commands. *)
Theorem c13_after_semicolon_blank : forall c a x y, Lang c a (x ++ [59] ++ y) -> spaces y.
Proof.
  intros c a x y H.
  destruct (Lang_bytes _ _ _ H) as (hd & tl & E & Hh & (sp1 & semi & sp2 & -> & S1 & Hs & S2) & _).
  assert (K : ~ cmd_byte 59) by (unfold cmd_byte, digitP, wordhead; lia).
  assert (NP : ~ In 59 (hd ++ sp1)) by (apply not_cmd_byte, Forall_app; auto using spaces_bytes).
  assert (N2 : ~ In 59 sp2) by (apply not_cmd_byte; auto using spaces_bytes).
  rewrite (app_assoc hd) in E. destruct Hs as [->| ->]; cbn [app] in E.
  - exfalso. assert (I : In 59 ((hd ++ sp1) ++ sp2)) by (rewrite <- E; apply in_or_app; right; left; auto).
    apply in_app_or in I. tauto.
  - apply split_unique in E; auto. subst; auto.
Qed.
Print Assumptions c13_after_semicolon_blank.

Theorem c13_never_invalid : forall s a, classify s <> Some (InvalidShardingKey, a).
Proof. intros s a H. apply classify_exact in H. inversion H. Qed.
Print Assumptions c13_never_invalid.

(** The table the recogniser runs on IS the seven literals of query_router.rs:30-38
    (also compared with the literals extracted from the source on every run). *)
Example forms_are_the_regexes : map render_form forms =
  [ B "(?i-u)^ *SET SHARDING KEY TO '?([0-9]+)'? *;? *$";
    B "(?i-u)^ *SET SHARD TO '?([0-9]+|ANY)'? *;? *$";
    B "(?i-u)^ *SHOW SHARD *;? *$";
    B "(?i-u)^ *SET SERVER ROLE TO '(PRIMARY|REPLICA|ANY|AUTO|DEFAULT)' *;? *$";
    B "(?i-u)^ *SHOW SERVER ROLE *;? *$";
    B "(?i-u)^ *SET PRIMARY READS TO '?(on|off|default)'? *;? *$";
    B "(?i-u)^ *SHOW PRIMARY READS *;? *$" ].
Proof. vm_compute. reflexivity. Qed.

Example accepted_spellings :
  map classify
    [ B "SET SHARDING KEY TO '1234'"; B "set sharding key to 1234;"; B "   SeT ShArDiNg KeY tO '007  ;   ";
      B "SET SHARD TO 3"; B "SET SHARD TO 'any'"; B "SET SHARD TO 1'";
      B "SHOW SHARD"; B "show shard ; ";
      B "SET SERVER ROLE TO 'primary'"; B "SET SERVER ROLE TO 'Auto';";
      B "SHOW SERVER ROLE"; B "SET PRIMARY READS TO on"; B "SET PRIMARY READS TO 'Default'"; B "SHOW PRIMARY READS;" ]
  = [ Some (SetShardingKey, B "1234"); Some (SetShardingKey, B "1234"); Some (SetShardingKey, B "007");
      Some (SetShard, B "3"); Some (SetShard, B "any"); Some (SetShard, B "1");
      Some (ShowShard, []); Some (ShowShard, []);
      Some (SetServerRole, B "primary"); Some (SetServerRole, B "Auto");
      Some (ShowServerRole, []); Some (SetPrimaryReads, B "on"); Some (SetPrimaryReads, B "Default");
      Some (ShowPrimaryReads, []) ].
Proof. vm_compute. reflexivity. Qed.

(** near misses, embedded and multi-statement texts are not commands *)
Example rejected_texts :
  map classify
    [ B "SET SHARD TO 1; SELECT 1"; B "SELECT 1; SET SHARD TO 1"; B "SET SHARD TO 1; SET SHARD TO 2";
      B "/* x */ SET SHARD TO 1"; B "SET SHARD TO 1 -- c"; B "SET  SHARD TO 1"; B "SET SHARD TO  1";
      B "SET SHARD TO"; B "SET SHARD TO ''"; B "SET SHARD TO -1"; B "SET SHARD TO 1.0"; B "SET SHARD TO ''1''";
      B "SET SHARD 1"; B "SET SHARDS TO 1"; B "SHOW SHARDS"; B "SHOW SHARD;;"; B "SHOW  SHARD";
      B "SET SERVER ROLE TO primary"; B "SET SERVER ROLE TO 'primary"; B "SET SERVER ROLE TO 'master'";
      B "SET PRIMARY READS TO yes"; B "SET PRIMARY READS TO 1"; B "SELECT 'SET SHARD TO 1'";
      [83; 72; 79; 87; 9; 83; 72; 65; 82; 68];          (* SHOW<TAB>SHARD *)
      B "SHOW SHARD" ++ [10];                           (* trailing newline *)
      [10] ++ B "SHOW SHARD"; B "" ]
  = repeat None 27.
Proof. vm_compute. reflexivity. Qed.

Example lang_member : Lang SetShard (B "any") (B " set shard to 'any ;").
Proof. apply c13_exact. vm_compute. reflexivity. Qed.
Example lang_nonmember : forall c a, ~ Lang c a (B "SET SHARD TO 1; SELECT 1").
Proof. intros c a H. apply c13_exact in H. vm_compute in H. discriminate. Qed.
(* regression (former D2): U+017F for S, U+212A for K *)
Example fold_nonmember :
  classify ([197; 191] ++ B "ET SHARD TO 1") = None /\
  classify (B "SET SHARDING " ++ [226; 132; 170] ++ B "EY TO 5") = None.
Proof. vm_compute. split; reflexivity. Qed.

Definition e5 : env := mkEnv 5 None false true.

(** a session exercising every command; the hypotheses of c13_show_reflects_sets hold for it *)
Definition session : list input :=
  [ (SetShard, B "3", 0); (SetShard, B "7", 0); (SetShard, B "99999999999999999999999", 0); (SetShard, B "aNy", 4);
    (SetShardingKey, B "12", 2); (SetShardingKey, B "9223372036854775808", 1);
    (SetServerRole, B "Replica", 0); (SetServerRole, B "AUTO", 0); (SetPrimaryReads, B "OFF", 0); (ShowShard, [], 0) ].

Ltac ok_by s := split; [apply (rec_by _ (B s)); vm_compute; reflexivity | vm_compute; reflexivity].

Example session_hypotheses : wf_env e5 /\ Forall (input_ok e5) session.
Proof.
  split; [split; vm_compute; congruence|]. unfold session.
  apply Forall_cons; [ok_by "SET SHARD TO 3"%string|].
  apply Forall_cons; [ok_by "SET SHARD TO 7"%string|].
  apply Forall_cons; [ok_by "SET SHARD TO 99999999999999999999999"%string|].
  apply Forall_cons; [ok_by "SET SHARD TO aNy"%string|].
  apply Forall_cons; [ok_by "SET SHARDING KEY TO 12"%string|].
  apply Forall_cons; [ok_by "SET SHARDING KEY TO 9223372036854775808"%string|].
  apply Forall_cons; [ok_by "SET SERVER ROLE TO 'Replica'"%string|].
  apply Forall_cons; [ok_by "SET SERVER ROLE TO 'AUTO'"%string|].
  apply Forall_cons; [ok_by "SET PRIMARY READS TO OFF"%string|].
  apply Forall_cons; [ok_by "SHOW SHARD"%string|]. apply Forall_nil.
Qed.

Example session_result :
  snd (run e5 (init e5) session) =
  [ ROk (B "SET SHARD");
    RErr (B "shard 7 is not configured 5, staying on shard Some(3) (shard numbers start at 0)");
    RErr (B "shard 18446744073709551615 is not configured 5, staying on shard Some(3) (shard numbers start at 0)");
    ROk (B "SET SHARD"); ROk (B "SET SHARDING KEY");
    RErr (B "sharding key 9223372036854775808 is out of range for bigint");
    ROk (B "SET SERVER ROLE"); ROk (B "SET SERVER ROLE"); ROk (B "SET PRIMARY READS");
    RShow (B "shard") (B "2") ] /\
  fst (run e5 (init e5) session) = mkSt (Some 2) None (Some true) (Some false) /\
  arun e5 ainit session = mkA (Some 2) RS_auto T_off.
Proof. vm_compute. repeat split. Qed.

(* regression (former D1): any capitalisation of the argument takes effect and SHOW reports it *)
Example primary_reads_any_case :
  snd (run (mkEnv 1 None false true) (init (mkEnv 1 None false true))
         [(SetPrimaryReads, B "OFF", 0); (ShowPrimaryReads, [], 0); (SetPrimaryReads, B "On", 0); (ShowPrimaryReads, [], 0);
          (SetPrimaryReads, B "OFF", 0); (SetPrimaryReads, B "DeFaUlT", 0); (ShowPrimaryReads, [], 0)]) =
  [ ROk (B "SET PRIMARY READS"); RShow (B "primary reads") (B "off"); ROk (B "SET PRIMARY READS"); RShow (B "primary reads") (B "on");
    ROk (B "SET PRIMARY READS"); ROk (B "SET PRIMARY READS"); RShow (B "primary reads") (B "on") ].
Proof. vm_compute. reflexivity. Qed.

(** the exact bytes of the three reply kinds *)
Example bytes_ok : encode (ROk (B "SET SHARD")) =
  [67; 0; 0; 0; 14; 83; 69; 84; 32; 83; 72; 65; 82; 68; 0;  90; 0; 0; 0; 5; 73].
Proof. vm_compute. reflexivity. Qed.
Example bytes_show : encode (RShow (B "shard") (B "3")) =
  [84; 0; 0; 0; 30; 0; 1; 115; 104; 97; 114; 100; 0; 0; 0; 0; 0; 0; 0; 0; 0; 0; 25; 255; 255; 255; 255; 255; 255; 0; 0;
   68; 0; 0; 0; 11; 0; 1; 0; 0; 0; 1; 51;
   67; 0; 0; 0; 13; 83; 69; 76; 69; 67; 84; 32; 49; 0;
   90; 0; 0; 0; 5; 73].
Proof. vm_compute. reflexivity. Qed.
Example bytes_err : encode (RErr (B "x")) =
  [69; 0; 0; 0; 29; 83; 70; 65; 84; 65; 76; 0; 86; 70; 65; 84; 65; 76; 0; 67; 53; 56; 48; 48; 48; 0; 77; 120; 0; 0;
   90; 0; 0; 0; 5; 73].
Proof. vm_compute. reflexivity. Qed.

(** the frame reader is not trivially accepting: damaged replies do not parse *)
Example reader_rejects :
  decode_reply (removelast (encode (ROk (B "SET SHARD")))) = None /\
  decode_reply (encode (ROk (B "SET SHARD")) ++ [0]) = None /\
  decode_reply [67; 0; 0; 0; 13; 83; 69; 84; 32; 83; 72; 65; 82; 68; 0; 90; 0; 0; 0; 5; 73] = None /\
  decode_reply (encode (ROk (B "a" ++ [0] ++ B "b"))) <> Some (ROk (B "a" ++ [0] ++ B "b")).
Proof. vm_compute. repeat split; congruence. Qed.

(** the Query message: text ends at the first NUL; a body without NUL loses its last byte;
    an empty body panics (messages.rs:752) *)
Example message_level :
  classify_msg 81 (B "SHOW SHARD" ++ [0]) = Ok (Some (ShowShard, [])) /\
  classify_msg 81 (B "SHOW SHARD" ++ [0] ++ B " junk" ++ [0]) = Ok (Some (ShowShard, [])) /\
  classify_msg 81 (B "SHOW SHARDx") = Ok (Some (ShowShard, [])) /\
  classify_msg 80 (B "SHOW SHARD" ++ [0]) = Ok None /\
  classify_msg 81 [] = Panic.
Proof. vm_compute. repeat split. Qed.
