(** C13 — lemmas about the reply bytes: every reply the pooler writes parses back, with an
    independent frame reader, into exactly the intended messages. *)
From Coq Require Import NArith String Ascii List Bool Lia.
From PV Require Import Cmd.Model Cmd.Spec Cmd.Proofs.
Import ListNotations.
Open Scope N_scope.

Definition no_nul (l : list N) : Prop := Forall (fun b => b <> 0) l.
Definition small (l : list N) : Prop := len32 l < 1073741824.     (* 2^30 *)

Definition reply_ok (r : reply) : Prop :=
  match r with
  | ROk t => no_nul t /\ small t
  | RShow n v => no_nul n /\ small n /\ small v
  | RErr m => no_nul m /\ small m
  | RNoReply => False
  end.

Lemma len32_app : forall a b, len32 (a ++ b) = len32 a + len32 b.
Proof. intros. unfold len32. rewrite app_length, Nat2N.inj_add. auto. Qed.
Lemma len32_cons : forall a b, len32 (a :: b) = 1 + len32 b.
Proof. intros. change (a :: b) with ([a] ++ b). rewrite len32_app. reflexivity. Qed.

Lemma undigit256 : forall n, n / 256 * 256 + n mod 256 = n.
Proof. intros. rewrite N.mul_comm. symmetry. apply N.div_mod. discriminate. Qed.

Lemma dec32_be32 : forall n, n < 4294967296 ->
  dec32 ((n / 16777216) mod 256) ((n / 65536) mod 256) ((n / 256) mod 256) (n mod 256) = n.
Proof.
  intros n H. unfold dec32.
  change 16777216 with (256 * 256 * 256). change 65536 with (256 * 256).
  rewrite <- !N.div_div by discriminate.
  rewrite (N.mod_small (n / 256 / 256 / 256)).
  - rewrite !undigit256. reflexivity.
  - repeat (apply N.div_lt_upper_bound; [discriminate|]). exact H.
Qed.

Lemma body_scan : forall done t body acc, body <> [] ->
  fold_left pstep body (PBody done t (len32 body) acc) = PHdr (done ++ [(t, rev acc ++ body)]) [].
Proof.
  intros done t body. induction body as [|b body IH]; intros acc NE; [congruence|].
  cbn [fold_left]. rewrite len32_cons. destruct body as [|b' body'].
  - change (len32 []) with 0. cbn [pstep fold_left rev]. reflexivity.
  - cbn [pstep]. rewrite len32_cons.
    replace (1 + (1 + len32 body') =? 0) with false by (symmetry; apply N.eqb_neq; lia).
    replace (1 + (1 + len32 body') =? 1) with false by (symmetry; apply N.eqb_neq; lia).
    replace (1 + (1 + len32 body') - 1) with (len32 (b' :: body')) by (rewrite len32_cons; lia).
    rewrite (IH (b :: acc)) by discriminate. cbn [rev]. rewrite <- app_assoc. reflexivity.
Qed.

Lemma frame_scan : forall done t body, len32 body + 4 < 4294967296 ->
  fold_left pstep (frame t body) (PHdr done []) = PHdr (done ++ [(t, body)]) [].
Proof.
  intros done t body H. unfold frame, be32. set (L := len32 body + 4) in *.
  cbn [app fold_left pstep]. rewrite dec32_be32 by exact H. subst L.
  destruct body as [|b body]; [reflexivity|]. set (body' := b :: body) in *.
  destruct (N.ltb_spec (len32 body' + 4) 4); [lia|].
  destruct (N.eqb_spec (len32 body' + 4) 4); [unfold body' in *; rewrite len32_cons in *; lia|].
  rewrite N.add_sub. apply body_scan. discriminate.
Qed.

Lemma split_nul_app : forall s r, no_nul s -> split_nul (s ++ 0 :: r) = Some (s, r).
Proof.
  induction s as [|b s IH]; intros r H; cbn [app split_nul]. - reflexivity.
  - inversion H; subst. replace (b =? 0) with false by (symmetry; apply N.eqb_neq; auto). rewrite IH; auto.
Qed.

Lemma dec_cstr_only_ok : forall s, no_nul s -> dec_cstr_only (s ++ [0]) = Some s.
Proof. intros. unfold dec_cstr_only. rewrite split_nul_app; auto. Qed.

Lemma dec_rowdesc_ok : forall name, no_nul name ->
  dec_rowdesc (be16 1 ++ name ++ [0] ++ rowdesc_fixed) = Some name.
Proof.
  intros. unfold dec_rowdesc. rewrite strip_prefix_app. cbn [app]. rewrite split_nul_app by auto.
  rewrite list_eqb_refl. auto.
Qed.

Lemma dec_datarow_ok : forall v, len32 v < 4294967296 -> dec_datarow (be16 1 ++ be32 (len32 v) ++ v) = Some v.
Proof.
  intros v H. unfold dec_datarow. rewrite strip_prefix_app. unfold be32. cbn [app].
  rewrite dec32_be32 by auto. rewrite N.eqb_refl. auto.
Qed.

Lemma dec_err_ok : forall m, no_nul m -> dec_err (err_fixed ++ m ++ [0; 0]) = Some m.
Proof.
  intros. unfold dec_err. rewrite strip_prefix_app. change (m ++ [0; 0]) with (m ++ 0 :: [0]).
  rewrite split_nul_app; auto.
Qed.

Ltac lenB :=
  repeat match goal with
  | |- context [len32 (B ?s)] => let x := eval vm_compute in (len32 (B s)) in change (len32 (B s)) with x
  end.

Lemma parse_ok : forall t, small t ->
  parse_frames (encode (ROk t)) = Some [(67, t ++ [0]); (90, [73])].
Proof.
  intros t S. unfold small in S. unfold parse_frames, encode, enc_cc, enc_rfq.
  rewrite fold_left_app. rewrite frame_scan.
  - rewrite frame_scan; [reflexivity|vm_compute; reflexivity].
  - rewrite len32_app. change (len32 [0]) with 1. lia.
Qed.

Lemma parse_show : forall n v, small n -> small v ->
  parse_frames (encode (RShow n v)) =
  Some [(84, be16 1 ++ n ++ [0] ++ rowdesc_fixed); (68, be16 1 ++ be32 (len32 v) ++ v); (67, B "SELECT 1" ++ [0]); (90, [73])].
Proof.
  intros n v Sn Sv. unfold small in *. unfold parse_frames, encode, enc_rowdesc, enc_datarow, enc_cc, enc_rfq.
  repeat rewrite fold_left_app. rewrite frame_scan.
  - rewrite frame_scan.
    + rewrite frame_scan; [|vm_compute; reflexivity]. rewrite frame_scan; [reflexivity|vm_compute; reflexivity].
    + repeat rewrite len32_app. change (len32 (be16 1)) with 2. change (len32 (be32 (len32 v))) with 4. lia.
  - repeat rewrite len32_app. change (len32 (be16 1)) with 2. change (len32 [0]) with 1.
    change (len32 rowdesc_fixed) with 18. lia.
Qed.

Lemma parse_err : forall m, small m ->
  parse_frames (encode (RErr m)) = Some [(69, err_fixed ++ m ++ [0; 0]); (90, [73])].
Proof.
  intros m S. unfold small in S. unfold parse_frames, encode, enc_err, enc_rfq.
  rewrite fold_left_app. rewrite frame_scan.
  - rewrite frame_scan; [reflexivity|vm_compute; reflexivity].
  - repeat rewrite len32_app. change (len32 err_fixed) with 22. change (len32 [0; 0]) with 2. lia.
Qed.

(** decode (encode r) = r : messages, their order, every length field, the final ReadyForQuery *)
Lemma reply_roundtrip : forall r, reply_ok r -> decode_reply (encode r) = Some r.
Proof.
  intros [t|n v|m|] H; cbn [reply_ok] in H; try contradiction; unfold decode_reply.
  - destruct H as [NN S]. rewrite parse_ok by auto. rewrite dec_cstr_only_ok; auto.
  - destruct H as (NN & Sn & Sv). rewrite parse_show by auto.
    rewrite dec_rowdesc_ok by auto. rewrite dec_datarow_ok by (unfold small in Sv; lia).
    rewrite dec_cstr_only_ok by (vm_compute; repeat constructor; discriminate). rewrite list_eqb_refl. auto.
  - destruct H as [NN S]. rewrite parse_err by auto. rewrite dec_err_ok; auto.
Qed.

Lemma reply_ends_rfq : forall r, reply_ok r -> ends_with_rfq (encode r) = true.
Proof.
  intros [t|n v|m|] H; cbn [reply_ok] in H; try contradiction; unfold ends_with_rfq.
  - destruct H as [NN S]. rewrite parse_ok by auto. reflexivity.
  - destruct H as (NN & Sn & Sv). rewrite parse_show by auto. reflexivity.
  - destruct H as [NN S]. rewrite parse_err by auto. reflexivity.
Qed.

Definition two64 : N := 18446744073709551616.
Definition st_ok (st : rstate) : Prop := match st_shard st with Some x => x < two64 | None => True end.

Definition no_nulb (l : list N) : bool := forallb (fun b => negb (b =? 0)) l.
Lemma no_nulb_ok : forall l, no_nulb l = true -> no_nul l.
Proof.
  intros l H. unfold no_nulb in H. rewrite forallb_forall in H. apply Forall_forall. intros x I.
  apply H in I. apply negb_true_iff in I. apply N.eqb_neq in I. auto.
Qed.
Lemma no_nul_app : forall a b, no_nul a -> no_nul b -> no_nul (a ++ b).
Proof. intros. apply Forall_app; auto. Qed.

Lemma dec_aux_len : forall f n, (length (dec_aux f n) <= f)%nat.
Proof.
  induction f; intros n; cbn [dec_aux]; auto. destruct (n <? 10); cbn [length]; [lia|].
  rewrite app_length. cbn [length]. specialize (IHf (n / 10)). lia.
Qed.

Lemma dec_aux_no_nul : forall f n, no_nul (dec_aux f n).
Proof.
  assert (D : forall d, no_nul [48 + d]) by (intros [|d]; repeat constructor; discriminate).
  induction f; intros n; cbn [dec_aux]; [constructor|]. destruct (n <? 10); [apply D|].
  apply no_nul_app; auto.
Qed.

Lemma dec_no_nul : forall n, no_nul (dec n).
Proof. intros. apply dec_aux_no_nul. Qed.

Lemma dec_len : forall n, n < two64 -> len32 (dec n) <= 64.
Proof.
  intros n H. unfold dec, len32. pose proof (dec_aux_len (S (N.to_nat (N.log2 n))) n) as L.
  assert (N.log2 n < 64).
  { destruct (N.eq_dec n 0) as [->|NZ]; [vm_compute; reflexivity|]. apply N.log2_lt_pow2; [lia|]. exact H. }
  lia.
Qed.

Lemma dbg_opt_ok : forall o, match o with Some x => x < two64 | None => True end ->
  no_nul (dbg_opt o) /\ len32 (dbg_opt o) <= 70.
Proof.
  intros [x|] H; unfold dbg_opt.
  - split. + repeat apply no_nul_app; try (apply no_nulb_ok; reflexivity). apply dec_no_nul.
    + repeat rewrite len32_app. lenB. pose proof (dec_len x H). lia.
  - split; [apply no_nulb_ok; reflexivity|vm_compute; discriminate].
Qed.

Lemma role_of_arg_shard : forall e st a, st_shard (role_of_arg e st a) = st_shard st.
Proof.
  intros. unfold role_of_arg. do 5 (destruct (list_eqb _ _); [reflexivity|]). reflexivity.
Qed.
Lemma preads_of_arg_shard : forall st a, st_shard (preads_of_arg st a) = st_shard st.
Proof.
  intros. unfold preads_of_arg. do 3 (destruct (list_eqb _ _); [reflexivity|]). reflexivity.
Qed.

(* a constant text: both facts by evaluation *)
Lemma const_ok : forall l, no_nulb l = true -> (len32 l <? 1073741824) = true -> no_nul l /\ small l.
Proof. intros l H1 H2. split; [apply no_nulb_ok, H1|apply N.ltb_lt, H2]. Qed.

Lemma show_ok : forall n v, no_nulb n = true -> (len32 n <? 1073741824) = true -> small v -> reply_ok (RShow n v).
Proof. intros n v H1 H2 Sv. destruct (const_ok n H1 H2). cbn. auto. Qed.

Lemma bad_key_ok : forall a, no_nul a -> len32 a < 536870912 -> reply_ok (RErr (msg_bad_key a)).
Proof.
  intros a NN LA. unfold msg_bad_key. split.
  - repeat apply no_nul_app; auto; apply no_nulb_ok; reflexivity.
  - unfold small. repeat rewrite len32_app. lenB. lia.
Qed.

(* the range check and the restore of client.rs:1679-1695, for a selected shard below 2^64 *)
Lemma set_shard_answers : forall e st sel, e_shards e <= usize_max -> st_ok st -> sel < two64 ->
  let r := if e_shards e <=? sel
           then (set_shard (set_shard st (Some sel)) (st_shard st), RErr (msg_bad_shard sel (e_shards e) (st_shard st)))
           else (set_shard st (Some sel), ROk (B "SET SHARD")) in
  reply_ok (snd r) /\ st_ok (fst r).
Proof.
  intros e st sel W OK Hs r. subst r. unfold usize_max in W.
  destruct (e_shards e <=? sel); cbn [fst snd reply_ok].
  - split; [|exact OK]. unfold msg_bad_shard. destruct (dbg_opt_ok (st_shard st) OK) as [C1 C2].
    assert (He : e_shards e < two64) by (unfold two64; lia).
    pose proof (dec_len sel Hs). pose proof (dec_len (e_shards e) He). split.
    + repeat apply no_nul_app; try (apply no_nulb_ok; reflexivity); auto using dec_no_nul.
    + unfold small. repeat rewrite len32_app. lenB. lia.
  - split; [apply const_ok; reflexivity|exact Hs].
Qed.

(* the argument matters only where it is echoed (the bigint error): it must not hold a NUL *)
Lemma handle_answers : forall e st c a o,
  e_shards e <= usize_max -> st_ok st -> o < e_shards e -> no_nul a -> len32 a < 536870912 ->
  reply_ok (snd (handle e st c a o)) /\ st_ok (fst (handle e st c a o)).
Proof.
  intros e st c a o W OK O NN LA. unfold usize_max in W. destruct c; unfold handle, texec; cbn [fst snd].
  - destruct (parse_i64 a); cbn [fst snd]; [|auto using bad_key_ok].
    split; [apply const_ok; reflexivity|]. unfold st_ok, two64 in *. cbn. lia.
  - destruct (list_eqb (map upper a) (B "ANY")); cbn [st_shard set_shard];
      apply set_shard_answers; auto; unfold two64; [lia|].
    unfold parse_usize_or_max, usize_max. destruct (N.leb_spec (num_of a) 18446744073709551615); lia.
  - split; [apply show_ok; try reflexivity|exact OK]. unfold st_ok in OK. destruct (st_shard st).
    + pose proof (dec_len n OK). unfold small. lia.
    + reflexivity.
  - split; [apply const_ok; reflexivity|]. unfold st_ok. rewrite role_of_arg_shard. exact OK.
  - split; [apply show_ok; try reflexivity|exact OK].
    destruct (st_role st) as [[| |]|]; [| | |destruct (parser_enabled e st)]; reflexivity.
  - split; [apply const_ok; reflexivity|]. unfold st_ok. rewrite preads_of_arg_shard. exact OK.
  - split; [apply show_ok; try reflexivity|exact OK]. destruct (preads_enabled e st); reflexivity.
  - auto using bad_key_ok.
Qed.

Lemma Lang_arg_no_nul : forall c a s, Lang c a s -> no_nul a.
Proof.
  intros c a s H. destruct (Lang_bytes _ _ _ H) as (_ & _ & _ & _ & _ & A).
  eapply Forall_impl; [|exact A]. unfold cmd_byte, digitP, wordhead. intros b Hb. lia.
Qed.

Definition qlimit : N := 536870912.     (* 2^29; a Query message length is an i32 *)

Definition input_sane (e : env) (i : input) : Prop :=
  recognised i /\ snd i < e_shards e /\ len32 (snd (fst i)) < qlimit.

Lemma init_ok : forall e, st_ok (init e).
Proof. intros. exact I. Qed.

