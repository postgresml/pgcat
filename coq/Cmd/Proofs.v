(** C13 — lemmas.  The recogniser is exactly the grammar: row by row of the table ([LangF],
    [recog_sound], [recog_complete]), then for the seven rows ([classify_exact]).  The router
    state is the abstract record seen through [concr] ([handle_refines]).  The bytes in front of a
    command's tail are blanks, quotes, digits and letters ([Lang_bytes]). *)
From Coq Require Import NArith String Ascii List Bool Lia.
From PV Require Import Cmd.Model Cmd.Spec.
Import ListNotations.
Open Scope N_scope.

Lemma range_iff : forall lo hi b, (lo <=? b) && (b <=? hi) = true <-> lo <= b <= hi.
Proof. intros. rewrite andb_true_iff, !N.leb_le. tauto. Qed.

Lemma lower_cases : forall b, (65 <= b <= 90 /\ lower b = b + 32) \/ (~ (65 <= b <= 90) /\ lower b = b).
Proof.
  intros b. unfold lower, is_upper. rewrite <- range_iff.
  destruct ((65 <=? b) && (b <=? 90)); [left|right]; split; auto.
Qed.

Lemma upper_cases : forall b, (97 <= b <= 122 /\ upper b = b - 32) \/ (~ (97 <= b <= 122) /\ upper b = b).
Proof.
  intros b. unfold upper, is_lower. rewrite <- range_iff.
  destruct ((97 <=? b) && (b <=? 122)); [left|right]; split; auto.
Qed.

Lemma lower_upper : forall b, 65 <= b <= 90 -> lower b = b + 32.
Proof. intros b H. destruct (lower_cases b) as [[_ E]|[? _]]; [exact E|contradiction]. Qed.

Lemma lower_other : forall b, ~ (65 <= b <= 90) -> lower b = b.
Proof. intros b H. destruct (lower_cases b) as [[? _]|[_ E]]; [contradiction|exact E]. Qed.

Lemma lower_ascii : forall c, c < 128 -> lower c < 128.
Proof. intros c H. destruct (lower_cases c) as [[? E]|[? E]]; rewrite E; lia. Qed.

Lemma lower_idem : forall c, lower (lower c) = lower c.
Proof. intros c. destruct (lower_cases c) as [[? E]|[? E]]; rewrite E; auto. rewrite lower_other by lia. reflexivity. Qed.

Lemma strip_prefix_app : forall p r, strip_prefix p (p ++ r) = Some r.
Proof. induction p; intros; cbn [strip_prefix app]; auto. rewrite N.eqb_refl. auto. Qed.

Lemma strip_prefix_sound : forall p s r, strip_prefix p s = Some r -> s = p ++ r.
Proof.
  induction p; intros s r H; cbn [strip_prefix] in H.
  - inversion H; auto.
  - destruct s; [discriminate|]. destruct (N.eqb_spec a n); [|discriminate]. subst. cbn [app]. f_equal. auto.
Qed.

Lemma lower_eq_ci : forall b c, lower b = lower c -> ci_char c [b].
Proof.
  intros b c H.
  destruct (lower_cases b) as [[Hb Eb]|[Hb Eb]]; destruct (lower_cases c) as [[Hc Ec]|[Hc Ec]]; rewrite Eb, Ec in H.
  - assert (b = c) by lia. subst. constructor.
  - assert (Hx : b = c - 32) by lia. rewrite Hx. apply ci_to_upper. lia.
  - subst b. apply ci_to_lower. lia.
  - subst. constructor.
Qed.

Lemma eat_char_inv : forall c s w r, eat_char c s = Some (w, r) ->
  exists b, s = b :: r /\ w = [b] /\ lower b = lower c.
Proof.
  intros c [|b s'] w r H; [discriminate|]. unfold eat_char in H.
  destruct (N.eqb_spec (lower b) (lower c)); [|discriminate]. injection H as <- <-. eauto.
Qed.

Lemma eat_char_sound : forall c s w r, eat_char c s = Some (w, r) -> s = w ++ r /\ ci_char c w.
Proof.
  intros c s w r H. destruct (eat_char_inv _ _ _ _ H) as (b & -> & -> & L). auto using lower_eq_ci.
Qed.

Lemma ci_char_fold : forall c w, ci_char c w -> exists b, w = [b] /\ lower b = lower c.
Proof.
  intros c w H. inversion H; subst; eexists; (split; [reflexivity|]); auto.
  - rewrite (lower_upper c), lower_other by lia. reflexivity.
  - rewrite (lower_upper (c - 32)), (lower_other c) by lia. lia.
Qed.

Lemma ci_char_lower : forall c w, ci_char c w -> map lower w = [lower c].
Proof. intros c w H. destruct (ci_char_fold c w H) as (b & -> & L). cbn [map]. rewrite L. reflexivity. Qed.

Lemma ci_str_lower : forall w a, ci_str w a -> map lower a = map lower w.
Proof.
  intros w a H. induction H; auto.
  rewrite map_app. cbn [map]. rewrite (ci_char_lower c w); auto. cbn [app]. f_equal. auto.
Qed.

Lemma eat_char_complete : forall c w r, ci_char c w -> eat_char c (w ++ r) = Some (w, r).
Proof.
  intros c w r H. destruct (ci_char_fold c w H) as (b & -> & L).
  unfold eat_char. cbn [app]. rewrite L, N.eqb_refl. reflexivity.
Qed.

Lemma match_kw_sound : forall kw s w r, match_kw kw s = Some (w, r) -> s = w ++ r /\ ci_str kw w.
Proof.
  induction kw as [|c kw IH]; intros s w r H; cbn [match_kw] in H.
  - inversion H; subst. split; auto. constructor.
  - destruct (eat_char c s) as [[w1 r1]|] eqn:E; [|discriminate].
    destruct (match_kw kw r1) as [[w2 r2]|] eqn:M; [|discriminate]. inversion H; subst.
    apply eat_char_sound in E. destruct E as [-> C]. apply IH in M. destruct M as [-> S].
    split; [rewrite app_assoc; auto | constructor; auto].
Qed.

Lemma match_kw_complete : forall kw w r, ci_str kw w -> match_kw kw (w ++ r) = Some (w, r).
Proof.
  intros kw w r H. revert r. induction H; intros r; cbn [match_kw]; auto.
  rewrite <- app_assoc. rewrite eat_char_complete by auto. rewrite IHci_str. auto.
Qed.

Lemma ci_str_refl : forall w, ci_str w w.
Proof. induction w; [constructor|]. change (a :: w) with ([a] ++ w). constructor; auto. constructor. Qed.

(* two different literals cannot both match at the same place *)
Fixpoint first_diff (k1 k2 : list N) : bool :=
  match k1, k2 with
  | c1 :: r1, c2 :: r2 => if lower c1 =? lower c2 then first_diff r1 r2 else true
  | _, _ => false
  end.

Lemma eat_char_det : forall c1 c2 s x y,
  eat_char c1 s = Some x -> eat_char c2 s = Some y -> lower c1 = lower c2.
Proof.
  intros c1 c2 s [w1 r1] [w2 r2] H1 H2.
  destruct (eat_char_inv _ _ _ _ H1) as (b & -> & _ & L1). destruct (eat_char_inv _ _ _ _ H2) as (b' & E & _ & L2).
  injection E as <- _. congruence.
Qed.

Lemma eat_char_lower : forall c1 c2 s, lower c1 = lower c2 -> eat_char c1 s = eat_char c2 s.
Proof. intros. unfold eat_char. rewrite H. auto. Qed.

Lemma match_kw_incompat : forall k1 k2 s x y, first_diff k1 k2 = true ->
  match_kw k1 s = Some x -> match_kw k2 s = Some y -> False.
Proof.
  induction k1 as [|c1 k1 IH]; intros k2 s x y D H1 H2; [discriminate|].
  destruct k2 as [|c2 k2]; [discriminate|]. cbn [first_diff] in D. cbn [match_kw] in H1, H2.
  destruct (eat_char c1 s) as [[w1 r1]|] eqn:E1; [|discriminate].
  destruct (eat_char c2 s) as [[w2 r2]|] eqn:E2; [|discriminate].
  pose proof (eat_char_det _ _ _ _ _ E1 E2) as L.
  rewrite (eat_char_lower _ _ s L) in E1. rewrite E1 in E2. inversion E2; subst.
  apply N.eqb_eq in L. rewrite L in D.
  destruct (match_kw k1 r2) eqn:M1; [|discriminate]. destruct (match_kw k2 r2) eqn:M2; [|discriminate].
  eapply IH; eauto.
Qed.

Definition head_is (P : N -> Prop) (l : list N) : Prop := match l with [] => True | b :: _ => P b end.

Lemma head_is_impl : forall (P Q : N -> Prop) l, (forall b, P b -> Q b) -> head_is P l -> head_is Q l.
Proof. intros P Q [|b l] H; cbn; auto. Qed.

Lemma skip_sp_spec : forall s, exists sp, spaces sp /\ s = sp ++ skip_sp s /\ head_is (fun b => b <> 32) (skip_sp s).
Proof.
  induction s as [|b s IH]; cbn [skip_sp].
  - exists []. repeat split; constructor.
  - unfold is_space. destruct (N.eqb_spec b 32).
    + destruct IH as (sp & S & Eq & Hd). exists (b :: sp). repeat split; auto.
      * constructor; auto.
      * cbn [app]. f_equal. auto.
    + exists []. repeat split; auto. constructor.
Qed.

Lemma skip_sp_id : forall r, head_is (fun b => b <> 32) r -> skip_sp r = r.
Proof. destruct r; cbn; auto. intros H. unfold is_space. apply N.eqb_neq in H. rewrite H. auto. Qed.

Lemma skip_sp_app : forall sp r, spaces sp -> head_is (fun b => b <> 32) r -> skip_sp (sp ++ r) = r.
Proof.
  induction sp; intros r S H; cbn [app]. - apply skip_sp_id; auto.
  - inversion S; subst. cbn [skip_sp is_space]. unfold is_space. rewrite N.eqb_refl. auto.
Qed.

Lemma skip_sp_spaces : forall l, spaces l -> skip_sp l = [].
Proof. intros l S. rewrite <- (app_nil_r l). apply skip_sp_app; cbn; auto. Qed.

Lemma skip_sp_nil : forall l, skip_sp l = [] -> spaces l.
Proof. intros l H. destruct (skip_sp_spec l) as (sp & S & Eq & _). rewrite H, app_nil_r in Eq. subst; auto. Qed.

(* a [match] on a byte literal is a tree of matches on the bits: walked once for each literal, here *)
Lemma is59 : forall b, b = 59 \/ forall A (x y : A), match b with 59 => x | _ => y end = y.
Proof.
  intros [|p]; [right; reflexivity|].
  repeat (destruct p as [p|p|]; try (right; reflexivity)). left; reflexivity.
Qed.

Lemma is39 : forall b, b = 39 \/ forall A (x y : A), match b with 39 => x | _ => y end = y.
Proof.
  intros [|p]; [right; reflexivity|].
  repeat (destruct p as [p|p|]; try (right; reflexivity)). left; reflexivity.
Qed.

Lemma tail_ok_sound : forall s, tail_ok s = true -> Tail s.
Proof.
  intros s H. unfold tail_ok in H. destruct (skip_sp_spec s) as (sp & S & Eq & Hd).
  revert Eq Hd H. generalize (skip_sp s). intros [|b r] -> Hd H.
  - exists sp, [], []. repeat split; auto. constructor.
  - destruct (is59 b) as [->|E].
    + destruct (skip_sp r) eqn:R; [|discriminate]. apply skip_sp_nil in R.
      exists sp, [59], r. repeat split; auto.
    + rewrite E in H. destruct (skip_sp (b :: r)) eqn:R; [|discriminate].
      apply skip_sp_nil in R. inversion R; subst. elim Hd. reflexivity.
Qed.

Lemma tail_ok_complete : forall s, Tail s -> tail_ok s = true.
Proof.
  intros s (sp1 & semi & sp2 & -> & S1 & [->| ->] & S2); unfold tail_ok.
  - cbn [app]. rewrite (skip_sp_spaces (sp1 ++ sp2)). + cbn. auto. + apply Forall_app; auto.
  - rewrite (skip_sp_app sp1 ([59] ++ sp2)); auto. + cbn [app]. rewrite skip_sp_spaces; auto. + cbn. lia.
Qed.

Lemma Tail_bytes : forall tl, Tail tl -> Forall (fun b => b = 32 \/ b = 59) tl.
Proof.
  intros tl (sp1 & semi & sp2 & -> & S1 & Hs & S2).
  assert (Sp : forall l, spaces l -> Forall (fun b => b = 32 \/ b = 59) l) by (intros l S; eapply Forall_impl; [|exact S]; auto).
  repeat (apply Forall_app; split); auto. destruct Hs as [->| ->]; auto.
Qed.

Lemma Tail_head : forall tl, Tail tl -> head_is (fun b => b = 32 \/ b = 59) tl.
Proof. intros tl T. destruct (Tail_bytes tl T); cbn; auto. Qed.

Lemma Tail_nil : Tail [].
Proof. exists [], [], []. repeat split; auto; constructor. Qed.

Definition digitP (b : N) : Prop := 48 <= b <= 57.
Lemma is_digit_iff : forall b, is_digit b = true <-> digitP b.
Proof. intros b. exact (range_iff 48 57 b). Qed.

Lemma take_digits_spec : forall s d r, take_digits s = (d, r) ->
  s = d ++ r /\ Forall digitP d /\ head_is (fun b => ~ digitP b) r.
Proof.
  induction s as [|b s IH]; intros d r H; cbn [take_digits] in H.
  - inversion H; subst. repeat split; cbn; auto.
  - destruct (is_digit b) eqn:E.
    + destruct (take_digits s) as [d' t'] eqn:T. inversion H; subst.
      destruct (IH _ _ eq_refl) as (-> & F & Hd). repeat split; auto. constructor; auto. apply is_digit_iff; auto.
    + inversion H; subst. repeat split; cbn; auto. intros D. apply is_digit_iff in D. congruence.
Qed.

Lemma take_digits_app : forall d r, Forall digitP d -> head_is (fun b => ~ digitP b) r -> take_digits (d ++ r) = (d, r).
Proof.
  induction d; intros r F H; cbn [app].
  - destruct r; cbn [take_digits]; auto. cbn in H. destruct (is_digit n) eqn:E; auto. apply is_digit_iff in E. tauto.
  - inversion F; subst. cbn [take_digits]. apply is_digit_iff in H2. rewrite H2. rewrite IHd; auto.
Qed.

Definition arg_spec (k : argkind) (a : list N) : Prop :=
  match k with ADigits => digits1 a | AWord w => ci_str w a end.
Definition ArgOk (ks : list argkind) (a : list N) : Prop := exists k, In k ks /\ arg_spec k a.

Lemma match_arg_sound : forall k s a r, match_arg k s = Some (a, r) -> s = a ++ r /\ arg_spec k a.
Proof.
  intros [|w] s a r H; cbn [match_arg] in H.
  - destruct (take_digits s) as [d t] eqn:T. destruct d; [discriminate|]. inversion H; subst.
    apply take_digits_spec in T. destruct T as (-> & F & _). split; auto. split; [discriminate|auto].
  - apply match_kw_sound in H. auto.
Qed.

Lemma first_arg_sound : forall ks s a r, first_arg ks s = Some (a, r) -> s = a ++ r /\ ArgOk ks a.
Proof.
  induction ks as [|k ks IH]; intros s a r H; cbn [first_arg] in H; [discriminate|].
  destruct (match_arg k s) as [[a' r']|] eqn:M.
  - inversion H; subst. apply match_arg_sound in M. destruct M. split; auto. exists k; split; [left|]; auto.
  - apply IH in H. destruct H as (? & k' & ? & ?). split; auto. exists k'; split; [right|]; auto.
Qed.

Definition word_ok (w : list N) : bool := match w with c :: _ => is_letter c | [] => false end.
Definition arg_ok (k : argkind) : bool := match k with ADigits => true | AWord w => word_ok w end.
Definition arg_incompat (k1 k2 : argkind) : bool :=
  match k1, k2 with
  | ADigits, ADigits => false
  | AWord a, AWord b => first_diff a b
  | _, _ => true
  end.
Fixpoint pairwise {A} (p : A -> A -> bool) (l : list A) : bool :=
  match l with [] => true | x :: r => forallb (p x) r && pairwise p r end.

Definition wordhead (b : N) : Prop := 65 <= b <= 90 \/ 97 <= b <= 122.

Lemma is_letter_wordhead : forall c, is_letter c = true -> wordhead c.
Proof.
  intros c H. apply range_iff in H. unfold wordhead.
  destruct (lower_cases c) as [[? E]|[? E]]; rewrite E in *; lia.
Qed.

Lemma wordhead_not_space : forall b, wordhead b -> b <> 32.
Proof. unfold wordhead. intros. lia. Qed.

Lemma ci_char_head : forall c w, is_letter c = true -> ci_char c w -> exists b t, w = b :: t /\ wordhead b.
Proof.
  intros c w L H. apply is_letter_wordhead in L. unfold wordhead in *.
  inversion H; subst; eexists; eexists; (split; [reflexivity|]); lia.
Qed.

Lemma word_head : forall w a, word_ok w = true -> ci_str w a -> exists b t, a = b :: t /\ wordhead b.
Proof.
  intros w a HL C. destruct w as [|c w]; [discriminate|]. cbn [word_ok] in HL.
  inversion C as [|c' cs w' ws Hc Hs]; subst. destruct (ci_char_head _ _ HL Hc) as (b & t & -> & Hb). exists b, (t ++ ws). auto.
Qed.

Lemma arg_head : forall k a, arg_ok k = true -> arg_spec k a ->
  exists b t, a = b :: t /\ (digitP b \/ wordhead b).
Proof.
  intros [|w] a H S; cbn in *.
  - destruct S as [NE F]. destruct a as [|b t]; [congruence|]. inversion F; subst. exists b, t; auto.
  - destruct (word_head _ _ H S) as (b & t & -> & Hb). exists b, t; auto.
Qed.

Lemma ArgOk_head : forall ks a, forallb arg_ok ks = true -> ArgOk ks a ->
  exists b t, a = b :: t /\ (digitP b \/ wordhead b).
Proof.
  intros ks a O (k & I & S). rewrite forallb_forall in O. apply (arg_head k); auto.
Qed.

Lemma match_kw_head_none : forall w b t, word_ok w = true -> digitP b -> match_kw w (b :: t) = None.
Proof.
  intros w b t H0 D. destruct w as [|c w]; [discriminate|]. cbn [word_ok] in H0.
  cbn [match_kw]. destruct (eat_char c (b :: t)) as [[w1 r1]|] eqn:E; auto. exfalso.
  destruct (eat_char_inv _ _ _ _ E) as (b' & Eb & _ & L). injection Eb as <- _.
  (* [is_letter] looks at the folded byte only: a byte that spells a letter is a letter, not a digit *)
  assert (Lb : is_letter b = true) by (unfold is_letter; rewrite L; exact H0).
  apply is_letter_wordhead in Lb. unfold digitP, wordhead in *. lia.
Qed.

Lemma match_arg_complete : forall k a r, arg_spec k a -> (k = ADigits -> head_is (fun b => ~ digitP b) r) ->
  match_arg k (a ++ r) = Some (a, r).
Proof.
  intros [|w] a r S H; cbn [match_arg].
  - destruct S as [NE F]. rewrite take_digits_app; auto. destruct a; congruence.
  - apply match_kw_complete; auto.
Qed.

Lemma match_arg_other_none : forall k0 k a r, arg_ok k0 = true -> arg_ok k = true -> arg_incompat k0 k = true ->
  arg_spec k a -> match_arg k0 (a ++ r) = None.
Proof.
  intros k0 k a r O0 O I S.
  destruct k0 as [|w0]; destruct k as [|w]; cbn [arg_incompat] in I; try discriminate.
  - (* digits tried on a word *)
    destruct (word_head _ _ O S) as (b & t & -> & Hb). cbn [app match_arg take_digits].
    destruct (is_digit b) eqn:E; auto. apply is_digit_iff in E. unfold digitP, wordhead in *. lia.
  - (* word tried on digits *)
    destruct S as [NE F]. destruct a as [|b t]; [congruence|]. inversion F; subst. cbn [app match_arg].
    apply match_kw_head_none; auto.
  - cbn [match_arg]. destruct (match_kw w0 (a ++ r)) eqn:M; auto. exfalso.
    eapply (match_kw_incompat w0 w); eauto. apply match_kw_complete; auto.
Qed.

Lemma first_arg_complete : forall ks a r,
  forallb arg_ok ks = true -> pairwise arg_incompat ks = true ->
  ArgOk ks a -> head_is (fun b => ~ digitP b) r ->
  first_arg ks (a ++ r) = Some (a, r).
Proof.
  induction ks as [|k0 ks IH]; intros a r O P (k & I & S) H; [destruct I|].
  cbn [forallb pairwise] in O, P. apply andb_true_iff in O, P. destruct O as [O0 O], P as [P0 P].
  cbn [first_arg]. destruct I as [->|I].
  - rewrite match_arg_complete; auto.
  - rewrite (match_arg_other_none k0 k); auto.
    + apply IH; auto. exists k; auto.
    + rewrite forallb_forall in O. auto.
    + rewrite forallb_forall in P0. auto.
Qed.

(* what one row of the table accepts: the three shapes of the rules of [Lang], for any row *)
Inductive LangF (f : form) : list N -> list N -> Prop :=
| LF_noarg sp kw tl : f_q f = QNoArg -> spaces sp -> ci_str (f_kw f) kw -> Tail tl ->
    LangF f [] (sp ++ kw ++ tl)
| LF_opt sp kw q1 a q2 tl : f_q f = QOpt -> spaces sp -> ci_str (f_kw f) kw ->
    optq q1 -> ArgOk (f_args f) a -> optq q2 -> Tail tl ->
    LangF f a (sp ++ kw ++ q1 ++ a ++ q2 ++ tl)
| LF_mand sp kw a tl : f_q f = QMand -> spaces sp -> ci_str (f_kw f) kw -> ArgOk (f_args f) a -> Tail tl ->
    LangF f a (sp ++ kw ++ [39] ++ a ++ [39] ++ tl).

Lemma opt_quote_spec : forall r, exists q, optq q /\ r = q ++ opt_quote r.
Proof.
  intros [|b r]. - exists []; split; [left|]; auto.
  - destruct (is39 b) as [->|E].
    + exists [39]. split; [right|]; auto.
    + exists []. split; [left; auto|]. unfold opt_quote. rewrite E. reflexivity.
Qed.

Lemma opt_quote_id : forall r, head_is (fun b => b <> 39) r -> opt_quote r = r.
Proof.
  intros [|b r]; cbn [head_is]; auto. intros NE. destruct (is39 b) as [->|E]; [congruence|]. unfold opt_quote. apply E.
Qed.

Lemma opt_quote_app : forall q r, optq q -> head_is (fun b => b <> 39) r -> opt_quote (q ++ r) = r.
Proof. intros q r [->| ->] H; [apply opt_quote_id; auto|reflexivity]. Qed.

Lemma recog_sound : forall f s a, recog f s = Some a -> LangF f a s.
Proof.
  intros f s a H. unfold recog in H.
  destruct (skip_sp_spec s) as (sp & S & Eq & _). rewrite Eq.
  destruct (match_kw (f_kw f) (skip_sp s)) as [[kw r]|] eqn:M; [|discriminate].
  apply match_kw_sound in M as [-> C].
  destruct (f_q f) eqn:Q.
  - destruct (tail_ok r) eqn:T; [|discriminate]. injection H as <-.
    apply LF_noarg; auto using tail_ok_sound.
  - destruct (opt_quote_spec r) as (q1 & Q1 & E1). rewrite E1.
    destruct (first_arg (f_args f) (opt_quote r)) as [[a' r2]|] eqn:F; [|discriminate].
    apply first_arg_sound in F as [-> AO].
    destruct (opt_quote_spec r2) as (q2 & Q2 & E2). rewrite E2.
    destruct (tail_ok (opt_quote r2)) eqn:T; [|discriminate]. injection H as ->.
    apply LF_opt; auto using tail_ok_sound.
  - destruct r as [|b r1]; [discriminate|].
    destruct (is39 b) as [->|E]; [|cbv beta iota in H; rewrite E in H; discriminate].
    destruct (first_arg (f_args f) r1) as [[a' [|b r2]]|] eqn:F; try discriminate.
    destruct (is39 b) as [->|E]; [|cbv beta iota in H; rewrite E in H; discriminate].
    apply first_arg_sound in F as [-> AO].
    destruct (tail_ok r2) eqn:T; [|discriminate]. injection H as ->.
    apply LF_mand; auto using tail_ok_sound.
Qed.

Definition form_wf (f : form) : bool :=
  word_ok (f_kw f) && forallb arg_ok (f_args f) && pairwise arg_incompat (f_args f).

Lemma recog_complete : forall f s a, form_wf f = true -> LangF f a s -> recog f s = Some a.
Proof.
  intros f s a W H. unfold form_wf in W.
  apply andb_prop in W as [W H1]. apply andb_prop in W as [H0 H2].
  assert (K : forall sp kw r, spaces sp -> ci_str (f_kw f) kw ->
              match_kw (f_kw f) (skip_sp (sp ++ kw ++ r)) = Some (kw, r)).
  { intros sp kw r S C. destruct (word_head _ _ H0 C) as (b & t & -> & Hb).
    rewrite skip_sp_app; auto. - apply match_kw_complete; auto. - apply wordhead_not_space; auto. }
  unfold recog.
  destruct H as [sp kw tl Q S C T | sp kw q1 a q2 tl Q S C Q1 AO Q2 T | sp kw a tl Q S C AO T];
    rewrite K, Q by auto; pose proof (Tail_head _ T) as TH; apply tail_ok_complete in T.
  - rewrite T. reflexivity.
  - destruct (ArgOk_head _ _ H2 AO) as (b' & t' & Ea & Hb').
    rewrite opt_quote_app, first_arg_complete, opt_quote_app, T; auto.
    + eapply head_is_impl; [|exact TH]. cbn. lia.
    + destruct Q2 as [->| ->]; [eapply head_is_impl; [|exact TH]|]; cbn; unfold digitP; lia.
    + rewrite Ea. cbn. unfold digitP, wordhead in Hb'. lia.
  - cbn [app]. change (a ++ 39 :: tl) with (a ++ (39 :: tl)).
    rewrite first_arg_complete, T; auto. cbn. unfold digitP. lia.
Qed.

Lemma recog_incompat : forall f g s a b, first_diff (f_kw f) (f_kw g) = true ->
  recog f s = Some a -> recog g s = Some b -> False.
Proof.
  intros f g s a b D H1 H2. unfold recog in *.
  destruct (match_kw (f_kw f) (skip_sp s)) eqn:M1; [|discriminate].
  destruct (match_kw (f_kw g) (skip_sp s)) eqn:M2; [|discriminate].
  eapply match_kw_incompat; eauto.
Qed.

Definition forms_wf (fs : list form) : bool :=
  forallb form_wf fs && pairwise (fun f g => first_diff (f_kw f) (f_kw g)) fs.

Lemma matches_of_in : forall fs s c a,
  In (c, a) (matches_of fs s) <-> exists f, In f fs /\ f_cmd f = c /\ recog f s = Some a.
Proof.
  induction fs as [|f fs IH]; intros s c a; cbn [matches_of].
  - split; [intros []|intros (f & [] & _)].
  - destruct (recog f s) as [a'|] eqn:R.
    + cbn [In]. rewrite IH. split.
      * intros [E|(g & I & Hc & Hr)].
        { inversion E; subst. exists f. repeat split; auto; left; auto. }
        exists g. repeat split; auto; right; auto.
      * intros (g & [->|I] & Hc & Hr). { left. congruence. } right. exists g; repeat split; auto.
    + rewrite IH. split.
      * intros (g & I & Hc & Hr). exists g. repeat split; auto; right; auto.
      * intros (g & [->|I] & Hc & Hr). { congruence. } exists g; repeat split; auto.
Qed.

Lemma matches_of_none : forall fs f s a,
  forallb (fun g => first_diff (f_kw f) (f_kw g)) fs = true -> recog f s = Some a -> matches_of fs s = [].
Proof.
  induction fs as [|g fs IH]; intros f s a D R; cbn [matches_of]; auto.
  cbn [forallb] in D. apply andb_prop in D as [D1 D2]. destruct (recog g s) eqn:Rg.
  - destruct (recog_incompat f g _ _ _ D1 R Rg).
  - eapply IH; eauto.
Qed.

Lemma matches_of_le1 : forall fs s, forms_wf fs = true -> (length (matches_of fs s) <= 1)%nat.
Proof.
  intros fs s W. apply andb_prop in W as [_ W]. induction fs as [|f fs IH]; cbn [matches_of]; auto.
  cbn [pairwise] in W. apply andb_prop in W as [W1 W2]. destruct (recog f s) eqn:R; auto.
  cbn [length]. rewrite (matches_of_none fs f s l); auto.
Qed.

Lemma forms_ok : forms_wf forms = true.
Proof. vm_compute. reflexivity. Qed.

(** "exactly one regex matches" is the same as "some regex matches" *)
Lemma one_match_rule : forall s, matches_of forms s = [] \/ exists x, matches_of forms s = [x].
Proof.
  intros s. pose proof (matches_of_le1 forms s forms_ok) as L.
  destruct (matches_of forms s) as [|x [|y l]]; cbn [length] in L; try lia; eauto.
Qed.

Lemma classify_iff : forall s c a,
  classify s = Some (c, a) <-> exists f, In f forms /\ f_cmd f = c /\ recog f s = Some a.
Proof.
  intros s c a. rewrite <- matches_of_in. unfold classify.
  destruct (one_match_rule s) as [->|[x ->]].
  - split; [discriminate|intros []].
  - split. + intros E; inversion E; left; auto. + intros [->|[]]; auto.
Qed.

Lemma forms_all_wf : forall f, In f forms -> form_wf f = true.
Proof.
  apply forallb_forall. exact (proj1 (andb_prop _ _ forms_ok)).
Qed.

Lemma classify_LangF : forall s c a,
  classify s = Some (c, a) <-> exists f, In f forms /\ f_cmd f = c /\ LangF f a s.
Proof.
  intros. rewrite classify_iff. split; intros (f & I & Hc & H); exists f; repeat split; auto.
  - apply recog_sound; auto.
  - apply recog_complete; auto. apply forms_all_wf; auto.
Qed.

(* a disjunction written out: [disj [P; Q; R]] is [P \/ Q \/ R] *)
Fixpoint disj (l : list Prop) : Prop :=
  match l with
  | [] => False
  | [P] => P
  | P :: r => P \/ disj r
  end.

Lemma disj_iff : forall l, disj l <-> exists P, In P l /\ P.
Proof.
  induction l as [|P [|Q r] IH].
  - split; [intros []|intros (P & [] & _)].
  - split; [intros H; exists P; split; [left|]; auto|intros (P' & [<-|[]] & H); auto].
  - change (disj (P :: Q :: r)) with (P \/ disj (Q :: r)). rewrite IH. split.
    + intros [H|(P' & I & H)]; [exists P|exists P']; split; auto; [left|right]; auto.
    + intros (P' & [<-|I] & H); [left|right; exists P']; auto.
Qed.

Lemma in_forms : forall f, In f forms ->
  f = mkForm SetShardingKey (B "SET SHARDING KEY TO ") QOpt [ADigits] \/
  f = mkForm SetShard (B "SET SHARD TO ") QOpt [ADigits; AWord (B "ANY")] \/
  f = mkForm ShowShard (B "SHOW SHARD") QNoArg [] \/
  f = mkForm SetServerRole (B "SET SERVER ROLE TO ") QMand
        [AWord (B "PRIMARY"); AWord (B "REPLICA"); AWord (B "ANY"); AWord (B "AUTO"); AWord (B "DEFAULT")] \/
  f = mkForm ShowServerRole (B "SHOW SERVER ROLE") QNoArg [] \/
  f = mkForm SetPrimaryReads (B "SET PRIMARY READS TO ") QOpt [AWord (B "on"); AWord (B "off"); AWord (B "default")] \/
  f = mkForm ShowPrimaryReads (B "SHOW PRIMARY READS") QNoArg [].
Proof.
  intros f H. apply (proj2 (disj_iff (map (eq f) forms))).
  exists (f = f). split; [exact (in_map (eq f) forms f H)|reflexivity].
Qed.

(* the alternatives of a capture group as the disjunction Spec.v writes out: for each row of
   [forms], [arg_alt (f_args f) a] is convertible with the premise of the row's rule of [Lang] *)
Definition arg_alt (ks : list argkind) (a : list N) : Prop := disj (map (fun k => arg_spec k a) ks).

Lemma arg_alt_ArgOk : forall ks a, arg_alt ks a <-> ArgOk ks a.
Proof.
  intros. unfold arg_alt, ArgOk. rewrite disj_iff. split.
  - intros (P & I & H). apply in_map_iff in I. destruct I as (k & <- & I). eauto.
  - intros (k & I & H). exists (arg_spec k a). split; auto. apply in_map_iff. eauto.
Qed.

(* [cmd_index] is the place of a command's regex in the table.  The row is reached through it and
   never written out: a proof about the rows then carries seven numerals, not seven literals *)
Definition row (c : cmd) : form := nth (N.to_nat (cmd_index c)) forms (mkForm c [] QNoArg []).

Lemma row_cmd : forall c, f_cmd (row c) = c.
Proof. intros []; reflexivity. Qed.

Lemma row_in : forall c, c <> InvalidShardingKey -> In (row c) forms.
Proof. intros c NI. apply nth_In. destruct c; [..|contradiction]; repeat constructor. Qed.

Lemma in_row : forall f, In f forms -> f_cmd f <> InvalidShardingKey /\ row (f_cmd f) = f.
Proof.
  intros f I. destruct (In_nth _ _ f I) as (n & L & <-).
  do 7 (destruct n as [|n]; [split; [discriminate|reflexivity]|]).
  exfalso. cbn in L. lia.
Qed.

(* the rule of [Lang] for a command is what the command's row accepts *)
Lemma Lang_row : forall c a s, Lang c a s <-> c <> InvalidShardingKey /\ LangF (row c) a s.
Proof.
  intros c a s. split.
  - intros H. destruct H; (split; [discriminate|]); (constructor; [reflexivity|..]); try assumption;
      apply arg_alt_ArgOk; assumption.
  - intros [NI H]. destruct c; [..|contradiction];
      destruct H as [sp kw tl Q | sp kw q1 x q2 tl Q ? ? ? A | sp kw x tl Q ? ? A]; try discriminate Q;
      try apply arg_alt_ArgOk in A; constructor; assumption.
Qed.

Lemma Lang_to_forms : forall c a s, Lang c a s -> exists f, In f forms /\ f_cmd f = c /\ LangF f a s.
Proof. intros c a s H. apply Lang_row in H as [NI H]. exists (row c). auto using row_in, row_cmd. Qed.

Lemma forms_to_Lang : forall f a s, In f forms -> LangF f a s -> Lang (f_cmd f) a s.
Proof. intros f a s I H. destruct (in_row f I) as [NI E]. apply Lang_row. rewrite E. auto. Qed.

Lemma classify_exact : forall s c a, classify s = Some (c, a) <-> Lang c a s.
Proof.
  intros. rewrite classify_LangF. split.
  - intros (f & I & <- & H). apply forms_to_Lang; auto.
  - apply Lang_to_forms.
Qed.

Lemma list_eqb_eq : forall a b, list_eqb a b = true <-> a = b.
Proof.
  induction a as [|x a IH]; destruct b as [|y b]; cbn [list_eqb]; split; intros H; try discriminate; auto.
  - apply andb_true_iff in H. destruct H as [H1 H2]. apply N.eqb_eq in H1. apply IH in H2. congruence.
  - inversion H; subst. rewrite N.eqb_refl. cbn. apply IH; auto.
Qed.
Lemma list_eqb_refl : forall a, list_eqb a a = true.
Proof. intros. apply list_eqb_eq; auto. Qed.

(* SET SHARD upper-cases its argument where the other commands lower-case theirs: the same test *)
Lemma upper_eqb_lower : forall b u, is_upper u = true -> (upper b =? u) = (lower b =? lower u).
Proof.
  intros b u U. unfold lower at 2. rewrite U. apply range_iff in U.
  apply eq_true_iff_eq. rewrite !N.eqb_eq.
  destruct (lower_cases b) as [[? ->]|[? ->]]; destruct (upper_cases b) as [[? ->]|[? ->]]; lia.
Qed.

Lemma list_eqb_upper_lower : forall w a, forallb is_upper w = true -> list_eqb (map upper a) w = ci_eqb a w.
Proof.
  unfold ci_eqb. induction w as [|u w IH]; intros [|b a] U; try reflexivity.
  cbn [forallb] in U. apply andb_true_iff in U. destruct U as [U1 U2].
  cbn [map list_eqb]. rewrite upper_eqb_lower, IH; auto.
Qed.

Lemma digits_not_any : forall a, digits1 a -> list_eqb (map upper a) (B "ANY") = false.
Proof.
  intros a [NE F]. destruct a as [|b t]; [congruence|]. inversion F; subst.
  change (B "ANY") with [65; 78; 89]. cbn [map list_eqb]. apply andb_false_iff; left; apply N.eqb_neq.
  destruct (upper_cases b) as [[? E]|[? E]]; rewrite E; lia.
Qed.

Definition concr (e : env) (x : astate) : rstate :=
  mkSt (a_shard x)
       (match a_role x with RS_primary => Some Primary | RS_replica => Some Replica
                          | RS_any | RS_auto => None | RS_default => e_default_role e end)
       (match a_role x with RS_primary | RS_replica | RS_any => Some false | RS_auto => Some true | RS_default => None end)
       (match a_preads x with T_on => Some true | T_off => Some false | T_default => None end).

Lemma concr_init : forall e, concr e ainit = init e.
Proof. reflexivity. Qed.

(* the code's chains of comparisons and the documented ones are the same chains, whatever the argument:
   the documented words are lower-case literals, [map lower] of each computes away *)
Lemma role_of_arg_refines : forall e x a,
  role_of_arg e (concr e x) a =
  concr e (match role_setting_of a with Some r => mkA (a_shard x) r (a_preads x) | None => x end).
Proof.
  intros e [sh r p] a. unfold role_of_arg, role_setting_of. change (ci_eqb a ?w) with (list_eqb (map lower a) w).
  do 5 (destruct (list_eqb (map lower a) _); [reflexivity|]). reflexivity.
Qed.

Lemma preads_of_arg_refines : forall e x a,
  preads_of_arg (concr e x) a =
  concr e (match tri_of a with Some t => mkA (a_shard x) (a_role x) t | None => x end).
Proof.
  intros e [sh r p] a. unfold preads_of_arg, tri_of. change (ci_eqb a ?w) with (list_eqb (map lower a) w).
  do 3 (destruct (list_eqb (map lower a) _); [reflexivity|]). reflexivity.
Qed.

Lemma shard_out_of_range : forall e a, e_shards e <= usize_max -> e_shards e <= num_of a ->
  (e_shards e <=? parse_usize_or_max a) = true.
Proof. intros e a W H. apply N.leb_le. unfold parse_usize_or_max. destruct (num_of a <=? usize_max); lia. Qed.

(* No hypothesis on the argument: also for a capture the regexes would not deliver, the state after
   the glue of handle_custom_protocol is the abstract one. *)
Lemma handle_refines : forall e x c a o, e_shards e <= usize_max -> o < e_shards e ->
  fst (handle e (concr e x) c a o) = concr e (aexec e x c a o).
Proof.
  intros e x c a o W O. destruct c; try reflexivity.
  - unfold handle, texec, parse_i64, aexec. destruct (num_of a <=? i64_max); reflexivity.
  - unfold handle, texec, aexec. rewrite list_eqb_upper_lower by reflexivity.
    change (ci_eqb a (B "ANY")) with (ci_eqb a (B "any")).
    destruct (ci_eqb a (B "any")); cbn [st_shard set_shard fst].
    + destruct (N.leb_spec (e_shards e) o); [lia|reflexivity].
    + destruct x as [sh r p]. destruct (N.ltb_spec (num_of a) (e_shards e)).
      * unfold parse_usize_or_max. rewrite (proj2 (N.leb_le (num_of a) usize_max)) by lia.
        rewrite (proj2 (N.leb_gt (e_shards e) (num_of a))) by lia. reflexivity.
      * rewrite shard_out_of_range by assumption. reflexivity.
  - apply role_of_arg_refines.
  - apply preads_of_arg_refines.
Qed.

Lemma run_refines : forall e l x, e_shards e <= usize_max -> Forall (fun i => snd i < e_shards e) l ->
  fst (run e (concr e x) l) = concr e (arun e x l).
Proof.
  intros e l. induction l as [|[[c a] o] l IH]; intros x W F; [reflexivity|].
  inversion F as [|i l' O F']; subst. cbn [run].
  pose proof (handle_refines e x c a o W O) as E.
  destruct (handle e (concr e x) c a o) as [st1 r]. cbn [fst] in E. subst st1.
  specialize (IH (aexec e x c a o) W F').
  destruct (run e (concr e (aexec e x c a o)) l) as [st2 rs]. exact IH.
Qed.

Lemma show_renders : forall e x,
  handle e (concr e x) ShowShard [] 0 = (concr e x, RShow (B "shard") (render_shard x)) /\
  handle e (concr e x) ShowServerRole [] 0 = (concr e x, RShow (B "server role") (render_role e x)) /\
  handle e (concr e x) ShowPrimaryReads [] 0 = (concr e x, RShow (B "primary reads") (render_preads e x)).
Proof.
  intros e [sh r p]. repeat split.
  - destruct r; reflexivity.
  - destruct p; reflexivity.
Qed.

Definition recognised (i : input) : Prop := exists s, classify s = Some (fst (fst i), snd (fst i)).
Lemma rec_by : forall (i : input) s, classify s = Some (fst (fst i), snd (fst i)) -> recognised i.
Proof. intros i s H. exists s. exact H. Qed.

Definition input_ok (e : env) (i : input) : Prop :=
  recognised i /\ snd i < e_shards e.

Definition arg_lits (k : argkind) : list N := match k with ADigits => [] | AWord w => w end.
Definition form_lits (f : form) : list N := f_kw f ++ flat_map arg_lits (f_args f).

(* the literals of the table are blanks and letters: in front of its tail a command has nothing but
   blanks, quotes, digits and letters *)
Definition lit_ok (c : N) : bool := is_space c || is_letter c.
Definition cmd_byte (b : N) : Prop := b = 32 \/ b = 39 \/ digitP b \/ wordhead b.

Lemma forms_lits : forallb (fun f => forallb lit_ok (form_lits f)) forms = true.
Proof. vm_compute. reflexivity. Qed.

Lemma spaces_bytes : forall l, spaces l -> Forall cmd_byte l.
Proof. intros l S. eapply Forall_impl; [|exact S]. unfold cmd_byte. auto. Qed.

Lemma not_cmd_byte : forall k l, ~ cmd_byte k -> Forall cmd_byte l -> ~ In k l.
Proof. intros k l K F I. rewrite Forall_forall in F. auto. Qed.

Lemma ci_char_bytes : forall c w, lit_ok c = true -> ci_char c w -> Forall cmd_byte w.
Proof.
  intros c w L H. assert (L' : c = 32 \/ wordhead c).
  { apply orb_true_iff in L as [L|L]; [left; apply N.eqb_eq, L|right; apply is_letter_wordhead, L]. }
  unfold cmd_byte, digitP, wordhead in *. inversion H; subst; (constructor; [lia|constructor]).
Qed.

Lemma ci_str_bytes : forall k w, forallb lit_ok k = true -> ci_str k w -> Forall cmd_byte w.
Proof.
  intros k w A H. induction H; [constructor|].
  cbn [forallb] in A. apply andb_true_iff in A as [A1 A2]. apply Forall_app. eauto using ci_char_bytes.
Qed.

Lemma ArgOk_bytes : forall ks a, forallb lit_ok (flat_map arg_lits ks) = true -> ArgOk ks a -> Forall cmd_byte a.
Proof.
  intros ks a W (k & I & S). destruct k as [|w]; cbn [arg_spec] in S.
  - destruct S as [_ F]. eapply Forall_impl; [|exact F]. unfold cmd_byte. auto.
  - apply (ci_str_bytes w); auto. rewrite forallb_forall in *. intros x Ix. apply W, in_flat_map. exists (AWord w); auto.
Qed.

Lemma LangF_bytes : forall f a s, forallb lit_ok (form_lits f) = true -> LangF f a s ->
  exists hd tl, s = hd ++ tl /\ Forall cmd_byte hd /\ Tail tl /\ Forall cmd_byte a.
Proof.
  intros f a s W H. unfold form_lits in W. rewrite forallb_app in W. apply andb_true_iff in W as [Wk Wa].
  assert (O : forall q, optq q -> Forall cmd_byte q).
  { intros q [->| ->]; constructor; [unfold cmd_byte; auto|constructor]. }
  pose proof (O [39] (or_intror eq_refl)) as O39.
  destruct H as [sp kw tl Q S K T | sp kw q1 a q2 tl Q S K Q1 A Q2 T | sp kw a tl Q S K A T];
    apply spaces_bytes in S; apply (ci_str_bytes _ _ Wk) in K; try apply (ArgOk_bytes _ _ Wa) in A.
  - exists (sp ++ kw), tl. rewrite app_assoc. repeat split; auto. apply Forall_app; auto.
  - exists (sp ++ kw ++ q1 ++ a ++ q2), tl. repeat rewrite <- app_assoc.
    repeat split; auto. repeat (apply Forall_app; split); auto.
  - exists (sp ++ kw ++ [39] ++ a ++ [39]), tl. repeat rewrite <- app_assoc.
    repeat split; auto. repeat (apply Forall_app; split); auto.
Qed.

Lemma Lang_bytes : forall c a s, Lang c a s ->
  exists hd tl, s = hd ++ tl /\ Forall cmd_byte hd /\ Tail tl /\ Forall cmd_byte a.
Proof.
  intros c a s H. apply Lang_to_forms in H as (f & I & _ & H).
  pose proof forms_lits as W. rewrite forallb_forall in W. eapply LangF_bytes; eauto.
Qed.

Lemma split_unique : forall (b : N) x y p q, ~ In b p -> ~ In b q -> x ++ b :: y = p ++ b :: q -> y = q.
Proof.
  intros b x. induction x as [|c x IH]; intros y p q Hp Hq E.
  - destruct p as [|d p]; cbn [app] in E.
    + inversion E; auto.
    + inversion E; subst. exfalso. apply Hp. left; auto.
  - destruct p as [|d p]; cbn [app] in E.
    + inversion E as [[Ec Eq]]. exfalso. apply Hq. rewrite <- Eq. apply in_or_app. right. left. auto.
    + inversion E; subst. apply (IH y p q); auto. intros I. apply Hp. right; auto.
Qed.

Lemma is_ascii_app : forall x y, is_ascii (x ++ y) = is_ascii x && is_ascii y.
Proof. intros. unfold is_ascii. apply forallb_app. Qed.

Lemma LangF_arg_len : forall f a s, LangF f a s -> (length a <= length s)%nat.
Proof. intros f a s H. destruct H; repeat rewrite app_length; cbn [length]; lia. Qed.

Lemma Lang_arg_len : forall c a s, Lang c a s -> (length a <= length s)%nat.
Proof. intros c a s H. apply Lang_to_forms in H. destruct H as (f & _ & _ & H). eapply LangF_arg_len; eauto. Qed.

Lemma other_is_noop : forall e e' st l, run_ev e st (EvOther e' :: l) = run_ev e' st l.
Proof. reflexivity. Qed.

Definition same_env (e : env) (l : list event) : Prop :=
  Forall (fun ev => match ev with EvOther e' => e' = e | EvCmd _ _ _ => True end) l.

