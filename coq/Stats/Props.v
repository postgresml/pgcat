(** C18 — admin statistics count every client, server connection and transaction once.
    Property theorems only: each is closed by [exact <lemma>] and audited with [Print Assumptions].
    All of them quantify over EVERY history ([ops : list op], any length, any number of clients,
    server connections, pools and addresses) and over every static configuration [cf]; an op whose
    call site is not reachable in the current state is a no-op, so no well-formedness hypothesis on
    [ops] is needed. *)
From Coq Require Import Arith Bool List.
From PV Require Import Stats.Model Stats.Inv Stats.Proofs.
Import ListNotations.

(** SHOW CLIENTS / SHOW SERVERS list exactly the clients whose task is inside [handle()] and exactly
    the live server connections, each once — in EVERY history, however the clients left (clean exit,
    error, panic: since /repo ca5e3a4 [Drop for Client] unregisters). *)
Theorem c18_registry_exact : forall cf ops,
  let t := run cf ops in
  (forall c, In c (creg t) <-> c_phase (cl t c) = PHandle) /\
  (forall s, In s (sreg t) <-> s_live (sv t s) = true) /\
  NoDup (creg t) /\ NoDup (sreg t).
Proof. exact registry_exact. Qed.
Print Assumptions c18_registry_exact.

(** SHOW POOLS: idle + active + waiting = number of clients connected to the pool. *)
Theorem c18_pool_sum : forall cf ops p,
  let t := run cf ops in let r := show_pools cf t p in
  cl_idle r + cl_active r + cl_waiting r = length (clients_of t p).
Proof. exact pool_sum. Qed.
Print Assumptions c18_pool_sum.

(** True state (every history): a connected client is shown active exactly while it owns a server
    connection, waiting only while it is inside [pool.get]; a live server connection is shown active
    exactly while a client owns it; ownership is exclusive and mutual. *)
Theorem c18_true_state : forall cf ops,
  let t := run cf ops in
  (forall c, c_phase (cl t c) = PHandle ->
     (c_state (cl t c) = CActive <-> exists s, c_held (cl t c) = Some s) /\
     (c_state (cl t c) = CWaiting -> c_chk (cl t c) = true)) /\
  (forall s, s_live (sv t s) = true ->
     (s_state (sv t s) = SActive <-> exists c, s_holder (sv t s) = Some c)) /\
  (forall c s, c_held (cl t c) = Some s <-> s_holder (sv t s) = Some c) /\
  (forall c s, c_held (cl t c) = Some s -> c_phase (cl t c) = PHandle /\ s_live (sv t s) = true).
Proof. exact true_state. Qed.
Print Assumptions c18_true_state.

(** ... and waiting is shown for as long as the client is blocked on a candidate server inside
    [pool.get] ([c_iter]: since /repo b38aae6 every iteration of the candidate loop starts with
    [waiting()]), and never outside [pool.get].  The positions inside [pool.get] but outside an
    iteration (between a failed candidate and the next [waiting()], or the final [checkout_error()])
    are not blocking points. *)
Theorem c18_waiting_exact : forall cf ops,
  let t := run cf ops in
  forall c, c_phase (cl t c) = PHandle ->
    (c_iter (cl t c) = true -> c_state (cl t c) = CWaiting) /\
    (c_state (cl t c) = CWaiting -> c_chk (cl t c) = true) /\
    (c_iter (cl t c) = true -> c_chk (cl t c) = true).
Proof. exact waiting_exact. Qed.
Print Assumptions c18_waiting_exact.

(** When every client has gone — however it left — nothing is left: no client row, zero clients in
    every pool, no active server. *)
Theorem c18_zero_when_gone : forall cf ops,
  let t := run cf ops in
  (forall c, c_phase (cl t c) <> PHandle) ->
  creg t = [] /\
  show_lists t = (0, 0, length (filter (fun k => is_sstate (s_state (sv t k)) SIdle) (sreg t)), 0) /\
  forall p, let r := show_pools cf t p in
            cl_idle r = 0 /\ cl_active r = 0 /\ cl_waiting r = 0 /\ sv_active r = 0.
Proof. exact zero_when_gone. Qed.
Print Assumptions c18_zero_when_gone.

(** Totals (every history).  A row's transaction / query counter is the number of transactions /
    request cycles the history executed for that client, resp. on that server connection; the totals
    of an address (SHOW STATS) are the sums over every connection the address ever had, dropped ones
    included; summed over all clients and over all server connections both sides equal the number of
    transactions / request cycles in the history. *)
Theorem c18_totals : forall cf ops,
  let t := run cf ops in
  (forall c, c_xact (cl t c) = count (txn_of_client c) (trace cf ops) /\
             c_query (cl t c) = count (qry_of_client c) (trace cf ops)) /\
  (forall s, s_xact (sv t s) = count (txn_of_server s) (trace cf ops) /\
             s_query (sv t s) = count (qry_of_server s) (trace cf ops)) /\
  (forall a, a_xact (at_ t a) = srv_sum s_xact t a /\ a_query (at_ t a) = srv_sum s_query t a /\
             a_sent (at_ t a) = srv_sum s_sent t a /\ a_recv (at_ t a) = srv_sum s_recv t a) /\
  (cl_sum c_xact t = count is_txn (trace cf ops) /\ sv_sum s_xact t = count is_txn (trace cf ops) /\
   cl_sum c_query t = count is_qry (trace cf ops) /\ sv_sum s_query t = count is_qry (trace cf ops)).
Proof. exact totals. Qed.
Print Assumptions c18_totals.

(** No total ever decreases (the Collector's period end [PeriodEnd] is one of the ops): the per-address totals (transactions, queries, bytes sent and received,
    errors) along any continuation of any history; likewise the counters of a client / server row for
    as long as the row exists (ids are not re-used).  Per-connection rows DISAPPEAR with their
    connection: "totals" in the property are the per-address totals of SHOW STATS. *)
Theorem c18_monotone : forall cf ops more,
  (forall a, atot_le (at_ (run cf ops) a) (at_ (run cf (ops ++ more)) a)) /\
  (forall c, c_phase (cl (run cf ops) c) <> PNone -> crow_le (cl (run cf ops) c) (cl (run cf (ops ++ more)) c)) /\
  (forall s, s_seen (sv (run cf ops) s) = true -> srow_le (sv (run cf ops) s) (sv (run cf (ops ++ more)) s)).
Proof. exact monotone. Qed.
Print Assumptions c18_monotone.

(** The end of a statistics period ([PeriodEnd]: the Collector's tick — averages := current / 15, current := 0,
    for every address that has a registered server connection) leaves every total, every row and both registries
    as they are; [c18_monotone] above covers it like every other op. *)
Theorem c18_period_end_keeps_totals : forall cf ops,
  let t := run cf ops in let t' := step cf t PeriodEnd in
  (forall a, a_xact (at_ t' a) = a_xact (at_ t a) /\ a_query (at_ t' a) = a_query (at_ t a) /\
             a_sent (at_ t' a) = a_sent (at_ t a) /\ a_recv (at_ t' a) = a_recv (at_ t a) /\
             a_err (at_ t' a) = a_err (at_ t a)) /\
  creg t' = creg t /\ sreg t' = sreg t /\ (forall c, cl t' c = cl t c) /\ (forall s, sv t' s = sv t s).
Proof. exact period_end_keeps_totals. Qed.
Print Assumptions c18_period_end_keeps_totals.

(** Non-vacuity and regression: two errors counted on the replica before a period end are still there after it
    (the current counter is what goes back to 0); a period end that zeroed the total instead ([period_end_bad],
    a seeded change of [reset_current_counts]) would make total_errors decrease. *)
Theorem c18_period_end_witness :
  let t := run cf_w errs_w in let t' := step cf_w t PeriodEnd in
  a_err (at_ t 1) = 2 /\ a_err (at_ t' 1) = 2 /\ c_err_ (at_ t 1) = 2 /\ c_err_ (at_ t' 1) = 0 /\
  a_err (period_end_bad (at_ t 1)) = 0 /\ ~ atot_le (at_ t 1) (period_end_bad (at_ t 1)).
Proof. exact period_end_witness. Qed.
Print Assumptions c18_period_end_witness.

(** A CancelRequest connection — whatever process id it names (a connected client's, with the right or a
    wrong secret key, or nobody's) and at any point of any history — changes nothing the admin console shows:
    not the client registry, not a row, not a pool count.  ([c18_registry_exact] etc. hold for histories that
    contain [CancelConn] like for all others: the op is part of the alphabet.) *)
Theorem c18_cancel_inert : forall cf ops pid,
  let t := run cf ops in let t' := step cf t (CancelConn pid) in
  creg t' = creg t /\ sreg t' = sreg t /\ cids t' = cids t /\ sids t' = sids t /\
  (forall c, cl t' c = cl t c) /\ (forall s, sv t' s = sv t s) /\ (forall a, at_ t' a = at_ t a) /\
  (forall p, show_pools cf t' p = show_pools cf t p) /\ show_lists t' = show_lists t.
Proof. exact cancel_inert. Qed.
Print Assumptions c18_cancel_inert.

(** ... whereas a pseudo-client that carried the id it was asked to cancel ([cancel_conn_bad], a seeded change of
    [Client::cancel]) would unregister its still-connected target when dropped. *)
Theorem c18_cancel_with_target_id_removes_target :
  let t := cancel_conn_bad (run cf_w [Login 1 1 true; HandleStart 1]) 1 in
  creg t = [] /\ c_phase (cl t 1) = PHandle /\ cl_idle (show_pools cf_w t 1) = 0 /\ length (clients_of t 1) = 1.
Proof. exact cancel_bad_removes_target. Qed.
Print Assumptions c18_cancel_with_target_id_removes_target.

(** Regression (former defect F31, repaired by /repo ca5e3a4): a client task that panics is removed
    from the registry like any other exit ... *)
Theorem c18_panic_row_removed :
  let t := run cf_w panic_w in
  creg t = [] /\ c_phase (cl t 1) = PGone /\ cl_idle (show_pools cf_w t 1) = 0 /\ trace cf_w panic_w = panic_w.
Proof. exact panic_row_removed. Qed.
Print Assumptions c18_panic_row_removed.

(** ... whereas the code before the repair ([exit_panic_old]: no [disconnect()] on a panic) kept the row and
    over-counted the pool for ever: the wire tie tells the two apart on every panic history. *)
Theorem c18_old_panic_leaked_row :
  let t := exit_panic_old (run cf_w [Login 1 1 true; HandleStart 1]) 1 in
  In 1 (creg t) /\ c_phase (cl t 1) = PGone /\ cl_idle (show_pools cf_w t 1) = 1 /\ length (clients_of t 1) = 0.
Proof. exact old_panic_leaked_row. Qed.
Print Assumptions c18_old_panic_leaked_row.

(** Regression (former defect F32, repaired by /repo b38aae6): after a failed candidate the client that
    tries its next candidate is shown waiting (and carries the replica's ban error) ... *)
Theorem c18_retry_is_waiting :
  let t := run cf_w retry_w in
  c_iter (cl t 1) = true /\ c_state (cl t 1) = CWaiting /\ c_err (cl t 1) = 1 /\
  cl_waiting (show_pools cf_w t 1) = 1 /\ cl_idle (show_pools cf_w t 1) = 0 /\ trace cf_w retry_w = retry_w.
Proof. exact retry_is_waiting. Qed.
Print Assumptions c18_retry_is_waiting.

(** ... whereas the code before the repair ([candidate_try_old]: no [waiting()] inside the loop) showed it idle. *)
Theorem c18_old_retry_shown_idle :
  let t := candidate_try_old (run cf_w (firstn 5 retry_w)) 1 in
  c_iter (cl t 1) = true /\ c_state (cl t 1) = CIdle /\
  cl_waiting (show_pools cf_w t 1) = 0 /\ cl_idle (show_pools cf_w t 1) = 1.
Proof. exact old_retry_shown_idle. Qed.
Print Assumptions c18_old_retry_shown_idle.

(** Two clients of pool 1 on one address; client 1 runs BEGIN .. COMMIT (three request cycles, one
    transaction) on server connection 7, client 2 one autocommit query on the same connection
    afterwards, then both leave (one cleanly, one by closing the socket). *)
Definition demo : list op :=
  [Login 1 1 true; HandleStart 1; Login 2 1 true; HandleStart 2;
   CheckoutStart 1; ServerConnect 7 0; ServerReady 7; CandidateTry 1; CheckoutOk 1 7;
   QueryDone 1 7; QueryDone 1 7; QueryDone 1 7; TxnDone 1 7; Release 1 7;
   CheckoutStart 2; CandidateTry 2; CheckoutOk 2 7; QueryDone 2 7; TxnDone 2 7; Release 2 7;
   ExitOk 1; ExitErr 2 false].

Example demo_mid :
  observe cf_w 1 (run cf_w (firstn 10 demo)) =
  ([[2; 1; 0; 0; 0; 0]; [1; 1; 2; 0; 1; 0]], [[7; 0; 1; 2; 0; 1; 0; 0]], [[1; 1; 1; 0; 1; 0; 0; 0]], [1; 1; 0; 1],
   [[0; 0; 1; 0; 0; 0; 0; 0; 0; 0; 0]; [1; 0; 0; 0; 0; 0; 0; 0; 0; 0; 0]]).
Proof. vm_compute. reflexivity. Qed.

Example demo_end :
  observe cf_w 1 (run cf_w demo) =
  ([], [[7; 0; 3; 0; 2; 4; 0; 0]], [[1; 0; 0; 0; 0; 1; 0; 0]], [0; 0; 1; 0], [[0; 2; 4; 0; 0; 0; 0; 0; 0; 0; 0]; [1; 0; 0; 0; 0; 0; 0; 0; 0; 0; 0]])
  /\ trace cf_w demo = demo.
Proof. vm_compute. repeat split. Qed.

(** Ops whose call site is not reachable are ignored (a second HandleStart, a query without a server,
    a CheckoutOk outside a loop iteration, a drop of a held connection). *)
Example disabled_ops_ignored :
  trace cf_w [Login 1 1 true; HandleStart 1; HandleStart 1; QueryDone 1 7; ServerConnect 7 0; ServerReady 7;
              CheckoutStart 1; CheckoutOk 1 7; CandidateTry 1; CheckoutOk 1 7; ServerDrop 7; Login 1 1 true] =
  [Login 1 1 true; HandleStart 1; ServerConnect 7 0; ServerReady 7; CheckoutStart 1; CandidateTry 1; CheckoutOk 1 7].
Proof. vm_compute. reflexivity. Qed.

(** A checkout that [pool.get] refuses before its candidate loop (Err(InvalidShardId): the router names a shard the
    pool does not have): [waiting()] in client.rs, then the Err arm's [idle()] — no candidate is ever tried, the
    client stays connected and is shown idle. *)
Example refusal_is_idle :
  let ops := [Login 1 1 true; HandleStart 1; CheckoutStart 1; CheckoutGiveUp 1] in
  let t := run cf_w ops in
  trace cf_w ops = ops /\ c_state (cl t 1) = CIdle /\ c_chk (cl t 1) = false /\
  show_pools cf_w t 1 = mkP 1 0 0 0 0 0 0 /\
  c_state (cl (run cf_w (firstn 3 ops)) 1) = CWaiting.
Proof. vm_compute. repeat split. Qed.
