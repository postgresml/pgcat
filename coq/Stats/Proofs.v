(** C18 — lemmas behind the property theorems (Stats/Props.v). *)
From Coq Require Import Arith Bool List Lia.
From PV Require Import Stats.Model Stats.Inv.
Import ListNotations.

(** The pointwise lemmas below read one row of the new state, [upd f k v x], and sometimes test the op's own id:
    split the [=?] tests of the goal. *)
Ltac eqb_cases := repeat lazymatch goal with |- context [?a =? ?b] => destruct (Nat.eqb_spec a b); subst end.

Lemma Wf_run cf ops : Wf (run cf ops).
Proof. apply run_inv; [apply Wf_init | intros t o; apply Wf_step]. Qed.
Lemma Own_run cf ops : Own (run cf ops).
Proof.
  apply (run_inv cf (fun t => Wf t /\ Own t)); [split; [apply Wf_init | apply Own_init]|].
  intros t o [W O]. split; [apply Wf_step | apply Own_step]; assumption.
Qed.

Lemma reach_inv cf (P : st -> Prop) :
  P init -> (forall t o, Wf t -> Own t -> P t -> P (step cf t o)) -> forall ops, P (run cf ops).
Proof.
  intros H0 HS ops. induction ops as [|o ops IH] using rev_ind; [exact H0|].
  rewrite run_snoc. apply HS; [apply Wf_run | apply Own_run | exact IH].
Qed.

Lemma RegOk_run cf ops : RegOk (run cf ops).
Proof. apply reach_inv; [apply RegOk_init | intros t o W _; apply RegOk_step, W]. Qed.

Definition NP (t : st) : Prop := forall c, In c (creg t) -> c_phase (cl t c) = PHandle.

Lemma NP_step cf t o : NP t -> NP (step cf t o).
Proof.
  intros N. apply step_inv; [assumption|]. intros En. unfold NP in *.
  destruct o; guard_eqs En; unfold apply, exit_client; cbn [cl creg]; try exact N.
  all: intros k; pose proof (N k) as Nk; unfold upd; rewrite ?In_reg_add, ?In_reg_del; eqb_cases; cbn [c_phase];
       intuition congruence.
Qed.

Lemma NP_run cf ops : NP (run cf ops).
Proof. apply run_inv; [intros c [] | intros t o; apply NP_step]. Qed.

Lemma registry_exact cf ops :
  let t := run cf ops in
  (forall c, In c (creg t) <-> c_phase (cl t c) = PHandle) /\
  (forall s, In s (sreg t) <-> s_live (sv t s) = true) /\
  NoDup (creg t) /\ NoDup (sreg t).
Proof.
  intros t. pose proof (RegOk_run cf ops) as R. pose proof (NP_run cf ops) as N.
  repeat split; try apply R; try apply N.
Qed.

Lemma count3 (l : list nat) (f : nat -> cstate) (g : nat -> bool) :
  length (filter (fun c => g c && is_cstate (f c) CIdle) l) +
  length (filter (fun c => g c && is_cstate (f c) CActive) l) +
  length (filter (fun c => g c && is_cstate (f c) CWaiting) l) = length (filter g l).
Proof.
  induction l as [|a l IH]; simpl; [reflexivity|].
  destruct (g a), (f a); simpl; lia.
Qed.

Lemma nodup_same_length (l1 l2 : list nat) :
  NoDup l1 -> NoDup l2 -> (forall x, In x l1 <-> In x l2) -> length l1 = length l2.
Proof.
  intros N1 N2 H. apply Nat.le_antisymm; apply NoDup_incl_length; auto; intros x Hx; apply H; assumption.
Qed.

Lemma pool_sum_reg cf t p :
  let r := show_pools cf t p in
  cl_idle r + cl_active r + cl_waiting r = length (filter (fun c => c_pool (cl t c) =? p) (creg t)).
Proof. simpl. unfold cl_count. apply count3 with (f := fun c => c_state (cl t c)) (g := fun c => c_pool (cl t c) =? p). Qed.

Lemma pool_sum cf ops p :
  let t := run cf ops in let r := show_pools cf t p in
  cl_idle r + cl_active r + cl_waiting r = length (clients_of t p).
Proof.
  intros t r. unfold r. rewrite pool_sum_reg.
  destruct (registry_exact cf ops) as [RC [_ [NC _]]]. fold t in RC, NC.
  pose proof (Wf_run cf ops) as W. fold t in W.
  apply nodup_same_length.
  - apply NoDup_filter. assumption.
  - apply NoDup_filter. apply W.
  - intros x. unfold clients_of, in_handle. rewrite !filter_In, andb_true_iff, is_phase_eq, RC, (w_cids _ W).
    split; intros [A B]; repeat split; try tauto; try congruence.
Qed.

Lemma filter_nil {A} (f : A -> bool) l : (forall x, In x l -> f x = false) -> filter f l = [].
Proof.
  induction l as [|a l IH]; intros H; simpl; [reflexivity|].
  rewrite (H a (or_introl eq_refl)). apply IH. intros x Hx. apply H. right. assumption.
Qed.

Lemma zero_when_gone cf ops :
  let t := run cf ops in
  (forall c, c_phase (cl t c) <> PHandle) ->
  creg t = [] /\ show_lists t = (0, 0, length (filter (fun k => is_sstate (s_state (sv t k)) SIdle) (sreg t)), 0) /\
  forall p, let r := show_pools cf t p in
            cl_idle r = 0 /\ cl_active r = 0 /\ cl_waiting r = 0 /\ sv_active r = 0.
Proof.
  intros t G.
  destruct (registry_exact cf ops) as [RC [RS _]]. fold t in RC, RS.
  pose proof (Own_run cf ops) as O. fold t in O.
  assert (E : creg t = []).
  { destruct (creg t) as [|c l] eqn:Ec; [reflexivity|]. exfalso. apply (G c). apply RC. left. reflexivity. }
  assert (NA : forall k, In k (sreg t) -> is_sstate (s_state (sv t k)) SActive = false).
  { intros k Hk. apply RS in Hk. destruct (is_sstate (s_state (sv t k)) SActive) eqn:Es; [|reflexivity]. exfalso.
    apply is_sstate_eq in Es. apply (o_act_s _ O k Hk) in Es.
    destruct (s_holder (sv t k)) as [c|] eqn:Eh; [|congruence].
    apply (o_s2c _ O) in Eh. apply (o_c2s _ O) in Eh. apply (G c). tauto. }
  split; [assumption|]. split.
  - unfold show_lists. rewrite E. simpl. rewrite (filter_nil (fun k => is_sstate (s_state (sv t k)) SActive)); auto.
  - intros p. simpl. unfold cl_count, sv_count. rewrite E. simpl. repeat split; try reflexivity.
    rewrite filter_nil; [reflexivity|]. intros k Hk. rewrite (NA k Hk). apply andb_false_r.
Qed.

Lemma true_state cf ops :
  let t := run cf ops in
  (forall c, c_phase (cl t c) = PHandle ->
     (c_state (cl t c) = CActive <-> exists s, c_held (cl t c) = Some s) /\
     (c_state (cl t c) = CWaiting -> c_chk (cl t c) = true)) /\
  (forall s, s_live (sv t s) = true ->
     (s_state (sv t s) = SActive <-> exists c, s_holder (sv t s) = Some c)) /\
  (forall c s, c_held (cl t c) = Some s <-> s_holder (sv t s) = Some c) /\
  (forall c s, c_held (cl t c) = Some s -> c_phase (cl t c) = PHandle /\ s_live (sv t s) = true).
Proof.
  intros t. pose proof (Own_run cf ops) as O. fold t in O. repeat split.
  - intros A. apply (o_act_c _ O c H) in A. destruct (c_held (cl t c)) as [s|]; [eauto | congruence].
  - intros [s A]. apply (o_act_c _ O c H). congruence.
  - apply (o_wait _ O c H).
  - intros A. apply (o_act_s _ O s H) in A. destruct (s_holder (sv t s)) as [c|]; [eauto | congruence].
  - intros [c A]. apply (o_act_s _ O s H). congruence.
  - intros A. apply (o_c2s _ O) in A. tauto.
  - apply (o_s2c _ O).
  - apply (o_c2s _ O) in H. tauto.
  - apply (o_c2s _ O) in H. tauto.
Qed.

Lemma waiting_exact cf ops :
  let t := run cf ops in
  forall c, c_phase (cl t c) = PHandle ->
    (c_iter (cl t c) = true -> c_state (cl t c) = CWaiting) /\
    (c_state (cl t c) = CWaiting -> c_chk (cl t c) = true) /\
    (c_iter (cl t c) = true -> c_chk (cl t c) = true).
Proof.
  intros t c Hc. pose proof (Own_run cf ops) as O. repeat split.
  - intros H. apply (o_iter _ O c H).
  - apply (o_wait _ O c Hc).
  - intros H. apply (o_iter _ O c H).
Qed.

Definition ind (b : bool) : nat := if b then 1 else 0.

Lemma count_snoc f l o (b : bool) : count f (l ++ (if b then [o] else [])) = count f l + ind (b && f o).
Proof.
  unfold count. rewrite filter_app, app_length. destruct b; simpl; [|lia].
  destruct (f o); simpl; lia.
Qed.

Lemma count_run cf (X : st -> nat) f :
  X init = 0 ->
  (forall ops o, X (step cf (run cf ops) o) = X (run cf ops) + ind (enabled cf (run cf ops) o && f o)) ->
  forall ops, X (run cf ops) = count f (trace cf ops).
Proof.
  intros H0 HS ops. induction ops as [|o ops IH] using rev_ind; [exact H0|].
  rewrite run_snoc, trace_snoc, count_snoc, HS, IH. reflexivity.
Qed.

(** How one client row moves in one step that counts [nx] transactions and [nq] queries for it: a used id stays
    used and its counters move by those amounts; an unused id stays as it is or starts with zero counters. *)
Definition cl_moves (x x' : client) (nx nq : nat) : Prop :=
  c_phase x <> PNone /\ c_phase x' <> PNone /\
    c_xact x' = c_xact x + nx /\ c_query x' = c_query x + nq /\ c_err x <= c_err x' \/
  c_phase x = PNone /\ nx = 0 /\ nq = 0 /\
    (x' = x \/ c_phase x' <> PNone /\ c_xact x' = 0 /\ c_query x' = 0 /\ c_err x' = 0).

Lemma cl_moves_kept x : cl_moves x x 0 0.
Proof. destruct (c_phase x) eqn:E; [right | left..]; rewrite E; repeat split; auto; (lia || discriminate). Qed.

Lemma cl_step cf t o c :
  cl_moves (cl t c) (cl (step cf t o) c)
    (ind (enabled cf t o && txn_of_client c o)) (ind (enabled cf t o && qry_of_client c o)).
Proof.
  unfold step. destruct (enabled cf t o) eqn:En; [|apply cl_moves_kept].
  destruct o; guard_eqs En; unfold apply, exit_client; cbn [cl andb txn_of_client qry_of_client]; unfold upd;
    eqb_cases; try apply cl_moves_kept.
  (* what is left is the row the op writes: [Login] takes an unused id into use, the guard of every other op says
     that the row is in use *)
  all: [> right; repeat split; [apply En | right; destruct ok; repeat split; discriminate]
        | left; cbn; decompose [and] En; repeat split; try lia; congruence ..].
Qed.

Definition Fresh (t : st) : Prop :=
  (forall c, c_phase (cl t c) = PNone -> c_xact (cl t c) = 0 /\ c_query (cl t c) = 0 /\ c_err (cl t c) = 0).

Lemma Fresh_step cf t o : Fresh t -> Fresh (step cf t o).
Proof.
  intros F c Hc. destruct (cl_step cf t o c) as [(_ & H & _)|(E & _ & _ & [->|(H & _)])]; [contradiction | apply F, E | contradiction].
Qed.
Lemma Fresh_run cf ops : Fresh (run cf ops).
Proof. apply run_inv; [intros c _; simpl; auto | intros t o; apply Fresh_step]. Qed.

Lemma client_counts_step cf t o c : Fresh t ->
  c_xact (cl (step cf t o) c) = c_xact (cl t c) + ind (enabled cf t o && txn_of_client c o) /\
  c_query (cl (step cf t o) c) = c_query (cl t c) + ind (enabled cf t o && qry_of_client c o).
Proof.
  intros F. destruct (cl_step cf t o c) as [(_ & _ & A & B & _)|(E & A & B & [->|(_ & X & Q & _)])];
    [split; assumption | rewrite A, B; lia | destruct (F c E) as (X0 & Q0 & _); lia].
Qed.

Lemma client_counts cf ops c :
  c_xact (cl (run cf ops) c) = count (txn_of_client c) (trace cf ops) /\
  c_query (cl (run cf ops) c) = count (qry_of_client c) (trace cf ops).
Proof.
  split; apply (count_run cf (fun t => _ (cl t c))); try reflexivity; intros; apply client_counts_step, Fresh_run.
Qed.

(** Likewise for a server row; here the counters of an unused id move with the op too, unless the id is taken
    into use, with zero counters. *)
Definition sv_moves (y y' : server) (nx nq : nat) : Prop :=
  s_seen y = true /\ s_seen y' = true /\ s_xact y' = s_xact y + nx /\ s_query y' = s_query y + nq /\
    s_sent y <= s_sent y' /\ s_recv y <= s_recv y' \/
  s_seen y = false /\ (s_xact y' = s_xact y + nx /\ s_query y' = s_query y + nq \/
                       s_xact y' = 0 /\ s_query y' = 0 /\ nx = 0 /\ nq = 0).

Lemma sv_moves_counted y y' nx nq :
  s_seen y' = s_seen y -> s_xact y' = s_xact y + nx -> s_query y' = s_query y + nq ->
  s_sent y <= s_sent y' -> s_recv y <= s_recv y' -> sv_moves y y' nx nq.
Proof. intros E. unfold sv_moves. rewrite E. destruct (s_seen y); [left | right]; auto 7. Qed.

Lemma sv_step cf t o s :
  sv_moves (sv t s) (sv (step cf t o) s)
    (ind (enabled cf t o && txn_of_server s o)) (ind (enabled cf t o && qry_of_server s o)).
Proof.
  unfold step. destruct (enabled cf t o) eqn:En; [|apply sv_moves_counted; try reflexivity; cbn; lia].
  destruct o; guard_eqs En; unfold apply; split_exit; unfold set_sstate; cbn [sv andb txn_of_server qry_of_server];
    unfold upd; eqb_cases.
  (* every row counts on from what it held, except the one [ServerConnect] takes into use *)
  all: first [apply sv_moves_counted; cbn; try reflexivity; lia | right; split; [exact En | right; repeat split]].
Qed.

Definition FreshS (t : st) : Prop :=
  forall s, s_seen (sv t s) = false -> s_live (sv t s) = false /\ s_xact (sv t s) = 0 /\ s_query (sv t s) = 0.

Lemma FreshS_step cf t o : Own t -> FreshS t -> FreshS (step cf t o).
Proof.
  intros O F. apply step_inv; [assumption|]. intros En.
  destruct o; guard_eqs En; unfold apply; split_exit.
  all: intros k; specialize (F k); cbn [sv]; unfold upd, set_sstate; eqb_cases; cbn [s_seen s_live s_xact s_query];
       try exact F.
  (* the rows that change in a field [FreshS] reads: [QueryDone] and [TxnDone] count on a held, hence live, row, which
     by [F] is seen; [ServerConnect] makes its row seen; [ServerDrop] keeps the counters *)
  all: intros U; try discriminate U; apply F in U; try apply proj2, (o_c2s _ O) in En; intuition congruence.
Qed.
Lemma FreshS_run cf ops : FreshS (run cf ops).
Proof. apply reach_inv; [intros c _; simpl; auto | intros t o _; apply FreshS_step]. Qed.

Lemma server_counts_step cf t o s : FreshS t ->
  s_xact (sv (step cf t o) s) = s_xact (sv t s) + ind (enabled cf t o && txn_of_server s o) /\
  s_query (sv (step cf t o) s) = s_query (sv t s) + ind (enabled cf t o && qry_of_server s o).
Proof.
  intros F. destruct (sv_step cf t o s) as [(_ & _ & A & B & _)|(E & [[A B]|(A & B & C & D)])];
    [split; assumption.. | destruct (F s E) as (_ & X & Q); lia].
Qed.

Lemma server_counts cf ops s :
  s_xact (sv (run cf ops) s) = count (txn_of_server s) (trace cf ops) /\
  s_query (sv (run cf ops) s) = count (qry_of_server s) (trace cf ops).
Proof.
  split; apply (count_run cf (fun t => _ (sv t s))); try reflexivity; intros; apply server_counts_step, FreshS_run.
Qed.

Lemma sumf_ext f g l : (forall x, In x l -> f x = g x) -> sumf f l = sumf g l.
Proof.
  induction l as [|a l IH]; intros H; simpl; [reflexivity|].
  rewrite (H a (or_introl eq_refl)), IH; [reflexivity|]. intros x Hx. apply H. right. assumption.
Qed.

Lemma sumf_cons f a l : sumf f (a :: l) = f a + sumf f l.
Proof. reflexivity. Qed.

Lemma sumf_upd_keep {A} (p : A -> nat) (g : nat -> A) k y l :
  (In k l -> p y = p (g k)) -> sumf (fun x => p (upd g k y x)) l = sumf (fun x => p (g x)) l.
Proof. intros E. apply sumf_ext. intros x Hx. unfold upd. destruct (Nat.eqb_spec x k) as [->|_]; auto. Qed.

Lemma sumf_upd_notin {A} (proj : A -> nat) (f : nat -> A) k y l :
  ~ In k l -> sumf (fun x => proj (upd f k y x)) l = sumf (fun x => proj (f x)) l.
Proof.
  intros Hn. apply sumf_upd_keep. intros Hk. contradiction.
Qed.

Lemma sumf_upd_add {A} (p : A -> nat) (g : nat -> A) k y d l :
  NoDup l -> In k l -> p y = p (g k) + d -> sumf (fun x => p (upd g k y x)) l = sumf (fun x => p (g x)) l + d.
Proof.
  intros ND Hin E. induction ND as [|a l Hn ND IH]; [destruct Hin|]. rewrite !sumf_cons. destruct Hin as [->|Hin].
  - rewrite upd_same, sumf_upd_notin, E by assumption. lia.
  - rewrite IH, upd_other by (assumption || congruence). lia.
Qed.

Lemma srv_sum_same proj t t' a :
  sids t' = sids t -> (forall x, In x (sids t) -> sv t' x = sv t x) -> srv_sum proj t' a = srv_sum proj t a.
Proof. intros E H. unfold srv_sum. rewrite E. apply sumf_ext. intros x Hx. rewrite (H x Hx). reflexivity. Qed.

Lemma srv_sum_eq proj t t' a : sids t' = sids t -> sv t' = sv t -> srv_sum proj t' a = srv_sum proj t a.
Proof. intros E H. unfold srv_sum. rewrite E, H. reflexivity. Qed.

Definition Tot (t : st) : Prop := forall a,
  a_xact (at_ t a) = srv_sum s_xact t a /\ a_query (at_ t a) = srv_sum s_query t a /\
  a_sent (at_ t a) = srv_sum s_sent t a /\ a_recv (at_ t a) = srv_sum s_recv t a.

Lemma Tot_init : Tot init.
Proof. intros a. repeat split. Qed.

Definition term (proj : server -> nat) (y : server) (a : nat) : nat := if s_addr y =? a then proj y else 0.

(** One total [ap] of the addresses against one counter [sp] of the server rows, over the maps. *)
Definition tot1 (ap : atot -> nat) (sp : server -> nat) (g : nat -> server) (l : list nat) (h : nat -> atot) : Prop :=
  forall a, ap (h a) = sumf (fun s => term sp (g s) a) l.

Lemma Tot_parts t :
  Tot t <-> tot1 a_xact s_xact (sv t) (sids t) (at_ t) /\ tot1 a_query s_query (sv t) (sids t) (at_ t) /\
            tot1 a_sent s_sent (sv t) (sids t) (at_ t) /\ tot1 a_recv s_recv (sv t) (sids t) (at_ t).
Proof. split; [intros T; repeat split; intros a; apply T | intros (A & B & C & D) a; repeat split; [apply A | apply B | apply C | apply D]]. Qed.

Section Tot1.
  Variables (ap : atot -> nat) (sp : server -> nat) (g : nat -> server) (l : list nat) (h : nat -> atot).
  Hypothesis T : tot1 ap sp g l h.

  Lemma tot1_sv k y : s_addr y = s_addr (g k) -> sp y = sp (g k) -> tot1 ap sp (upd g k y) l h.
  Proof. intros Ea Es a. rewrite (sumf_upd_keep (fun y => term sp y a)); [apply T | intros _; unfold term; rewrite Ea, Es; reflexivity]. Qed.

  Lemma tot1_at a x : ap x = ap (h a) -> tot1 ap sp g l (upd h a x).
  Proof. intros E b. unfold upd. destruct (Nat.eqb_spec b a) as [->|_]; [rewrite E|]; apply T. Qed.

  Lemma tot1_add k y x d :
    NoDup l -> In k l -> s_addr y = s_addr (g k) -> sp y = sp (g k) + d -> ap x = ap (h (s_addr (g k))) + d ->
    tot1 ap sp (upd g k y) l (upd h (s_addr (g k)) x).
  Proof.
    intros ND Hin Ea Es Ex a. unfold upd at 1.
    rewrite (sumf_upd_add (fun y => term sp y a) g k y (if s_addr (g k) =? a then d else 0)), <- T; try assumption.
    - rewrite (Nat.eqb_sym a). destruct (Nat.eqb_spec (s_addr (g k)) a) as [<-|_]; lia.
    - unfold term. rewrite Ea, Es. destruct (s_addr (g k) =? a); lia.
  Qed.

  Lemma tot1_new k y : ~ In k l -> sp y = 0 -> tot1 ap sp (upd g k y) (k :: l) h.
  Proof.
    intros Hn E a. rewrite sumf_cons, upd_same.
    rewrite (sumf_upd_notin (fun y => term sp y a)), <- T by assumption. unfold term. rewrite E. destruct (_ =? _); reflexivity.
  Qed.
End Tot1.

(** The server rows an op writes are those of live or held connections: their ids are listed. *)
Lemma written_listed t : Wf t -> Own t ->
  (forall s, s_live (sv t s) = true -> In s (sids t)) /\ (forall c s, c_held (cl t c) = Some s -> In s (sids t)).
Proof.
  intros W O. assert (IN : forall s, s_live (sv t s) = true -> In s (sids t)) by (intros s H; apply (w_sids _ W), (w_live _ W), H).
  split; [exact IN | intros c s H; apply IN, (o_c2s _ O c s H)].
Qed.

Lemma Tot_step cf t o : Wf t -> Own t -> Tot t -> Tot (step cf t o).
Proof.
  intros W O T. apply step_inv; [exact T|]. intros En.
  destruct (written_listed t W O) as [IN IH].
  pose proof (w_nd_s _ W) as ND. apply Tot_parts in T. destruct T as (T1 & T2 & T3 & T4).
  destruct o; guard_eqs En; cbn [apply]; split_exit;
    apply Tot_parts; unfold set_sstate; cbn [sv sids at_]; repeat split.
  all: lazymatch goal with
       | |- tot1 _ _ (upd _ _ _) (_ :: _) _ => apply tot1_new; [assumption | rewrite (w_sids _ W); congruence | reflexivity]
       | |- tot1 _ _ (upd _ _ _) _ (upd _ _ _) =>
           (* the amount is read off the address side *)
           eapply tot1_add; [assumption.. | first [apply IN, En | eapply IH, En | eapply IH, Hh] | reflexivity | | cbn; reflexivity];
           cbn; lia
       | |- tot1 _ _ (upd _ _ _) _ _ => apply tot1_sv; [assumption | reflexivity..]
       | |- tot1 _ _ _ _ (upd _ _ _) => apply tot1_at; [assumption | cbn; lia]
       | |- tot1 _ _ _ _ (fun _ => _) => intros b; destruct (has_server t b); first [apply T1 | apply T2 | apply T3 | apply T4]
       | _ => assumption
       end.
Qed.

Lemma Tot_run cf ops : Tot (run cf ops).
Proof. apply reach_inv; [apply Tot_init | intros t o; apply Tot_step]. Qed.

Definition cl_sum (proj : client -> nat) (t : st) : nat := sumf (fun c => proj (cl t c)) (cids t).
Definition sv_sum (proj : server -> nat) (t : st) : nat := sumf (fun s => proj (sv t s)) (sids t).

Lemma cl_sum_step cf t o : Wf t ->
  cl_sum c_xact (step cf t o) = cl_sum c_xact t + ind (enabled cf t o && is_txn o) /\
  cl_sum c_query (step cf t o) = cl_sum c_query t + ind (enabled cf t o && is_qry o).
Proof.
  intros W. unfold step. destruct (enabled cf t o) eqn:En; [| simpl; lia].
  destruct o; guard_eqs En; cbn [apply andb is_txn is_qry ind]; unfold cl_sum, exit_client; cbn [cl cids]; split.
  all: lazymatch goal with
       | |- sumf _ (?c :: _) = _ =>
           rewrite sumf_cons, upd_same, (sumf_upd_notin _ (cl t)); [cbn; lia | rewrite (w_cids _ W); tauto]
       | |- sumf (fun _ => _ (upd _ _ _ _)) _ = _ =>
           apply sumf_upd_add; [apply W | apply (w_cids _ W); intuition congruence | cbn; lia]
       | _ => lia
       end.
Qed.

Lemma sv_sum_step cf t o : Wf t -> Own t ->
  sv_sum s_xact (step cf t o) = sv_sum s_xact t + ind (enabled cf t o && is_txn o) /\
  sv_sum s_query (step cf t o) = sv_sum s_query t + ind (enabled cf t o && is_qry o).
Proof.
  intros W O. unfold step. destruct (enabled cf t o) eqn:En; [| simpl; lia].
  destruct (written_listed t W O) as [IN IH].
  destruct o; guard_eqs En; cbn [apply andb is_txn is_qry ind]; unfold sv_sum; split_exit;
    cbn [sv sids]; split.
  all: lazymatch goal with
       | |- sumf _ (?s :: _) = _ =>
           rewrite sumf_cons, upd_same, (sumf_upd_notin _ (sv t)); [cbn; lia | rewrite (w_sids _ W); congruence]
       | |- sumf (fun _ => _ (upd _ _ _ _)) _ = _ =>
           apply sumf_upd_add;
           [apply W | first [apply IN; intuition congruence | eapply IH, En | eapply IH, Hh] | cbn; lia]
       | _ => lia
       end.
Qed.

Lemma conservation cf ops :
  let t := run cf ops in
  cl_sum c_xact t = count is_txn (trace cf ops) /\ sv_sum s_xact t = count is_txn (trace cf ops) /\
  cl_sum c_query t = count is_qry (trace cf ops) /\ sv_sum s_query t = count is_qry (trace cf ops).
Proof.
  repeat split; apply count_run; try reflexivity; intros;
    first [apply cl_sum_step | apply sv_sum_step]; auto using Wf_run, Own_run.
Qed.

Lemma totals cf ops :
  let t := run cf ops in
  (forall c, c_xact (cl t c) = count (txn_of_client c) (trace cf ops) /\
             c_query (cl t c) = count (qry_of_client c) (trace cf ops)) /\
  (forall s, s_xact (sv t s) = count (txn_of_server s) (trace cf ops) /\
             s_query (sv t s) = count (qry_of_server s) (trace cf ops)) /\
  (forall a, a_xact (at_ t a) = srv_sum s_xact t a /\ a_query (at_ t a) = srv_sum s_query t a /\
             a_sent (at_ t a) = srv_sum s_sent t a /\ a_recv (at_ t a) = srv_sum s_recv t a) /\
  (cl_sum c_xact t = count is_txn (trace cf ops) /\ sv_sum s_xact t = count is_txn (trace cf ops) /\
   cl_sum c_query t = count is_qry (trace cf ops) /\ sv_sum s_query t = count is_qry (trace cf ops)).
Proof.
  intros t. split; [intros c; apply client_counts|]. split; [intros s; apply server_counts|].
  split; [apply Tot_run | apply conservation].
Qed.

Lemma atot_le_refl x : atot_le x x.
Proof. unfold atot_le. lia. Qed.
Lemma atot_le_trans x y z : atot_le x y -> atot_le y z -> atot_le x z.
Proof. unfold atot_le. lia. Qed.

Lemma at_mono_step cf t o a : atot_le (at_ t a) (at_ (step cf t o) a).
Proof.
  unfold step. destruct (enabled cf t o); [| apply atot_le_refl].
  destruct o; unfold apply; split_exit;
    cbn [at_]; unfold upd, a_add, atot_le, period_end;
    try match goal with |- context [has_server ?t ?a] => destruct (has_server t a) end;
    eqb_cases; cbn [a_xact a_query a_sent a_recv a_err]; lia.
Qed.

(** Everything the admin console totals only grows, from ANY state on: the address totals, and the rows for as long
    as they exist (an id, once used, stays used). *)
Definition grows (t u : st) : Prop :=
  (forall a, atot_le (at_ t a) (at_ u a)) /\
  (forall c, c_phase (cl t c) <> PNone -> c_phase (cl u c) <> PNone /\ crow_le (cl t c) (cl u c)) /\
  (forall s, s_seen (sv t s) = true -> s_seen (sv u s) = true /\ srow_le (sv t s) (sv u s)).

Lemma grows_refl t : grows t t.
Proof. split; [intros a; apply atot_le_refl | unfold crow_le, srow_le; split; intros k H; (split; [exact H | lia])]. Qed.

Lemma grows_trans t u v : grows t u -> grows u v -> grows t v.
Proof.
  intros (A & C & S) (A' & C' & S'). split; [intros a; eapply atot_le_trans; [apply A | apply A'] | split; intros k H].
  - destruct (C k H) as [P L]. destruct (C' k P) as [P' L']. split; [exact P' | unfold crow_le in *; lia].
  - destruct (S k H) as [P L]. destruct (S' k P) as [P' L']. split; [exact P' | unfold srow_le in *; lia].
Qed.

Lemma grows_step cf t o : grows t (step cf t o).
Proof.
  split; [intros a; apply at_mono_step | split; intros k H].
  - destruct (cl_step cf t o k) as [(_ & P & A & B & C)|(E & _)]; [split; [exact P | unfold crow_le; lia] | contradiction].
  - destruct (sv_step cf t o k) as [(_ & P & A & B & C & D)|(E & _)]; [split; [exact P | unfold srow_le; lia] | congruence].
Qed.

Lemma grows_run_from cf t more : grows t (run_from cf t more).
Proof.
  induction more as [|o more IH] using rev_ind; [apply grows_refl|].
  rewrite run_from_snoc. eapply grows_trans; [exact IH | apply grows_step].
Qed.

Lemma run_app cf ops more : run cf (ops ++ more) = run_from cf (run cf ops) more.
Proof. apply fold_left_app. Qed.

Lemma monotone cf ops more :
  (forall a, atot_le (at_ (run cf ops) a) (at_ (run cf (ops ++ more)) a)) /\
  (forall c, c_phase (cl (run cf ops) c) <> PNone -> crow_le (cl (run cf ops) c) (cl (run cf (ops ++ more)) c)) /\
  (forall s, s_seen (sv (run cf ops) s) = true -> srow_le (sv (run cf ops) s) (sv (run cf (ops ++ more)) s)).
Proof.
  rewrite run_app. destruct (grows_run_from cf (run cf ops) more) as (A & C & S).
  split; [exact A | split; intros x Hx; [apply (C x Hx) | apply (S x Hx)]].
Qed.

Lemma reg_del_notin k l : ~ In k l -> reg_del k l = l.
Proof.
  induction l as [|x l IH]; intros H; simpl; [reflexivity|].
  destruct (Nat.eqb_spec x k) as [->|Hne]; simpl.
  - exfalso. apply H. left. reflexivity.
  - rewrite IH; [reflexivity|]. intros Hi. apply H. right. assumption.
Qed.

Lemma cancel_inert cf ops pid :
  let t := run cf ops in let t' := step cf t (CancelConn pid) in
  creg t' = creg t /\ sreg t' = sreg t /\ cids t' = cids t /\ sids t' = sids t /\
  (forall c, cl t' c = cl t c) /\ (forall s, sv t' s = sv t s) /\ (forall a, at_ t' a = at_ t a) /\
  (forall p, show_pools cf t' p = show_pools cf t p) /\ show_lists t' = show_lists t.
Proof.
  intros t t'.
  assert (E : creg t' = creg t).
  { unfold t', step. simpl. apply reg_del_notin. intros H.
    apply (NP_run cf ops) in H. pose proof (w_zero _ (Wf_run cf ops)) as Z. congruence. }
  repeat split; try assumption; try reflexivity.
  - intros p. unfold show_pools, cl_count, sv_count. rewrite E. reflexivity.
  - unfold show_lists. rewrite E. reflexivity.
Qed.

Lemma period_end_keeps_totals cf ops :
  let t := run cf ops in let t' := step cf t PeriodEnd in
  (forall a, a_xact (at_ t' a) = a_xact (at_ t a) /\ a_query (at_ t' a) = a_query (at_ t a) /\
             a_sent (at_ t' a) = a_sent (at_ t a) /\ a_recv (at_ t' a) = a_recv (at_ t a) /\
             a_err (at_ t' a) = a_err (at_ t a)) /\
  creg t' = creg t /\ sreg t' = sreg t /\ (forall c, cl t' c = cl t c) /\ (forall s, sv t' s = sv t s).
Proof.
  intros t t'. split; [|repeat split].
  intros a. unfold t', step. simpl. destruct (has_server t a); simpl; repeat split.
Qed.

Definition cf_w : cfg := [(1, false); (1, true)].   (* address 0: primary of pool 1, address 1: replica of pool 1 *)
Definition panic_w : list op := [Login 1 1 true; HandleStart 1; ExitPanic 1].
Definition retry_w : list op :=
  [Login 1 1 true; HandleStart 1; CheckoutStart 1; CandidateTry 1; CandidateFail 1 1 false; CandidateTry 1].
Definition errs_w : list op :=
  [Login 1 1 true; HandleStart 1; ServerConnect 7 1; ServerReady 7; CheckoutStart 1; CandidateTry 1; CandidateFail 1 1 false;
   CheckoutGiveUp 1].

Lemma panic_row_removed :
  let t := run cf_w panic_w in
  creg t = [] /\ c_phase (cl t 1) = PGone /\ cl_idle (show_pools cf_w t 1) = 0 /\ trace cf_w panic_w = panic_w.
Proof. vm_compute. repeat split. Qed.

Lemma old_panic_leaked_row :
  let t := exit_panic_old (run cf_w [Login 1 1 true; HandleStart 1]) 1 in
  In 1 (creg t) /\ c_phase (cl t 1) = PGone /\ cl_idle (show_pools cf_w t 1) = 1 /\ length (clients_of t 1) = 0.
Proof. vm_compute. repeat split. left. reflexivity. Qed.

Lemma retry_is_waiting :
  let t := run cf_w retry_w in
  c_iter (cl t 1) = true /\ c_state (cl t 1) = CWaiting /\ c_err (cl t 1) = 1 /\
  cl_waiting (show_pools cf_w t 1) = 1 /\ cl_idle (show_pools cf_w t 1) = 0 /\ trace cf_w retry_w = retry_w.
Proof. vm_compute. repeat split. Qed.

Lemma old_retry_shown_idle :
  let t := candidate_try_old (run cf_w (firstn 5 retry_w)) 1 in
  c_iter (cl t 1) = true /\ c_state (cl t 1) = CIdle /\
  cl_waiting (show_pools cf_w t 1) = 0 /\ cl_idle (show_pools cf_w t 1) = 1.
Proof. vm_compute. repeat split. Qed.

Lemma cancel_bad_removes_target :
  let t := cancel_conn_bad (run cf_w [Login 1 1 true; HandleStart 1]) 1 in
  creg t = [] /\ c_phase (cl t 1) = PHandle /\ cl_idle (show_pools cf_w t 1) = 0 /\ length (clients_of t 1) = 1.
Proof. vm_compute. repeat split. Qed.

Lemma period_end_witness :
  let t := run cf_w errs_w in let t' := step cf_w t PeriodEnd in
  a_err (at_ t 1) = 2 /\ a_err (at_ t' 1) = 2 /\ c_err_ (at_ t 1) = 2 /\ c_err_ (at_ t' 1) = 0 /\
  a_err (period_end_bad (at_ t 1)) = 0 /\ ~ atot_le (at_ t 1) (period_end_bad (at_ t 1)).
Proof. vm_compute. repeat split. intros [_ [_ [_ [_ H]]]]. inversion H. Qed.
