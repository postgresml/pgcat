(** C18 — invariants of the statistics model (Stats/Model.v): identifiers, registries, ownership.

    Every op writes at most one client row and at most one server row, both through [upd].  Each invariant is
    therefore split into a part per map ([Wf_parts], [RegOk_parts], [Own_parts]) and comes with one frame lemma for
    each way a row is written; a step lemma only has to name the frame lemma that fits what the op wrote. *)
From Coq Require Import Arith Bool List Lia.
From PV Require Import Stats.Model.
Import ListNotations.

Lemma run_from_snoc cf t ops o : run_from cf t (ops ++ [o]) = step cf (run_from cf t ops) o.
Proof. unfold run_from. rewrite fold_left_app. reflexivity. Qed.

Lemma trace_from_snoc cf ops : forall t o,
  trace_from cf t (ops ++ [o]) = trace_from cf t ops ++ (if enabled cf (run_from cf t ops) o then [o] else []).
Proof.
  induction ops as [|a ops IH]; intros t o; simpl.
  - destruct (enabled cf t o); reflexivity.
  - destruct (enabled cf t a); simpl; rewrite IH; reflexivity.
Qed.

Lemma run_snoc cf ops o : run cf (ops ++ [o]) = step cf (run cf ops) o.
Proof. apply run_from_snoc. Qed.
Lemma trace_snoc cf ops o :
  trace cf (ops ++ [o]) = trace cf ops ++ (if enabled cf (run cf ops) o then [o] else []).
Proof. apply trace_from_snoc. Qed.

Lemma step_inv (P : st -> Prop) cf t o : P t -> (enabled cf t o = true -> P (apply cf t o)) -> P (step cf t o).
Proof. intros H H'. unfold step. destruct (enabled cf t o); auto. Qed.

Lemma run_inv cf (P : st -> Prop) : P init -> (forall t o, P t -> P (step cf t o)) -> forall ops, P (run cf ops).
Proof.
  intros H0 HS ops. induction ops as [|o ops IH] using rev_ind; [exact H0 | rewrite run_snoc; apply HS, IH].
Qed.

Lemma upd_same {A} (f : nat -> A) k v : upd f k v k = v.
Proof. unfold upd. rewrite Nat.eqb_refl. reflexivity. Qed.
Lemma upd_other {A} (f : nat -> A) k v x : x <> k -> upd f k v x = f x.
Proof. intros H. unfold upd. destruct (Nat.eqb_spec x k); [contradiction | reflexivity]. Qed.
Lemma upd_all {A} (R : A -> Prop) f k v : (forall x, R (f x)) -> R v -> forall x, R (upd f k v x).
Proof. intros H Hv x. unfold upd. destruct (x =? k); auto. Qed.

Lemma mem_In k l : mem k l = true <-> In k l.
Proof.
  induction l as [|x l IH]; simpl; [split; [discriminate | tauto]|].
  rewrite orb_true_iff, IH, Nat.eqb_eq. tauto.
Qed.
Lemma In_reg_add x k l : In x (reg_add k l) <-> x = k \/ In x l.
Proof.
  unfold reg_add. destruct (mem k l) eqn:E; simpl.
  - apply mem_In in E. split; [tauto | intros [->|]; assumption].
  - split; intros [|]; auto.
Qed.
Lemma NoDup_reg_add k l : NoDup l -> NoDup (reg_add k l).
Proof.
  intros H. unfold reg_add. destruct (mem k l) eqn:E; [assumption|].
  constructor; [|assumption]. intros HI. apply mem_In in HI. congruence.
Qed.
Lemma In_reg_del x k l : In x (reg_del k l) <-> In x l /\ x <> k.
Proof.
  unfold reg_del. rewrite filter_In, negb_true_iff, Nat.eqb_neq. tauto.
Qed.
Lemma NoDup_reg_del k l : NoDup l -> NoDup (reg_del k l).
Proof. apply NoDup_filter. Qed.

Lemma is_phase_eq a b : is_phase a b = true <-> a = b.
Proof. destruct a, b; simpl; split; congruence. Qed.
Lemma is_none_eq {A} (o : option A) : is_none o = true <-> o = None.
Proof. destruct o; simpl; split; congruence. Qed.
Lemma holds_eq o k : holds o k = true <-> o = Some k.
Proof.
  destruct o as [x|]; simpl; [|split; congruence].
  rewrite Nat.eqb_eq. split; congruence.
Qed.
Lemma is_cstate_eq a b : is_cstate a b = true <-> a = b.
Proof. destruct a, b; simpl; split; congruence. Qed.
Lemma is_sstate_eq a b : is_sstate a b = true <-> a = b.
Proof. destruct a, b; simpl; split; congruence. Qed.

Lemma is_login_true s : is_login s = true <-> s = SLogin.
Proof. destruct s; simpl; split; congruence. Qed.
Lemma is_login_false s : is_login s = false <-> s <> SLogin.
Proof. destruct s; simpl; split; congruence. Qed.

(** What the guard of each op says, as equations between fields. *)
Definition guard (cf : cfg) (t : st) (o : op) : Prop :=
  match o with
  | Login c _ _ => c_phase (cl t c) = PNone /\ c <> cancel_stats_id
  | CancelConn _ | PeriodEnd => True
  | HandleStart c => c_phase (cl t c) = PLogged
  | CheckoutStart c =>
      c_phase (cl t c) = PHandle /\ c_chk (cl t c) = false /\ c_held (cl t c) = None /\ c_pool (cl t c) <> 0
  | TestServer s => s_live (sv t s) = true /\ s_holder (sv t s) = None /\ s_state (sv t s) <> SLogin
  | CandidateTry c | CheckoutGiveUp c =>
      c_phase (cl t c) = PHandle /\ c_chk (cl t c) = true /\ c_iter (cl t c) = false
  | CandidateSkip c | CandidateFail c _ _ =>
      c_phase (cl t c) = PHandle /\ c_chk (cl t c) = true /\ c_iter (cl t c) = true
  | CheckoutOk c s =>
      c_phase (cl t c) = PHandle /\ c_chk (cl t c) = true /\ c_iter (cl t c) = true /\ c_held (cl t c) = None /\
      s_live (sv t s) = true /\ s_holder (sv t s) = None /\ s_state (sv t s) <> SLogin /\
      apool cf (s_addr (sv t s)) = c_pool (cl t c)
  | QueryDone c s | TxnDone c s | Release c s => c_phase (cl t c) = PHandle /\ c_held (cl t c) = Some s
  | Data s _ _ => s_live (sv t s) = true
  | ExitOk c | ExitErr c _ | ExitPanic c => c_phase (cl t c) = PHandle
  | ServerConnect s _ => s_seen (sv t s) = false
  | ServerReady s => s_live (sv t s) = true /\ s_state (sv t s) = SLogin
  | ServerDrop s => s_live (sv t s) = true /\ s_holder (sv t s) = None
  end.

Lemma andb_guard (a b : bool) (A B : Prop) : (a = true -> A) -> (b = true -> B) -> a && b = true -> A /\ B.
Proof. intros HA HB H. apply andb_prop in H. split; [apply HA | apply HB]; apply H. Qed.

#[local] Hint Resolve -> negb_true_iff is_phase_eq is_none_eq holds_eq is_login_true is_login_false Nat.eqb_eq Nat.eqb_neq : guard.

(** Conjunct by conjunct: each test of [enabled] gives the equation that stands at its place in [guard]. *)
Lemma enabled_guard cf t o : enabled cf t o = true -> guard cf t o.
Proof. destruct o; cbn [enabled guard]; rewrite <- ?andb_assoc; repeat apply andb_guard; auto with guard. Qed.

(** For a given op: [En : enabled cf t o = true] becomes its equations. *)
Ltac guard_eqs En := apply enabled_guard in En; cbn [guard] in En.

(** The list [l] holds, once each, every key whose row satisfies [P], and only keys whose row satisfies [Q]
    (all four id lists of the state are of this kind, three of them with [P = Q]). *)
Definition listed {A} (P Q : A -> Prop) (f : nat -> A) (l : list nat) : Prop :=
  NoDup l /\ forall k, (P (f k) -> In k l) /\ (In k l -> Q (f k)).

Section Listed.
  Context {A : Type} (P Q : A -> Prop) (f : nat -> A) (l : list nat) (H : listed P Q f l) (k : nat) (v : A).

  Lemma listed_upd : (P v -> P (f k)) -> (Q (f k) -> Q v) -> listed P Q (upd f k v) l.
  Proof.
    destruct H as [N I]. intros HP HQ. split; [exact N|]. intros x. specialize (I x). unfold upd.
    destruct (Nat.eqb_spec x k) as [->|_]; tauto.
  Qed.
  Lemma listed_cons : ~ Q (f k) -> Q v -> listed P Q (upd f k v) (k :: l).
  Proof.
    destruct H as [N I]. intros HQ Hv. split; [constructor; [intros Hk; apply HQ, I, Hk | exact N]|].
    intros x. specialize (I x). simpl. unfold upd. destruct (Nat.eqb_spec x k) as [->|Hne]; intuition congruence.
  Qed.
  Lemma listed_add : Q v -> listed P Q (upd f k v) (reg_add k l).
  Proof.
    destruct H as [N I]. intros Hv. split; [apply NoDup_reg_add, N|].
    intros x. specialize (I x). rewrite In_reg_add. unfold upd. destruct (Nat.eqb_spec x k) as [->|Hne]; intuition congruence.
  Qed.
  Lemma listed_drop : ~ P v -> listed P Q (upd f k v) (reg_del k l).
  Proof.
    destruct H as [N I]. intros Hv. split; [apply NoDup_reg_del, N|].
    intros x. specialize (I x). rewrite In_reg_del. unfold upd. destruct (Nat.eqb_spec x k) as [->|Hne]; intuition congruence.
  Qed.
  Lemma listed_del : ~ P (f k) -> listed P Q f (reg_del k l).
  Proof.
    destruct H as [N I]. intros Hk. split; [apply NoDup_reg_del, N|].
    intros x. specialize (I x). rewrite In_reg_del. intuition congruence.
  Qed.
End Listed.

Record Wf (t : st) : Prop := {
  w_nd_c : NoDup (cids t);
  w_nd_s : NoDup (sids t);
  w_cids : forall c, In c (cids t) <-> c_phase (cl t c) <> PNone;
  w_sids : forall s, In s (sids t) <-> s_seen (sv t s) = true;
  w_live : forall s, s_live (sv t s) = true -> s_seen (sv t s) = true;
  w_zero : c_phase (cl t cancel_stats_id) = PNone }.

Definition used (x : client) : Prop := c_phase x <> PNone.
Definition seen (y : server) : Prop := s_seen y = true.

Lemma Wf_parts t :
  Wf t <-> listed used used (cl t) (cids t) /\ ~ In cancel_stats_id (cids t) /\
           listed seen seen (sv t) (sids t) /\ forall s, s_live (sv t s) = true -> seen (sv t s).
Proof.
  unfold listed, used, seen. split.
  - intros [N1 N2 IC IS LV Z]. rewrite IC. repeat split; auto; try apply IC; try apply IS.
  - intros ((N1 & IC) & Z & (N2 & IS) & LV). constructor; auto; try (split; apply IC || apply IS).
    destruct (c_phase (cl t cancel_stats_id)) eqn:E; try reflexivity; exfalso; apply Z, IC; congruence.
Qed.

Lemma Wf_init : Wf init.
Proof.
  constructor; simpl; try constructor; try tauto; congruence.
Qed.

(** In the step lemmas the new state is split into its parts and each part is matched with the frame lemma for
    the way it was written; an exit is first split on whether the client held a server. *)
Ltac split_exit :=
  unfold exit_client;
  lazymatch goal with
  | |- context [match c_held ?x with _ => _ end] => destruct (c_held x) eqn:Hh
  | _ => idtac
  end.

Lemma Wf_step cf t o : Wf t -> Wf (step cf t o).
Proof.
  intros W. apply step_inv; [assumption|]. intros En. apply Wf_parts in W. destruct W as (WC & Z & WS & LV).
  destruct o; guard_eqs En; cbn [apply]; [destruct ok|..]; split_exit;
    apply Wf_parts; unfold set_sstate; cbn [cl cids sv sids]; (split; [|split; [|split]]).
  all: lazymatch goal with
       | |- listed _ _ (upd _ _ _) (_ :: _) => apply listed_cons
       | |- listed _ _ (upd _ _ _) _ => apply listed_upd
       | |- ~ In _ (_ :: _) => simpl
       | |- forall _, _ -> seen (upd _ ?s _ _) => pose proof (LV s); apply (upd_all (fun y => s_live y = true -> seen y))
       | _ => idtac
       end; unfold used, seen in *; cbn [c_phase s_seen s_live]; intuition congruence.
Qed.

Record RegOk (t : st) : Prop := {
  r_nd_c : NoDup (creg t);
  r_nd_s : NoDup (sreg t);
  r_handle : forall c, c_phase (cl t c) = PHandle -> In c (creg t);
  r_sub : forall c, In c (creg t) -> c_phase (cl t c) = PHandle \/ c_phase (cl t c) = PGone;
  r_srv : forall s, In s (sreg t) <-> s_live (sv t s) = true }.

Definition handled (x : client) : Prop := c_phase x = PHandle.
Definition alive (y : server) : Prop := s_live y = true.

Lemma RegOk_parts t :
  RegOk t <-> listed handled (fun x => handled x \/ c_phase x = PGone) (cl t) (creg t) /\ listed alive alive (sv t) (sreg t).
Proof.
  unfold listed. split.
  - intros [N1 N2 RH RS SR]. repeat split; auto; try apply RS; apply SR.
  - intros ((N1 & IC) & N2 & IS). constructor; auto; try (split; apply IS); apply IC.
Qed.

Lemma RegOk_init : RegOk init.
Proof. constructor; simpl; try constructor; try tauto; congruence. Qed.

Lemma RegOk_step cf t o : Wf t -> RegOk t -> RegOk (step cf t o).
Proof.
  intros W R. apply step_inv; [assumption|]. intros En. pose proof (w_zero _ W) as Z. pose proof (w_live _ W) as LV.
  apply RegOk_parts in R. destruct R as [RC RS].
  destruct o; guard_eqs En; cbn [apply]; [destruct ok|..]; split_exit;
    apply RegOk_parts; unfold set_sstate; cbn [cl sv creg sreg]; split.
  all: lazymatch goal with
       | |- listed _ _ (upd _ _ _) (reg_add _ _) => apply listed_add
       | |- listed _ _ (upd _ _ _) (reg_del _ _) => apply listed_drop
       | |- listed _ _ (upd _ ?s _) (_ :: reg_del _ _) => pose proof (LV s); apply listed_cons; [apply listed_del|..]
       | |- listed _ _ (upd _ _ _) _ => apply listed_upd
       | |- listed _ _ _ (reg_del _ _) => apply listed_del
       | _ => idtac
       end; unfold handled, alive; cbn [c_phase s_live]; intuition congruence.
Qed.

Record Own (t : st) : Prop := {
  o_c2s : forall c s, c_held (cl t c) = Some s ->
            s_holder (sv t s) = Some c /\ c_phase (cl t c) = PHandle /\ s_live (sv t s) = true;
  o_s2c : forall c s, s_holder (sv t s) = Some c -> c_held (cl t c) = Some s;
  o_act_c : forall c, c_phase (cl t c) = PHandle -> (c_state (cl t c) = CActive <-> c_held (cl t c) <> None);
  o_act_s : forall s, s_live (sv t s) = true -> (s_state (sv t s) = SActive <-> s_holder (sv t s) <> None);
  o_chk : forall c, c_chk (cl t c) = true -> c_phase (cl t c) = PHandle /\ c_held (cl t c) = None;
  o_wait : forall c, c_phase (cl t c) = PHandle -> c_state (cl t c) = CWaiting -> c_chk (cl t c) = true;
  o_iter : forall c, c_iter (cl t c) = true -> c_chk (cl t c) = true /\ c_state (cl t c) = CWaiting }.

(** [Own] says that every row is consistent by itself and that the two maps point at each other. *)
Definition crow_ok (x : client) : Prop :=
  (c_phase x <> PHandle -> c_held x = None) /\
  (c_phase x = PHandle -> (c_state x = CActive <-> c_held x <> None)) /\
  (c_chk x = true -> c_phase x = PHandle /\ c_held x = None) /\
  (c_phase x = PHandle -> c_state x = CWaiting -> c_chk x = true) /\
  (c_iter x = true -> c_chk x = true /\ c_state x = CWaiting).
Definition srow_ok (y : server) : Prop :=
  (s_live y <> true -> s_holder y = None) /\
  (s_live y = true -> (s_state y = SActive <-> s_holder y <> None)).
Definition linked (f : nat -> client) (g : nat -> server) : Prop :=
  forall c s, c_held (f c) = Some s <-> s_holder (g s) = Some c.

Lemma Own_parts t : Own t <-> (forall c, crow_ok (cl t c)) /\ (forall s, srow_ok (sv t s)) /\ linked (cl t) (sv t).
Proof.
  split.
  - intros [CS SC AC AS CK WT IT]. split; [|split].
    + intros c. split; [|split; [apply AC | split; [apply CK | split; [apply WT | apply IT]]]].
      intros H. destruct (c_held (cl t c)) as [s|] eqn:E; [|reflexivity]. apply CS in E. tauto.
    + intros s. split; [|apply AS].
      intros H. destruct (s_holder (sv t s)) as [c|] eqn:E; [|reflexivity]. apply SC, CS in E. tauto.
    + intros c s. split; [intros H; apply CS, H | apply SC].
  - intros (RC & RS & L). constructor; try apply RC; try apply RS; try apply L.
    intros c s H. split; [apply L, H | split].
    + destruct (RC c) as [H1 _]. destruct (c_phase (cl t c)); try reflexivity; rewrite H1 in H; discriminate.
    + apply L in H. destruct (RS s) as [H1 _]. destruct (s_live (sv t s)); [reflexivity | rewrite H1 in H; discriminate].
Qed.

(** A row rewritten without a change of what it points at; and rows [c] and [s] rewritten together, pointing at
    each other or at nothing, before and after. *)
Lemma linked_cl f g c x : linked f g -> c_held x = c_held (f c) -> linked (upd f c x) g.
Proof. intros L E k s. unfold upd. destruct (Nat.eqb_spec k c) as [->|_]; [rewrite E|]; apply L. Qed.
Lemma linked_sv f g s y : linked f g -> s_holder y = s_holder (g s) -> linked f (upd g s y).
Proof. intros L E c k. unfold upd. destruct (Nat.eqb_spec k s) as [->|_]; [rewrite E|]; apply L. Qed.
Lemma linked_pair f g c s x y :
  linked f g -> c_held (f c) = None /\ s_holder (g s) = None \/ c_held (f c) = Some s ->
  c_held x = Some s /\ s_holder y = Some c \/ c_held x = None /\ s_holder y = None ->
  linked (upd f c x) (upd g s y).
Proof.
  intros L B A c' s'. unfold upd. destruct (Nat.eqb_spec c' c) as [->|], (Nat.eqb_spec s' s) as [->|].
  - clear L B. intuition congruence.
  - specialize (L c s'). intuition congruence.
  - pose proof (L c s). specialize (L c' s). intuition congruence.
  - apply L.
Qed.

Lemma Own_init : Own init.
Proof. constructor; simpl; intros; congruence. Qed.

(** Side conditions on single rows: each condition on the new row, taken by itself, is a propositional consequence
    of the guard and of the old row (by cases on the flag the new row branches on, if any). *)
Ltac rows :=
  unfold crow_ok, srow_ok in *; cbn in *;
  lazymatch goal with |- context [if ?b then _ else _] => destruct b | _ => idtac end;
  repeat split; intros; try congruence; intuition (try congruence).

Lemma Own_step cf t o : Wf t -> Own t -> Own (step cf t o).
Proof.
  intros W O. apply step_inv; [assumption|]. intros En. pose proof (w_live _ W) as LV.
  apply Own_parts in O. destruct O as (RC & RS & L).
  destruct o; guard_eqs En; cbn [apply]; split_exit; apply Own_parts; cbn [cl sv]; (split; [|split]).
  all: lazymatch goal with
       | |- forall _, crow_ok (upd _ ?c _ _) => apply upd_all; [assumption | first [exact (RC c) | specialize (RC c); clear RS L LV]]
       | |- forall _, srow_ok (upd _ ?s _ _) => apply upd_all; [assumption | first [exact (RS s) | specialize (RS s); clear RC L LV]]
       | |- linked (upd _ ?c _) (upd _ ?s _) => apply linked_pair; [assumption | specialize (L c s); clear RC RS LV..]
       | |- linked (upd _ ?c _) _ => apply linked_cl; [assumption | specialize (RC c); clear RS L LV]
       | |- linked _ (upd _ ?s _) => apply linked_sv; [assumption | specialize (RS s); specialize (LV s); clear RC L]
       | _ => assumption
       end; rows.
Qed.
