(** C19 — property theorems only.  Each is a short derivation from the general lemmas of
    Proofs.v (or, for the regressions and refutation witnesses, a computation) and is audited
    with [Print Assumptions]. *)
From Coq Require Import ZArith NArith List Bool Lia.
From PV Require Import Plugin.Model Plugin.Spec Plugin.Proofs.
Import ListNotations.

(** Completeness of table_access on names: every spelling (case, quoting, schema /
    catalog qualification, any script, any length) that PostgreSQL (UTF8 database) resolves
    to a listed table is matched.  [utf8] is not a restriction of the code's domain: a Rust
    String always satisfies it, PostgreSQL rejects anything else in a UTF8 database. *)
Theorem c19_name_complete : forall blocked nm i,
  last_ident nm = Some i -> utf8 (text i) ->
  In (pg_resolve i) blocked -> matches blocked nm = true.
Proof.
  intros blocked nm i Hl Hu Hin. unfold matches. rewrite table_name_last, Hl.
  apply mem_In. rewrite <- resolve_is_table_name by assumption. exact Hin.
Qed.
Print Assumptions c19_name_complete.

(** No over-blocking: a matched name does resolve to a listed table. *)
Theorem c19_name_sound : forall blocked nm, matches blocked nm = true ->
  exists i, last_ident nm = Some i /\ (utf8 (text i) -> In (pg_resolve i) blocked).
Proof.
  intros blocked nm.
  unfold matches. rewrite table_name_last. destruct (last_ident nm) as [i|]; [|discriminate].
  intros H. exists i. split; [reflexivity|]. intros Hu.
  rewrite resolve_is_table_name by assumption. apply mem_In. exact H.
Qed.
Print Assumptions c19_name_sound.

(** pgcat's clipping (back off from byte 63 to a character boundary) is PostgreSQL's
    pg_mbcliplen (walk whole characters while they fit). *)
Theorem c19_clip_is_truncate : forall s, utf8 s -> pg_truncate s = clip63 s.
Proof. exact clip_is_truncate. Qed.
Print Assumptions c19_clip_is_truncate.

Definition secrEt : bytes := [115; 101; 99; 114; 195; 137; 116]%N.   (* s e c r U+00C9 t *)

(** Regressions for the two repaired name defects (3943b22): a listed table with a capital
    E-acute spelled unquoted exactly as listed; a 63-byte listed name spelled with one more
    character; a 64-byte spelling whose 63rd/64th bytes are one 2-byte character (both sides
    keep 62 bytes). *)
Example c19_nonascii_fixed :
  utf8b 7 secrEt = true /\ pg_resolve (mkIdent secrEt false) = secrEt /\ matches [secrEt] [mkIdent secrEt false] = true.
Proof. vm_compute. repeat split. Qed.

Example c19_truncation_fixed :
  pg_resolve (mkIdent (repeat 97%N 64) false) = repeat 97%N 63 /\
  matches [repeat 97%N 63] [mkIdent (repeat 97%N 64) false] = true /\
  matches [repeat 97%N 63] [mkIdent (repeat 65%N 70) false] = true /\
  pg_resolve (mkIdent (repeat 97%N 62 ++ [195; 137]%N) true) = repeat 97%N 62 /\
  matches [repeat 97%N 62] [mkIdent (repeat 97%N 62 ++ [195; 137]%N) true] = true.
Proof. vm_compute. repeat split. Qed.

(** Message level: if ANY relation the plugin is shown (by sqlparser's visitor, or the
    COPY/DROP names it extracts itself) in ANY statement of the message matches, the
    verdict is not Allow.  That the visitor shows every relation a statement mentions is
    the assumption on sqlparser that the correspondence tests shape by shape. *)
Theorem c19_message_blocked : forall pc user db ast nm,
  ta_present pc = true -> ta_enabled pc = true ->
  In nm (flat_map st_explicit ast ++ flat_map st_visited ast) ->
  matches (ta_tables pc) nm = true ->
  execute_plugins (Some pc) user db ast <> PAllow.
Proof.
  intros pc user db ast nm Hp He Hin Hm. unfold execute_plugins. rewrite Hp, He.
  destruct (if ic_present pc then _ else _); [|discriminate].
  destruct (ta_verdict true _ _ _) eqn:E; [discriminate|].
  rewrite (ta_verdict_none _ _ _ E nm Hin) in Hm. discriminate.
Qed.
Print Assumptions c19_message_blocked.

Theorem c19_deny_sound : forall pc user db ast msg,
  execute_plugins pc user db ast = PDeny msg ->
  exists pc' nm t, pc = Some pc' /\ In nm (flat_map st_explicit ast ++ flat_map st_visited ast) /\
                   matches (ta_tables pc') nm = true /\ table_name nm = Some t /\ msg = deny_message t.
Proof.
  intros pc user db ast msg.
  unfold execute_plugins. destruct pc as [pc|]; [|discriminate].
  destruct (if ic_present pc then _ else _); try discriminate.
  destruct (ta_present pc); [|discriminate].
  destruct (ta_verdict _ _ _ _) as [t|] eqn:E; [|discriminate].
  intros H. injection H as <-. destruct (ta_verdict_some _ _ _ _ _ E) as (nm & Hin & Hm & Ht).
  exists pc, nm, t. repeat split; assumption.
Qed.
Print Assumptions c19_deny_sound.

(** For EVERY sequence of client messages (any mix of Q, custom commands and P/B/D/E/C/S/H,
    any position, inside or outside transactions, transaction or session pooling,
    prepared-statement caching on or off, failing checkouts, any session parser override):
    a message that pgcat parsed and the plugins rejected is never written to a server -
    neither the client's own Q/P message nor a Parse that pgcat itself re-sends for a
    Bind/Describe from the client's prepared-statement map.  (A Q/P in the trace carries
    [parsed] = the session parses messages AND sqlparser accepts the text.) *)
Theorem c19_enforced : forall c ops it, In it (forwarded (trace c ops)) -> bad_item c it = false.
Proof. exact enforced. Qed.
Print Assumptions c19_enforced.

(** Which messages are parsed (QueryRouter::parses_messages, 2a7a370).  With the pool's
    parser on and plugins configured: every message, whatever SET SERVER ROLE did to the
    session's override - the verdict does not depend on the override ... *)
Theorem c19_override_cannot_disable_plugins : forall c s m,
  parser_on c = true -> plugins_on c = true -> arrive_with parses c s m = m.
Proof. intros c s m H1 H2. apply arrive_parsed, parses_pool; assumption. Qed.
Print Assumptions c19_override_cannot_disable_plugins.

(** ... and with the pool's parser off, SET SERVER ROLE TO 'auto' turns the session's parser
    on: messages are parsed, and the plugins the pool inherited run, from then on. *)
Theorem c19_auto_enables_plugins : forall c s m, ov s = Some true -> arrive_with parses c s m = m.
Proof. intros c s m H. apply arrive_parsed. unfold parses, qpe. rewrite H. reflexivity. Qed.
Print Assumptions c19_auto_enables_plugins.

(** Regression for F35 (repaired by 2a7a370): the old gate (the session's parser only) as a
    mutant of the model.  After SET SERVER ROLE TO 'primary' the denied query is forwarded by
    the mutant and answered with the permission error by the model; same for a batch, for
    'replica' (there the checkout fails first) and 'any'; 'auto' and 'default' were fine. *)
Definition c_std : cfg := mkCfg true true false true.
Example c19_set_server_role_old_refuted :
  snd (run_with parses_old c_std init [MCmd 1 (CRole RPrimary true) true false; MQ 2 true (Deny 2) true false]) =
    [EvCmd; EvCheckout; EvFwd [FMsg (MQ 2 false (Deny 2) true false)]; EvRelease] /\
  trace c_std [MCmd 1 (CRole RPrimary true) true false; MQ 2 true (Deny 2) true false] = [EvCmd; EvErr (EPlugin 2)] /\
  snd (run_with parses_old c_std init [MCmd 1 (CRole RAny true) true false; MP 2 0 7 true (Intercept 2); MB 3 0; ME 4; MS 5 true false]) =
    [EvCmd; EvCheckout; EvFwd [FMsg (MP 2 0 7 false (Intercept 2)); FMsg (MB 3 0); FMsg (ME 4); FMsg (MS 5 true false)]; EvRelease] /\
  trace c_std [MCmd 1 (CRole RAny true) true false; MP 2 0 7 true (Intercept 2); MB 3 0; ME 4; MS 5 true false] = [EvCmd; EvIntercept 2] /\
  trace c_std [MCmd 1 (CRole RReplica false) true false; MQ 2 true (Deny 2) true false; MQ 3 true Allow true false] =
    [EvCmd; EvErr (EPlugin 2); EvErr EPool].
Proof. repeat split. Qed.

(** pool parser off + plugins inherited from the global section: inert until the session says
    SET SERVER ROLE TO 'auto', enforced from then on, inert again after 'default' *)
Example c19_auto_with_pool_parser_off :
  trace (mkCfg false true false true)
        [MQ 1 true (Deny 1) true false; MCmd 2 (CRole RAuto true) true false; MQ 3 true (Deny 3) true false;
         MCmd 4 (CRole RDefault true) true false; MQ 5 true (Deny 5) true false] =
  [EvCheckout; EvFwd [FMsg (MQ 1 false (Deny 1) true false)]; EvRelease; EvCmd; EvErr (EPlugin 3); EvCmd;
   EvCheckout; EvFwd [FMsg (MQ 5 false (Deny 5) true false)]; EvRelease].
Proof. reflexivity. Qed.

(** When a pending verdict is consumed, no rejected Parse is left in the client's map
    (0acefb2): a later Bind/Describe of such a name finds nothing. *)
Theorem c19_rejected_names_forgotten : forall c ops n p,
  In (n, p) (ps (consume (fst (run c init ops)))) -> bad_msg c p = false.
Proof. intros c ops n p. apply consumed_map_clean. apply run_Inv. apply Inv_init. Qed.
Print Assumptions c19_rejected_names_forgotten.

Definition c_ps : cfg := mkCfg true true true true.
Definition denied_parse : msg := MP 1 1 7 true (Deny 1).
(** Regression for the repaired replay: Parse(s1, denied) Sync, then Bind(s1) Execute Sync.
    The Bind is answered "does not exist" and the task ends; nothing is forwarded. *)
Example c19_ps_cache_fixed :
  trace c_ps [denied_parse; MS 2 true false; MB 3 1; ME 4; MS 5 true false] =
  [EvErr (EPlugin 1); EvErr EUnknownStmt; EvEnd].
Proof. reflexivity. Qed.

(** ... and a name that meant an allowed statement before is forgotten too when a rejected
    Parse re-used it (the client has to prepare it again). *)
Example c19_reused_name_forgotten :
  trace c_ps [MP 1 1 7 true Allow; MS 2 true false; MP 3 1 8 true (Deny 3); MS 4 true false; MB 5 1] =
  [EvCheckout; EvFwd [FMsg (MP 1 1 7 true Allow); FMsg (MS 2 true false)]; EvRelease;
   EvErr (EPlugin 3); EvErr EUnknownStmt; EvEnd].
Proof. reflexivity. Qed.

(** A batch with a pending Deny/Intercept is dropped as a whole: no message buffered so
    far is forwarded later, whatever the client sends next (fresh message ids). *)
Theorem c19_batch_dropped : forall c s ops m,
  is_allow (pout s) = false ->
  (forall x, In x ops -> ~ In (msg_id x) (ids (bmsgs s))) ->
  In (FMsg m) (forwarded (snd (run c s ops))) -> ~ In (msg_id m) (ids (bmsgs s)).
Proof. intros c s ops m Hp Hf. apply batch_dropped_gen; [left; exact Hp|exact Hf]. Qed.
Print Assumptions c19_batch_dropped.

(** A rejected simple query is answered at once (error or rows), in either loop, and
    nothing else happens. *)
Theorem c19_q_answered : forall c s id parsed v po tx,
  dead s = false -> eff c (parsed && parses c s) v <> Allow ->
  step c s (MQ id parsed v po tx) =
    (s, [match eff c (parsed && parses c s) v with Deny t => EvErr (EPlugin t) | Intercept t => EvIntercept t | Allow => EvEnd end]).
Proof.
  intros c s id parsed v po tx Hd He. unfold step, step_with, step_core. cbn [arrive_with]. rewrite Hd. destruct (held s); cbn [step_inner step_outer];
    destruct (eff c (parsed && parses c s) v); try reflexivity; contradiction.
Qed.
Print Assumptions c19_q_answered.

Theorem c19_sync_answers_deny : forall c s id po tx t,
  dead s = false -> pout s = Deny t -> step c s (MS id po tx) = (consume s, [EvErr (EPlugin t)]).
Proof. intros c s id po tx t Hd Hp. rewrite sync_answers by congruence. rewrite Hp. reflexivity. Qed.
Print Assumptions c19_sync_answers_deny.

Theorem c19_sync_answers_intercept : forall c s id po tx t,
  dead s = false -> pout s = Intercept t -> step c s (MS id po tx) = (consume s, [EvIntercept t]).
Proof. intros c s id po tx t Hd Hp. rewrite sync_answers by congruence. rewrite Hp. reflexivity. Qed.
Print Assumptions c19_sync_answers_intercept.

(** No stale verdict: a non-Allow verdict is pending only while the batch that earned it is
    still buffered - also across failed checkouts (before a7d476c a failed checkout at Sync
    kept an Intercept verdict and the next, unrelated batch was answered with the old
    rows; the wire check saw exactly that). *)
Theorem c19_no_stale_verdict : forall c ops, fresh (fst (run c init ops)).
Proof. intros c ops. apply no_stale_from. intros H. discriminate. Qed.
Print Assumptions c19_no_stale_verdict.

(** ... concretely: intercepted batch, Sync while the pool is exhausted, then an unrelated
    batch: rows for the first, server reply for the second. *)
Example c19_stale_intercept_fixed :
  trace (mkCfg true true false true)
        [MP 1 0 7 true (Intercept 1); MS 2 false false; MP 3 0 8 true Allow; MB 4 0; ME 5; MS 6 true false] =
  [EvIntercept 1; EvCheckout;
   EvFwd [FMsg (MP 3 0 8 true Allow); FMsg (MB 4 0); FMsg (ME 5); FMsg (MS 6 true false)]; EvRelease].
Proof. reflexivity. Qed.

(** "answered with a permission error" is NOT always what a denied Parse gets: behind an
    intercepted Parse of the same batch the client receives the rows instead (nothing is
    forwarded either way). *)
Theorem c19_deny_masked_by_intercept : exists c ops,
  existsb (bad_msg c) ops = true /\ forwarded (trace c ops) = [] /\
  forallb (fun e => match e with EvErr _ => false | _ => true end) (trace c ops) = true.
Proof.
  exists (mkCfg true true false true), [MP 1 0 7 true (Intercept 1); MP 2 0 8 true (Deny 2); MB 3 0; ME 4; MS 5 true false].
  vm_compute. repeat split.
Qed.
Print Assumptions c19_deny_masked_by_intercept.

(** The reply to an intercepted message, read the way a frontend reads it, is exactly:
    for every (statement, matching rule) pair in order, RowDescription of the configured
    columns, one DataRow per configured row (empty string = NULL, placeholders
    substituted), CommandComplete SELECT; then ReadyForQuery(idle).  At least one rule
    matched. *)
Theorem c19_intercept_exact : forall enabled user db rules stmts reply,
  intercept_run enabled user db rules stmts = IReply reply ->
  Forall (wf_rule user db) (matched_rules rules stmts) ->
  matched_rules rules stmts <> [] /\
  read_reply reply = Some (flat_map (expected_of user db) (matched_rules rules stmts) ++ [ReadyForQuery 73%N]).
Proof.
  intros enabled user db rules stmts reply H Hwf. unfold intercept_run in H. destruct (negb enabled); [discriminate|].
  destruct stmts as [|q0 st]; [discriminate|]. rewrite intercept_body_matched in H.
  set (ms := matched_rules rules (q0 :: st)) in *. split.
  - intros E. rewrite E in H. discriminate.
  - assert (reply = concat (map (rule_reply user db) ms) ++ rfq_idle) as ->
      by (destruct (concat _); [discriminate|injection H as <-; reflexivity]).
    apply reads_read_reply, reads_app; [apply body_reads; exact Hwf|exact reads_rfq_idle].
Qed.
Print Assumptions c19_intercept_exact.

(** Intercept is consulted before table_access (execute_plugins): a statement that matches
    an intercept rule gets its rows even when it names a listed table - the shipped example
    intercepts queries on the very catalogs it lists. *)
Theorem c19_intercept_before_table_access : forall pc user db ast b,
  ic_present pc = true -> intercept_run (ic_enabled pc) user db (ic_rules pc) (map st_norm ast) = IReply b ->
  execute_plugins (Some pc) user db ast = PIntercept b.
Proof. intros pc user db ast b Hp Hi. unfold execute_plugins. rewrite Hp, Hi. reflexivity. Qed.
Print Assumptions c19_intercept_before_table_access.

Theorem c19_intercept_only_matching : forall enabled user db rules stmts,
  matched_rules rules stmts = [] -> intercept_run enabled user db rules stmts = IAllow.
Proof.
  intros enabled user db rules stmts H. unfold intercept_run. destruct (negb enabled); [reflexivity|].
  destruct stmts; [reflexivity|]. rewrite intercept_body_matched, H. reflexivity.
Qed.
Print Assumptions c19_intercept_only_matching.

(** No [plugins] section => execute_plugins allows everything; without an effective plugins
    section the machine never answers on a plugin's behalf, no message counts as
    rejected, and a simple query goes to the server. *)
Theorem c19_plugins_none_allow : forall user db ast, execute_plugins None user db ast = PAllow.
Proof. reflexivity. Qed.
Print Assumptions c19_plugins_none_allow.

(** Per pool: the pool's own plugins section replaces the global one (pool.rs from_config);
    a pool that switches the plugins off in its own section is not filtered by the global
    lists; a pool without a section inherits the global one. *)
Theorem c19_pool_section_wins : forall g pc, effective_plugins g (Some pc) = Some pc.
Proof. reflexivity. Qed.
Print Assumptions c19_pool_section_wins.

Theorem c19_pool_inherits_global : forall g, effective_plugins g None = g.
Proof. reflexivity. Qed.
Print Assumptions c19_pool_inherits_global.

Theorem c19_pool_disabled_noop : forall g pc user db ast,
  ta_present pc && ta_enabled pc = false -> ic_present pc && ic_enabled pc = false ->
  execute_plugins (effective_plugins g (Some pc)) user db ast = PAllow.
Proof.
  intros g pc user db ast Ht Hi. cbn [effective_plugins]. unfold execute_plugins, intercept_run, ta_verdict.
  destruct (ic_present pc); cbn [andb] in Hi; [rewrite Hi; cbn [negb]|];
    (destruct (ta_present pc); cbn [andb] in Ht; [rewrite Ht; reflexivity|reflexivity]).
Qed.
Print Assumptions c19_pool_disabled_noop.

Theorem c19_disabled_noop : forall c ops, disabled c ->
  forallb (fun e => negb (plugin_event e)) (trace c ops) = true /\
  (forall m, bad_msg c m = false) /\
  (forall s id p v tx, dead s = false -> pout s = Allow -> role_ok s = true ->
     In (EvFwd [FMsg (MQ id (p && parses c s) v true tx)]) (snd (step c s (MQ id p v true tx)))).
Proof.
  intros c ops Hd. split; [apply disabled_quiet_from; [exact Hd|reflexivity]|].
  split; [intros m; apply disabled_not_bad; exact Hd|]. intros. apply allowed_q_forwarded; auto using disabled_eff.
Qed.
Print Assumptions c19_disabled_noop.

(** The pool's parser off and no SET SERVER ROLE TO 'auto' in the session: nothing is parsed,
    nothing is ever answered by a plugin. *)
Theorem c19_parser_off_noop : forall c ops, parser_on c = false ->
  forallb (fun m => negb (is_auto m)) ops = true ->
  forallb (fun e => negb (plugin_event e)) (trace c ops) = true.
Proof. intros c ops H1 H2. apply parser_off_quiet_from; try assumption; [reflexivity|discriminate]. Qed.
Print Assumptions c19_parser_off_noop.

Definition s_secret : bytes := [115; 101; 99; 114; 101; 116]%N.
Definition S_SECRET : bytes := [83; 69; 67; 82; 69; 84]%N.
Definition s_public : bytes := [112; 117; 98; 108; 105; 99]%N.

(** spellings: SECRET, "secret", public.SECRET are blocked, "SECRET" is another table *)
Example c19_spellings :
  matches [s_secret] [mkIdent S_SECRET false] = true /\
  matches [s_secret] [mkIdent s_secret true] = true /\
  matches [s_secret] [mkIdent s_public false; mkIdent S_SECRET false] = true /\
  matches [s_secret] [mkIdent S_SECRET true] = false /\
  pg_resolve (mkIdent S_SECRET true) = S_SECRET /\ pg_resolve (mkIdent S_SECRET false) = s_secret.
Proof. vm_compute. repeat split. Qed.

(** the repaired overwrite: P(denied) P(allowed) B E S — nothing forwarded, error sent *)
Example c19_overwrite_fixed :
  trace c_std [MP 1 0 7 true (Deny 1); MP 2 0 8 true Allow; MB 3 0; ME 4; MS 5 true false] = [EvErr (EPlugin 1)].
Proof. reflexivity. Qed.

(** an allowed batch IS forwarded (the theorem is not vacuous), in a transaction too *)
Example c19_allowed_forwarded :
  forwarded (trace c_std [MQ 1 true Allow true true; MP 2 0 8 true Allow; MB 3 0; ME 4; MS 5 true true;
                          MQ 6 true (Deny 6) true true; MQ 7 true Allow true false]) =
  [FMsg (MQ 1 true Allow true true); FMsg (MP 2 0 8 true Allow); FMsg (MB 3 0); FMsg (ME 4); FMsg (MS 5 true true);
   FMsg (MQ 7 true Allow true false)].
Proof. reflexivity. Qed.

(** the reply for the second example rule of pgcat.toml is readable *)
Definition ex_rule : rule :=
  mkRule [115;101;108;101;99;116;32;49]%N                       (* select 1 *)
         [[ [97]%N; s_text ]; [ [98]%N; s_int4 ]]
         [[ s_user; [] ]; [ [120]%N; [52;50]%N ]].
Example c19_example_reply :
  match intercept_run true [117]%N [100]%N [ex_rule] [[83;69;76;69;67;84;32;49]%N] with
  | IReply b => read_reply b =
      Some [RowDescription [mkCol [97]%N 0 0 25 (-1) (-1) 0; mkCol [98]%N 0 0 23 4 (-1) 0];
            DataRow [Some [117]%N; None]; DataRow [Some [120]%N; Some [52;50]%N];
            CommandComplete s_select; ReadyForQuery 73%N]
  | _ => False
  end.
Proof. vm_compute. reflexivity. Qed.

(** a schema entry without a type (b98e532): no panic, the column has type Any (oid 2276) *)
Example c19_short_schema_reply :
  match intercept_run true [117]%N [100]%N [mkRule [115]%N [[ [97]%N ]; []] [[ [49]%N; [50]%N ]]] [[83]%N] with
  | IReply b => read_reply b =
      Some [RowDescription [mkCol [97]%N 0 0 2276 (-1) (-1) 0; mkCol [] 0 0 2276 (-1) (-1) 0];
            DataRow [Some [49]%N; Some [50]%N]; CommandComplete s_select; ReadyForQuery 73%N]
  | _ => False
  end.
Proof. vm_compute. reflexivity. Qed.

(* pg_database, and "select datname from pg_database" as sqlparser renders it *)
Definition s_pg_database : bytes := [112;103;95;100;97;116;97;98;97;115;101]%N.
Definition q_datname : bytes :=
  [83;69;76;69;67;84;32;100;97;116;110;97;109;101;32;70;82;79;77;32;112;103;95;100;97;116;97;98;97;115;101]%N.
Example c19_intercepted_listed_table :
  let pc := mkPcfg true true [mkRule q_datname [[ [100]%N; s_text ]] [[ [120]%N ]]] true true [s_pg_database] in
  let st := mkStmt q_datname [] [[mkIdent s_pg_database false]] in
  (match execute_plugins (Some pc) [117]%N [100]%N [st] with PIntercept _ => true | _ => false end) = true /\
  execute_plugins (Some (mkPcfg false false [] true true [s_pg_database])) [117]%N [100]%N [st] = PDeny (deny_message s_pg_database).
Proof. vm_compute. split; reflexivity. Qed.

(** Across a RELOAD (c3cef0c): every statement a connected session sends afterwards is judged
    by the new file's plugins section - whatever settings the session held before, simple or
    extended, first statement or later. *)
Theorem c19_reload_follows_new : forall ops f, rrun f ops = map rnew ops.
Proof. exact reload_follows_new. Qed.
Print Assumptions c19_reload_follows_new.

Theorem c19_reload_fresh_follows_new : forall ops,
  forallb (fun o => match o with RReload => false | _ => true end) ops = true -> rrun true ops = map rnew ops.
Proof. intros ops _. apply reload_follows_new. Qed.
Print Assumptions c19_reload_fresh_follows_new.

Theorem c19_reload_checkout_refreshes : forall f o f', rstep f o = (f', OFwd) -> f' = true.
Proof. intros f o f'. destruct o; cbn [rstep]; congruence. Qed.
Print Assumptions c19_reload_checkout_refreshes.

(** Regression for C19-reload-stale-settings: the old refresh point (only at a checkout) as a
    mutant.  It forwarded the first extended batch on a table the reload had just listed and
    kept denying what the new file allows; the model answers by the new file at once. *)
Example c19_reload_stale_old_refuted :
  rrun_with rstep_old true [RReload; RBatch Allow (Deny 1); RBatch Allow (Deny 1)] = [ONone; OFwd; ODeny 1] /\
  rrun true [RReload; RBatch Allow (Deny 1); RBatch Allow (Deny 1)] = [ONone; ODeny 1; ODeny 1] /\
  rrun_with rstep_old true [RReload; RQ (Deny 1) Allow; RBatch (Deny 1) Allow] = [ONone; ODeny 1; ODeny 1] /\
  rrun true [RReload; RQ (Deny 1) Allow; RBatch (Deny 1) Allow] = [ONone; OFwd; OFwd].
Proof. repeat split. Qed.
