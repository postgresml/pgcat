(** C19 — the lemmas behind Props.v.  (1) The name pgcat compares with the list is PostgreSQL's
    resolution of the last identifier.  (2) [reads]: the intercept reply, read as a frontend
    reads it, is what the rule says.  (3) Every step of the enforcement machine is of one of
    six kinds ([stepped]); where forwarded items come from ([ok_step]), the invariant [Inv]
    and silence of the plugins are read off the six kinds, and whole runs follow by
    [run_with_inv].  (4) Settings across a RELOAD. *)
From Coq Require Import ZArith NArith List Bool Lia.
From PV Require Import Plugin.Model Plugin.Spec.
Import ListNotations.

(** * 1. names                                                                 *)

Lemma bytes_eqb_eq a b : bytes_eqb a b = true <-> a = b.
Proof.
  revert b. induction a as [|x a IH]; intros [|y b]; cbn [bytes_eqb]; split; intros H;
    try reflexivity; try discriminate.
  - apply andb_true_iff in H. destruct H as [H1 H2]. apply N.eqb_eq in H1. apply IH in H2. congruence.
  - injection H as -> ->. rewrite N.eqb_refl. cbn [andb]. apply IH. reflexivity.
Qed.

Lemma mem_In t l : mem t l = true <-> In t l.
Proof.
  unfold mem. rewrite existsb_exists. split.
  - intros (x & Hx & E). apply bytes_eqb_eq in E. subst. exact Hx.
  - intros H. exists t. split; [exact H|]. apply bytes_eqb_eq. reflexivity.
Qed.

Lemma table_name_last nm : table_name nm =
  match last_ident nm with
  | Some i => Some (clip63 (if quoted i then text i else rust_lower (text i)))
  | None => None
  end.
Proof. unfold table_name, last_ident. destruct (rev nm); reflexivity. Qed.

(** ** pgcat's back-off to a character boundary = PostgreSQL's character walk *)

Lemma clen_pos c : 1 <= clen c.
Proof. unfold clen. repeat match goal with |- context [if ?b then _ else _] => destruct b end; lia. Qed.

Lemma is_cont_0 : is_cont 0%N = false.
Proof. reflexivity. Qed.

Lemma backoff_all_cont n s : (forall k, 1 <= k <= n -> is_cont (@nth byte k s 0%N) = true) -> backoff n s = 0.
Proof.
  induction n as [|n IH]; intros H; [reflexivity|].
  cbn [backoff]. rewrite (H (S n)) by lia. apply IH. intros k Hk. apply H. lia.
Qed.

Lemma backoff_shift pre rest j :
  match rest with [] => True | h :: _ => is_cont h = false end ->
  backoff (length pre + j) (pre ++ rest) = length pre + backoff j rest.
Proof.
  intros Hh. induction j as [|j IH].
  - rewrite Nat.add_0_r. cbn [backoff]. rewrite Nat.add_0_r.
    destruct (length pre) as [|k] eqn:E; [reflexivity|].
    cbn [backoff]. rewrite <- E. rewrite app_nth2 by lia. rewrite Nat.sub_diag.
    destruct rest as [|h r]; cbn [nth]; [rewrite is_cont_0; reflexivity|rewrite Hh; reflexivity].
  - rewrite Nat.add_succ_r. cbn [backoff]. rewrite <- Nat.add_succ_r.
    rewrite app_nth2 by lia. replace (length pre + S j - length pre) with (S j) by lia.
    destruct (is_cont (@nth byte (S j) rest 0%N)); [exact IH|reflexivity].
Qed.

Lemma utf8_head s : utf8 s -> match s with [] => True | h :: _ => is_cont h = false end.
Proof. destruct 1; [exact I|assumption]. Qed.

Lemma walk_backoff s : utf8 s -> forall fuel n, n < fuel -> n < length s -> walk fuel n s = backoff n s.
Proof.
  induction 1 as [|c conts rest Hc Hl Hconts Hrest IH]; intros fuel n Hf Hn; [cbn in Hn; lia|].
  destruct fuel as [|f]; [lia|]. cbn [walk].
  pose proof (clen_pos c) as Hp.
  assert (Hlen: length (c :: conts) = clen c) by (cbn [length]; lia).
  change (c :: conts ++ rest) with ((c :: conts) ++ rest) in *.
  destruct (Nat.ltb_spec n (clen c)) as [Hlt|Hge].
  - symmetry. apply backoff_all_cont. intros k Hk.
    rewrite app_nth1 by lia. destruct k as [|k]; [lia|]. cbn [nth].
    rewrite Forall_forall in Hconts. apply Hconts. apply nth_In. lia.
  - rewrite app_length, Hlen in Hn.
    assert (Hh: match rest with [] => True | h :: _ => is_cont h = false end) by (apply utf8_head; exact Hrest).
    destruct (Nat.eqb_spec n (clen c)) as [->|Hne].
    + rewrite <- Hlen at 2. rewrite <- (Nat.add_0_r (length (c :: conts))).
      rewrite backoff_shift by exact Hh. cbn [backoff]. lia.
    + assert (E: skipn (clen c) ((c :: conts) ++ rest) = rest).
      { rewrite <- Hlen. rewrite skipn_app, Nat.sub_diag, skipn_all. reflexivity. }
      rewrite E. rewrite IH by lia.
      replace n with (length (c :: conts) + (n - clen c)) at 2 by lia.
      rewrite backoff_shift by exact Hh. lia.
Qed.

Lemma backoff_len s : backoff (length s) s = length s.
Proof.
  destruct (length s) as [|k] eqn:E; [reflexivity|]. cbn [backoff].
  rewrite nth_overflow by lia. rewrite is_cont_0. reflexivity.
Qed.

Lemma clip_is_truncate s : utf8 s -> pg_truncate s = clip63 s.
Proof.
  intros H. unfold pg_truncate, clip63. destruct (Nat.leb_spec (length s) 63) as [Hle|Hgt].
  - rewrite Nat.min_l by exact Hle. rewrite backoff_len, firstn_all. reflexivity.
  - rewrite Nat.min_r by lia. rewrite (walk_backoff s H 64 63) by lia. reflexivity.
Qed.

Lemma lower_cont c : is_cont (lower_ascii c) = is_cont c.
Proof.
  unfold lower_ascii, is_upper, is_cont.
  destruct (N.leb_spec 65 c), (N.leb_spec c 90); cbn [andb]; try reflexivity.
  destruct (N.leb_spec 128 (c + 32)), (N.leb_spec 128 c); cbn [andb]; try reflexivity; try lia.
Qed.

Lemma lower_clen c : clen (lower_ascii c) = clen c.
Proof.
  unfold lower_ascii, is_upper.
  destruct (N.leb_spec 65 c), (N.leb_spec c 90); cbn [andb]; try reflexivity.
  unfold clen. destruct (N.ltb_spec (c + 32) 128), (N.ltb_spec c 128); try reflexivity; lia.
Qed.

Lemma utf8_fold s : utf8 s -> utf8 (map lower_ascii s).
Proof.
  induction 1 as [|c conts rest Hc Hl Hconts Hrest IH]; [constructor|].
  cbn [map]. rewrite map_app. constructor.
  - rewrite lower_cont. exact Hc.
  - rewrite map_length, lower_clen. exact Hl.
  - rewrite Forall_forall in *. intros b Hb. apply in_map_iff in Hb. destruct Hb as (x & <- & Hx).
    rewrite lower_cont. apply Hconts. exact Hx.
  - exact IH.
Qed.

Lemma utf8b_sound fuel : forall s, utf8b fuel s = true -> utf8 s.
Proof.
  induction fuel as [|f IH]; intros [|c r] H; try constructor; [discriminate|].
  cbn [utf8b] in H. repeat (apply andb_true_iff in H; destruct H as [H ?]).
  rewrite <- (firstn_skipn (clen c - 1) r). constructor.
  - apply negb_true_iff. exact H.
  - apply firstn_length_le. apply Nat.leb_le. assumption.
  - apply Forall_forall. intros b Hb. match goal with Hf: forallb _ _ = true |- _ => rewrite forallb_forall in Hf; apply Hf; exact Hb end.
  - apply IH. assumption.
Qed.

Lemma resolve_is_table_name i : utf8 (text i) ->
  pg_resolve i = clip63 (if quoted i then text i else rust_lower (text i)).
Proof.
  intros H. unfold pg_resolve, pg_fold, rust_lower. apply clip_is_truncate.
  destruct (quoted i); [exact H|apply utf8_fold; exact H].
Qed.

Lemma first_match_none blocked names :
  first_match blocked names = None -> forall nm, In nm names -> matches blocked nm = false.
Proof.
  induction names as [|n r IH]; intros H nm Hin; [destruct Hin|].
  cbn [first_match] in H. destruct (matches blocked n) eqn:E.
  - unfold matches in E. destruct (table_name n); discriminate.
  - destruct Hin as [<-|Hin]; [exact E|]. apply IH; assumption.
Qed.

Lemma first_match_some blocked names t :
  first_match blocked names = Some t ->
  exists nm, In nm names /\ matches blocked nm = true /\ table_name nm = Some t.
Proof.
  induction names as [|n r IH]; intros H; [discriminate|].
  cbn [first_match] in H. destruct (matches blocked n) eqn:E.
  - exists n. split; [left; reflexivity|]. split; assumption.
  - destruct (IH H) as (nm & Hin & Hm & Ht). exists nm. split; [right; exact Hin|]. split; assumption.
Qed.

(** table_access looks at every name it is shown, and a Deny cites a listed one *)
Lemma ta_verdict_none blocked explicit visited :
  ta_verdict true blocked explicit visited = None ->
  forall nm, In nm (explicit ++ visited) -> matches blocked nm = false.
Proof.
  unfold ta_verdict. cbn [negb]. destruct (first_match blocked visited) eqn:E1; [discriminate|].
  intros E2 nm Hin. apply in_app_or in Hin. destruct Hin as [Hin|Hin];
    [exact (first_match_none _ _ E2 nm Hin)|exact (first_match_none _ _ E1 nm Hin)].
Qed.

Lemma ta_verdict_some enabled blocked explicit visited t :
  ta_verdict enabled blocked explicit visited = Some t ->
  exists nm, In nm (explicit ++ visited) /\ matches blocked nm = true /\ table_name nm = Some t.
Proof.
  unfold ta_verdict. destruct (negb enabled); [discriminate|].
  destruct (first_match blocked visited) eqn:E1; intros E.
  - injection E as ->. destruct (first_match_some _ _ _ E1) as (nm & Hin & H).
    exists nm. split; [apply in_or_app; right; exact Hin|exact H].
  - destruct (first_match_some _ _ _ E) as (nm & Hin & H).
    exists nm. split; [apply in_or_app; left; exact Hin|exact H].
Qed.

(** * 2. the intercept reply is readable and says what the rule says           *)

Open Scope Z_scope.

Lemma zlen_app {A} (a b : list A) : zlen (a ++ b) = zlen a + zlen b.
Proof. unfold zlen. rewrite app_length. lia. Qed.
Lemma zlen_cons {A} (x : A) l : zlen (x :: l) = 1 + zlen l.
Proof. unfold zlen. cbn [length]. lia. Qed.
Lemma zlen_nonneg {A} (l : list A) : 0 <= zlen l.
Proof. unfold zlen. lia. Qed.

(** ** integers: what [put_i32] / [put_i16] write is read back *)

Lemma be_val_i32be z : be_val (i32be z) = z mod 2 ^ 32.
Proof.
  unfold i32be, be_val. cbn [fold_left]. change (2 ^ 32) with 4294967296. set (u := z mod 4294967296).
  assert (0 <= u < 4294967296) by (apply Z.mod_pos_bound; lia).
  rewrite !Z2N.id by (Z.div_mod_to_equations; lia). Z.div_mod_to_equations. lia.
Qed.

Lemma be_val_i16be z : be_val (i16be z) = z mod 2 ^ 16.
Proof.
  unfold i16be, be_val. cbn [fold_left]. change (2 ^ 16) with 65536. set (u := z mod 65536).
  assert (0 <= u < 65536) by (apply Z.mod_pos_bound; lia).
  rewrite !Z2N.id by (Z.div_mod_to_equations; lia). Z.div_mod_to_equations. lia.
Qed.

(** the cast to a signed type wraps; in range it loses nothing *)
Lemma signed_wrap bits z : 0 < bits -> - 2 ^ (bits - 1) <= z < 2 ^ (bits - 1) -> signed bits (z mod 2 ^ bits) = z.
Proof.
  intros Hb Hz. unfold signed.
  replace (2 ^ bits) with (2 * 2 ^ (bits - 1)) by (rewrite <- Z.pow_succ_r by lia; f_equal; lia).
  set (p := 2 ^ (bits - 1)) in *. destruct (Z.neg_nonneg_cases z).
  - rewrite <- (Z.mod_unique z (2 * p) (-1) (z + 2 * p)) by lia. destruct (Z.ltb_spec (z + 2 * p) p); lia.
  - rewrite Z.mod_small by lia. destruct (Z.ltb_spec z p); lia.
Qed.

Lemma rd_i32_i32be z : -2147483648 <= z < 2147483648 ->
  exists a b c d, i32be z = [a; b; c; d] /\ rd_i32 a b c d = z.
Proof.
  intros H. do 4 eexists. split; [reflexivity|].
  change (signed 32 (be_val (i32be z)) = z). rewrite be_val_i32be. apply signed_wrap; [lia|exact H].
Qed.

Lemma rd_i16_i16be z : -32768 <= z < 32768 ->
  exists a b, i16be z = [a; b] /\ rd_i16 a b = z.
Proof.
  intros H. do 2 eexists. split; [reflexivity|].
  change (signed 16 (be_val (i16be z)) = z). rewrite be_val_i16be. apply signed_wrap; [lia|exact H].
Qed.

Lemma firstn_zlen {A} (a b : list A) : firstn (Z.to_nat (zlen a)) (a ++ b) = a.
Proof.
  unfold zlen. rewrite Nat2Z.id. rewrite firstn_app, Nat.sub_diag, firstn_all. cbn [firstn]. apply app_nil_r.
Qed.
Lemma skipn_zlen {A} (a b : list A) : skipn (Z.to_nat (zlen a)) (a ++ b) = b.
Proof.
  unfold zlen. rewrite Nat2Z.id. rewrite skipn_app, Nat.sub_diag, skipn_all. reflexivity.
Qed.

Lemma take_frame_frame tag body rest : zlen body + 4 < 2147483648 ->
  take_frame (frame tag body ++ rest) = Some (tag, body, rest).
Proof.
  intros H. pose proof (zlen_nonneg body). pose proof (zlen_nonneg rest).
  destruct (rd_i32_i32be (zlen body + 4) ltac:(lia)) as (a & b & c & d & E & R).
  unfold frame. rewrite E. cbn [app take_frame]. rewrite R.
  replace (zlen body + 4 - 4) with (zlen body) by lia. rewrite zlen_app.
  destruct (Z.leb_spec 4 (zlen body + 4)); [|lia].
  destruct (Z.leb_spec (zlen body) (zlen body + zlen rest)); [|lia].
  cbn [andb]. rewrite firstn_zlen, skipn_zlen. reflexivity.
Qed.

Lemma cstr_app name rest : no_nul name = true -> cstr (name ++ 0%N :: rest) = Some (name, rest).
Proof.
  induction name as [|c r IH]; intros H; [reflexivity|].
  cbn [no_nul forallb] in H. apply andb_true_iff in H. destruct H as [Hc Hr].
  cbn [app cstr]. destruct (N.eqb c 0); [discriminate|]. fold (no_nul r) in Hr. rewrite (IH Hr). reflexivity.
Qed.

Lemma dtype_cases s : In (dtype s) [(25, -1); (2277, -1); (26, 4); (16, 1); (23, 4); (2276, -1)].
Proof.
  unfold dtype. repeat match goal with |- context [if ?b then _ else _] => destruct b end; cbn; tauto.
Qed.

Lemma dtype_range s : -2147483648 <= fst (dtype s) < 2147483648 /\ -32768 <= snd (dtype s) < 32768.
Proof. pose proof (dtype_cases s) as H. cbn [In] in H. repeat (destruct H as [<-|H]; [cbn [fst snd]; lia|]). destruct H. Qed.

Lemma rd_cols_col c k rest : no_nul (fst c) = true ->
  rd_cols (S k) (col_desc c ++ rest) = option_map (cons (expected_col c)) (rd_cols k rest).
Proof.
  intros Hc. unfold col_desc, expected_col. destruct (dtype_range (snd c)) as [Ho Hs].
  destruct (dtype (snd c)) as [oid size]. cbn [fst snd] in *.
  destruct (rd_i32_i32be 0 ltac:(lia)) as (t1 & t2 & t3 & t4 & Et & Rt).
  destruct (rd_i16_i16be 0 ltac:(lia)) as (a1 & a2 & Ea & Ra).
  destruct (rd_i32_i32be oid Ho) as (o1 & o2 & o3 & o4 & Eo & Ro).
  destruct (rd_i16_i16be size Hs) as (z1 & z2 & Ez & Rz).
  destruct (rd_i32_i32be (-1) ltac:(lia)) as (m1 & m2 & m3 & m4 & Em & Rm).
  rewrite Et, Ea, Eo, Ez, Em. rewrite <- app_assoc. cbn [app rd_cols]. rewrite cstr_app by exact Hc.
  rewrite Rt, Ra, Ro, Rz, Rm. destruct (rd_cols k rest); reflexivity.
Qed.

Lemma rd_cols_enc cols : Forall (fun c => no_nul (fst c) = true) cols ->
  rd_cols (length cols) (concat (map col_desc cols)) = Some (map expected_col cols).
Proof.
  induction 1 as [|c cols Hc _ IH]; [reflexivity|].
  cbn [length map concat]. rewrite rd_cols_col, IH by exact Hc. reflexivity.
Qed.

(** the NULL marker *)
Lemma i32be_m1 : i32be (-1) = [255; 255; 255; 255]%N.
Proof. vm_compute. reflexivity. Qed.
Lemma rd_m1 : rd_i32 255%N 255%N 255%N 255%N = -1.
Proof. vm_compute. reflexivity. Qed.

Lemma rd_cells_cell c k rest : match c with Some b => zlen b < 2147483648 | None => True end ->
  rd_cells (S k) (cell_enc c ++ rest) = option_map (cons c) (rd_cells k rest).
Proof.
  destruct c as [b|]; cbn [cell_enc]; intros Hb.
  - pose proof (zlen_nonneg b). pose proof (zlen_nonneg rest).
    destruct (rd_i32_i32be (zlen b) ltac:(lia)) as (a1 & a2 & a3 & a4 & E & R).
    rewrite E. rewrite <- app_assoc. cbn [app rd_cells]. rewrite R, zlen_app.
    destruct (Z.eqb_spec (zlen b) (-1)); [lia|].
    destruct (Z.leb_spec 0 (zlen b)); [|lia].
    destruct (Z.leb_spec (zlen b) (zlen b + zlen rest)); [|lia].
    cbn [andb]. rewrite firstn_zlen, skipn_zlen. reflexivity.
  - rewrite i32be_m1. cbn [app rd_cells]. rewrite rd_m1. reflexivity.
Qed.

Lemma rd_cells_enc row : Forall (fun c => match c with Some b => zlen b < 2147483648 | None => True end) row ->
  rd_cells (length row) (concat (map cell_enc row)) = Some row.
Proof.
  induction 1 as [|c row Hc _ IH]; [reflexivity|].
  cbn [length map concat]. rewrite rd_cells_cell, IH by exact Hc. reflexivity.
Qed.

Lemma cell_le (c : option bytes) row : In c row -> zlen (cell_enc c) <= zlen (concat (map cell_enc row)).
Proof.
  induction row as [|x r IH]; intros H; [destruct H|].
  cbn [map concat]. rewrite zlen_app. pose proof (zlen_nonneg (cell_enc x)). pose proof (zlen_nonneg (concat (map cell_enc r))).
  destruct H as [->|H]; [lia|]. specialize (IH H). lia.
Qed.

Lemma rd_msg_rowdesc cols : zlen cols < 32768 -> Forall (fun c => no_nul (fst c) = true) cols ->
  rd_msg (84%N, i16be (zlen cols) ++ concat (map col_desc cols)) = Some (RowDescription (map expected_col cols)).
Proof.
  intros Hn Hc. pose proof (zlen_nonneg cols).
  destruct (rd_i16_i16be (zlen cols) ltac:(lia)) as (a & b & E & R).
  unfold rd_msg. change (84 =? 84)%N with true. cbv iota. rewrite E. cbn [app]. rewrite R.
  destruct (Z.leb_spec 0 (zlen cols)); [|lia]. unfold zlen. rewrite Nat2Z.id.
  rewrite rd_cols_enc by exact Hc. reflexivity.
Qed.

Lemma rd_msg_datarow row : zlen row < 32768 -> zlen (concat (map cell_enc row)) < 2147483000 ->
  rd_msg (68%N, i16be (zlen row) ++ concat (map cell_enc row)) = Some (DataRow row).
Proof.
  intros Hn Hc. pose proof (zlen_nonneg row).
  destruct (rd_i16_i16be (zlen row) ltac:(lia)) as (a & b & E & R).
  unfold rd_msg. change (68 =? 84)%N with false. change (68 =? 68)%N with true. cbv iota.
  rewrite E. cbn [app]. rewrite R.
  destruct (Z.leb_spec 0 (zlen row)); [|lia]. unfold zlen at 1. rewrite Nat2Z.id.
  rewrite rd_cells_enc; [reflexivity|].
  apply Forall_forall. intros [bb|] Hin; [|exact I].
  pose proof (cell_le _ _ Hin) as Hle. cbn [cell_enc] in Hle. rewrite zlen_app in Hle.
  pose proof (zlen_nonneg (i32be (zlen bb))). lia.
Qed.

Lemma rd_msg_cc : rd_msg (67%N, s_select ++ [0%N]) = Some (CommandComplete s_select).
Proof. reflexivity. Qed.

Lemma rd_msg_rfq : rd_msg (90%N, [73%N]) = Some (ReadyForQuery 73%N).
Proof. reflexivity. Qed.

Lemma rfq_is_frame : rfq_idle = frame 90%N [73%N].
Proof. reflexivity. Qed.

(** ** byte strings that a frontend reads as given messages

    [reads bs ms]: [bs] is a sequence of frames, each short enough for its length field,
    and frame by frame they parse to [ms]. *)

Definition enc (fs : list (byte * bytes)) : bytes := concat (map (fun f => frame (fst f) (snd f)) fs).
Definition fits (f : byte * bytes) : Prop := zlen (snd f) + 4 < 2147483648.
Definition reads (bs : bytes) (ms : list bmsg) : Prop :=
  exists fs, bs = enc fs /\ Forall fits fs /\ map_opt rd_msg fs = Some ms.

Lemma enc_app a b : enc (a ++ b) = enc a ++ enc b.
Proof. unfold enc. rewrite map_app, concat_app. reflexivity. Qed.

Lemma enc_length fs : (length fs <= length (enc fs))%nat.
Proof.
  induction fs as [|f fs IH]; [cbn; lia|].
  unfold enc in *. cbn [map concat]. rewrite app_length. unfold frame at 1. cbn [length]. lia.
Qed.

Lemma frames_enc fs : Forall fits fs -> forall fuel, (length fs <= fuel)%nat -> frames fuel (enc fs) = Some fs.
Proof.
  induction 1 as [|f fs Hf Hfs IH]; intros fuel Hl.
  - destruct fuel; reflexivity.
  - destruct fuel as [|fuel]; [cbn in Hl; lia|].
    change (enc (f :: fs)) with (frame (fst f) (snd f) ++ enc fs).
    assert (E: exists x r, frame (fst f) (snd f) ++ enc fs = x :: r) by (unfold frame; cbn [app]; eauto).
    destruct E as (x & r & E). cbn [frames]. rewrite E. rewrite <- E.
    rewrite take_frame_frame by exact Hf.
    rewrite IH by (cbn in Hl; lia). destruct f. reflexivity.
Qed.

Lemma map_opt_app {A B} (f : A -> option B) l1 l2 r1 r2 :
  map_opt f l1 = Some r1 -> map_opt f l2 = Some r2 -> map_opt f (l1 ++ l2) = Some (r1 ++ r2).
Proof.
  revert r1. induction l1 as [|x l1 IH]; intros r1 H1 H2.
  - injection H1 as <-. exact H2.
  - cbn [map_opt app] in *. destruct (f x); [|discriminate].
    destruct (map_opt f l1) eqn:E; [|discriminate]. injection H1 as <-.
    rewrite (IH l eq_refl H2). reflexivity.
Qed.

Lemma reads_read_reply bs ms : reads bs ms -> read_reply bs = Some ms.
Proof.
  intros (fs & -> & Hf & Hm). unfold read_reply. rewrite frames_enc by (try exact Hf; apply enc_length). exact Hm.
Qed.

Lemma reads_nil : reads [] [].
Proof. exists []. repeat split. constructor. Qed.

Lemma reads_app b1 b2 m1 m2 : reads b1 m1 -> reads b2 m2 -> reads (b1 ++ b2) (m1 ++ m2).
Proof.
  intros (f1 & -> & F1 & M1) (f2 & -> & F2 & M2). exists (f1 ++ f2).
  split; [symmetry; apply enc_app|]. split; [apply Forall_app; split; assumption|apply map_opt_app; assumption].
Qed.

Lemma reads_frame tag body m : zlen body + 4 < 2147483648 -> rd_msg (tag, body) = Some m -> reads (frame tag body) [m].
Proof.
  intros Hf Hm. exists [(tag, body)]. split; [symmetry; apply app_nil_r|].
  split; [repeat constructor; exact Hf|]. cbn [map_opt]. rewrite Hm. reflexivity.
Qed.

Lemma reads_row_description cols :
  zlen cols < 32768 -> Forall (fun c => no_nul (fst c) = true) cols -> zlen (concat (map col_desc cols)) < 2147483000 ->
  reads (row_description cols) [RowDescription (map expected_col cols)].
Proof.
  intros Hn Hc Hs. apply reads_frame; [|apply rd_msg_rowdesc; assumption].
  rewrite zlen_app. change (zlen (i16be (zlen cols))) with 2. lia.
Qed.

Lemma reads_data_row row : zlen row < 32768 -> zlen (concat (map cell_enc row)) < 2147483000 ->
  reads (data_row_nullable row) [DataRow row].
Proof.
  intros Hn Hs. apply reads_frame; [|apply rd_msg_datarow; assumption].
  rewrite zlen_app. change (zlen (i16be (zlen row))) with 2. lia.
Qed.

Lemma reads_select_complete : reads (command_complete s_select) [CommandComplete s_select].
Proof. apply reads_frame; [reflexivity|exact rd_msg_cc]. Qed.

Lemma reads_rfq_idle : reads rfq_idle [ReadyForQuery 73%N].
Proof. rewrite rfq_is_frame. apply reads_frame; [reflexivity|exact rd_msg_rfq]. Qed.

Definition expected_of (user db : bytes) (r : rule) : list bmsg := expected_rule user db r.

Lemma rule_reads user db r : wf_rule user db r -> reads (rule_reply user db r) (expected_of user db r).
Proof.
  intros [(Hn & Hnul & Hsz) Hrows]. unfold rule_reply, expected_of, expected_rule.
  apply (reads_app _ _ [_]); [apply reads_row_description; assumption|].
  apply reads_app; [|exact reads_select_complete].
  induction Hrows as [|row rows [H1 H2] _ IH]; [exact reads_nil|].
  cbn [map concat]. apply (reads_app _ _ [_]); [apply reads_data_row; assumption|exact IH].
Qed.

Lemma body_reads user db ms : Forall (wf_rule user db) ms ->
  reads (concat (map (rule_reply user db) ms)) (flat_map (expected_of user db) ms).
Proof.
  induction 1 as [|r rs Hr _ IH]; [exact reads_nil|].
  cbn [map concat flat_map]. apply reads_app; [apply rule_reads; exact Hr|exact IH].
Qed.

Definition matched_rules (rules : list rule) (stmts : list bytes) : list rule :=
  flat_map (fun q => filter (rule_matches q) rules) stmts.

Lemma intercept_body_matched user db rules stmts :
  intercept_body user db rules stmts = concat (map (rule_reply user db) (matched_rules rules stmts)).
Proof.
  unfold intercept_body, matched_rules. f_equal.
  induction stmts as [|q r IH]; [reflexivity|]. cbn [flat_map]. rewrite map_app, IH. reflexivity.
Qed.

Close Scope Z_scope.

(** * 3. enforcement                                                           *)

Notation quiet ev := (forallb (fun e => negb (plugin_event e)) ev = true).

Lemma is_allow_true v : is_allow v = true -> v = Allow.
Proof. destruct v; [reflexivity|discriminate|discriminate]. Qed.

Lemma is_allow_else v : (if is_allow v then Allow else v) = v.
Proof. destruct v; reflexivity. Qed.

Lemma bmsgs_push s b : bmsgs (push s b) = bmsgs s ++ [fst b].
Proof. unfold bmsgs, push. cbn [ebuf]. rewrite map_app. reflexivity. Qed.

Lemma bmsgs_nil s : bmsgs s = [] <-> ebuf s = [].
Proof. unfold bmsgs. destruct (ebuf s); cbn; split; intros H; try reflexivity; discriminate. Qed.

Lemma in_bmsgs s m : In m (bmsgs s) -> exists o, In (m, o) (ebuf s).
Proof.
  unfold bmsgs. intros H. apply in_map_iff in H. destruct H as ([x o] & E & Hin). cbn in E. subst. exists o. exact Hin.
Qed.

Lemma forwarded_app a b : forwarded (a ++ b) = forwarded a ++ forwarded b.
Proof.
  induction a as [|e a IH]; [reflexivity|]. destruct e; cbn [app forwarded]; rewrite ?IH, <- ?app_assoc; reflexivity.
Qed.

Lemma in_forwarded it ev : In it (forwarded ev) -> exists items, In (EvFwd items) ev /\ In it items.
Proof.
  induction ev as [|e ev IH]; [intros []|]. intros H.
  assert (In it (forwarded ev) -> exists items, In (EvFwd items) (e :: ev) /\ In it items)
    by (intros H'; destruct (IH H') as (items & ? & ?); exists items; split; [right|]; assumption).
  destruct e; cbn [forwarded] in H; auto.
  apply in_app_or in H. destruct H as [H|H]; [|auto]. exists items. split; [left; reflexivity|exact H].
Qed.

Lemma has_In k l : has k l = true <-> In k l.
Proof.
  unfold has. rewrite existsb_exists. split.
  - intros (x & Hx & E). apply Nat.eqb_eq in E. subst. exact Hx.
  - intros H. exists k. split; [exact H|apply Nat.eqb_refl].
Qed.

Lemma lookup_In n l p : lookup n l = Some p -> In (n, p) l.
Proof.
  induction l as [|[k m] r IH]; [discriminate|]. cbn [lookup]. destruct (Nat.eqb_spec k n) as [->|Hne].
  - intros H. injection H as ->. left. reflexivity.
  - intros H. right. apply IH. exact H.
Qed.

Lemma after_server_eq c s tx s' ev : after_server c s tx = (s', ev) ->
  (exists h t, s' = set_held s h t) /\ forwarded ev = [] /\ quiet ev.
Proof. unfold after_server. destruct (negb tx && txn_mode c); intros H; injection H as <- <-; eauto. Qed.

(** what the walk of the 'S' arm produces comes from the buffer: messages into the batch,
    resolved Parses into early writes *)
Lemma drain_Forall c (P : fitem -> Prop) (Q : event -> Prop) buf :
  (forall m o, In (m, o) buf -> P (FMsg m)) -> (forall m p, In (m, Some p) buf -> Q (EvFwd [FParse p])) ->
  forall sv early acc early' acc' sv', drain c buf sv early acc = (early', acc', sv') ->
    Forall Q early -> Forall P acc -> Forall Q early' /\ Forall P acc'.
Proof.
  induction buf as [|[m meta] r IH]; intros HP HQ sv early acc early' acc' sv' H FQ FP.
  - injection H as <- <- <-. split; assumption.
  - specialize (IH (fun m o h => HP m o (or_intror h)) (fun m p h => HQ m p (or_intror h))).
    assert (FP1: Forall P (acc ++ [FMsg m]))
      by (apply Forall_app; split; [exact FP|repeat constructor; apply (HP m meta); left; reflexivity]).
    assert (FQ1: forall p, meta = Some p -> Forall Q (early ++ [EvFwd [FParse p]]))
      by (intros p ->; apply Forall_app; split; [exact FQ|repeat constructor; apply (HQ m p); left; reflexivity]).
    cbn [drain] in H. destruct m; try destruct meta as [p|];
      repeat match type of H with context [if ?b then _ else _] => destruct b end;
      eapply IH; eauto.
Qed.

(** The plugins' bookkeeping in the state; the loops touch the rest ([held], [stx], [srv],
    [dead]) freely. *)
Definition bufs (s : state) := (ebuf s, pout s, ps s, rej s, sess s).

Definition plain (ev : list event) : Prop := forwarded ev = [] /\ quiet ev.

(** an arriving Q / P is harmless if it is not parsed, or allowed by the plugins *)
Definition harmless (c : cfg) (m : msg) : Prop :=
  match m with MQ _ p v _ _ | MP _ _ _ p v => eff c p v = Allow | _ => True end.

(** the verdict a buffered message brings with it *)
Definition pbuf (c : cfg) (m : msg) : verdict :=
  match m with MP _ _ _ p v => eff c p v | _ => Allow end.

(** Everything [step_core] does, a custom command in the outer loop apart: a Parse is buffered,
    and the verdict on it stored unless one is pending; or another message is buffered, a Bind /
    Describe resolved in the client's map, a Close possibly taking a name out of it; or the
    bookkeeping stays, at most the message itself is forwarded (if not rejected) and a harmless
    message is not answered for a plugin; or the pending verdict is answered and the batch
    dropped; or a Sync finds no server and the batch is dropped; or a Sync sends the batch. *)
Inductive stepped (c : cfg) (s : state) (m : msg) (s' : state) (ev : list event) : Prop :=
| st_parse i n k p v : m = MP i n k p v -> ev = [] -> ebuf s' = ebuf s ++ [(m, None)] ->
    pout s' = (if is_allow (pout s) then eff c p v else pout s) ->
    ps s' = (if ps_on c then (n, m) :: ps s else ps s) ->
    rej s' = (if ps_on c && bad_msg c m then n :: rej s else rej s) -> sess s' = sess s -> stepped c s m s' ev
| st_push o : bad_msg c m = false -> pbuf c m = Allow ->
    match o with Some p => exists n, In (n, p) (ps s) | None => True end ->
    ev = [] -> ebuf s' = ebuf s ++ [(m, o)] -> pout s' = pout s -> incl (ps s') (ps s) -> rej s' = rej s ->
    sess s' = sess s -> stepped c s m s' ev
| st_same : bufs s' = bufs s -> (forall it, In it (forwarded ev) -> it = FMsg m /\ bad_msg c m = false) ->
            (harmless c m -> quiet ev) -> stepped c s m s' ev
| st_consumed : pout s <> Allow -> bufs s' = bufs (consume s) -> forwarded ev = [] -> stepped c s m s' ev
| st_reset : pout s = Allow -> bufs s' = bufs (reset s) -> plain ev -> stepped c s m s' ev
| st_drained early acc sv pre mid post :
    pout s = Allow -> bad_msg c m = false -> drain c (ebuf s) (srv s) [] [] = (early, acc, sv) ->
    bufs s' = bufs (drained s sv) -> ev = pre ++ early ++ mid ++ post -> plain pre -> plain post ->
    mid = [] \/ mid = [EvFwd (acc ++ [FMsg m])] -> stepped c s m s' ev.

Lemma stepped_plain c s m s' ev : bufs s' = bufs s -> plain ev -> stepped c s m s' ev.
Proof. intros Hb [Ef Eq]. apply st_same; [exact Hb|rewrite Ef; intros it []|intros _; exact Eq]. Qed.

Lemma buffer_msg_stepped c s m s' ev : buffer_msg c s m = (s', ev) -> stepped c s m s' ev.
Proof.
  intros H.
  (* the common shape of the Bind, Describe, Execute and Close arms: under caching the name is
     resolved, and an unknown one ends the task *)
  assert (Hres: forall n (b : bool), bad_msg c m = false -> pbuf c m = Allow ->
            (if b then match lookup n (ps s) with
                       | Some p => (push s (m, Some p), [])
                       | None => (kill s, [EvErr EUnknownStmt; EvEnd])
                       end
             else (push s (m, None), [])) = (s', ev) -> stepped c s m s' ev).
  { intros n b Hb Hp E. destruct b; [destruct (lookup n (ps s)) as [p|] eqn:El|]; injection E as <- <-.
    - apply (st_push c s m _ _ (Some p)); try reflexivity; try assumption; [|apply incl_refl].
      exists n. apply lookup_In. exact El.
    - apply stepped_plain; [reflexivity|split; reflexivity].
    - apply (st_push c s m _ _ None); try reflexivity; try assumption. apply incl_refl. }
  destruct m; try (injection H as <- <-; apply stepped_plain; [reflexivity|split; reflexivity]).
  - (* the first stage touches the pending verdict only; an unparsed Parse counts as allowed *)
    clear Hres. cbn [buffer_msg bad_msg] in H. set (s1 := if parsed then _ else s) in H. injection H as <- <-.
    assert (E: (ebuf s1, ps s1, rej s1, sess s1) = (ebuf s, ps s, rej s, sess s) /\
               pout s1 = (if is_allow (pout s) then eff c parsed v else pout s)).
    { unfold s1, eff. destruct parsed; [destruct (is_allow (pout s))|rewrite is_allow_else]; split; reflexivity. }
    destruct E as [E Ep]. injection E as Ee Eps Er Es. clearbody s1.
    apply (st_parse c s _ _ _ id name key parsed v eq_refl eq_refl);
      cbn [bad_msg]; (destruct (ps_on c); [destruct (negb _)|]); cbn; rewrite ?Ee, ?Ep, ?Eps, ?Er, ?Es; reflexivity.
  - exact (Hres name _ eq_refl eq_refl H).
  - exact (Hres name _ eq_refl eq_refl H).
  - exact (Hres 0 false eq_refl eq_refl H).
  - cbn [buffer_msg] in H. destruct (ps_on c && is_stmt && negb (Nat.eqb name 0)); [|exact (Hres 0 false eq_refl eq_refl H)].
    injection H as <- <-. apply (st_push c s _ _ _ None); try reflexivity.
    intros e He. apply filter_In in He. apply He.
Qed.

(** the messages the loops act on themselves *)
Definition unbuffered (m : msg) : Prop :=
  match m with MQ _ _ _ _ _ | MS _ _ _ | MH _ _ | MCmd _ _ _ _ => True | _ => False end.

(** the transaction loop on what it does not buffer, possibly entered through a checkout
    ([s0] = [s] with the server held, [pre] = the checkout) *)
Lemma inner_stepped c s s0 pre m s' ev :
  bufs s0 = bufs s -> srv s0 = srv s -> plain pre -> unbuffered m ->
  step_inner c s0 m = (s', ev) -> stepped c s m s' (pre ++ ev).
Proof.
  intros Hb Hsrv [Pf Pq] Hm H. pose proof Hb as Hb'. unfold bufs in Hb'. injection Hb' as Ee Ep Eps Er Es.
  assert (Hnone: forall e, forwarded e = [] -> (harmless c m -> quiet e) -> stepped c s m s0 (pre ++ e)).
  { intros e Ef Eq. apply st_same; [exact Hb|rewrite forwarded_app, Pf, Ef; intros it []|].
    intros Hh. rewrite forallb_app, Pq. exact (Eq Hh). }
  assert (Hfwd: forall tx, bad_msg c m = false ->
            (let '(s2, e2) := after_server c s0 tx in (s2, EvFwd [FMsg m] :: e2)) = (s', ev) -> stepped c s m s' (pre ++ ev)).
  { intros tx Hbad E. destruct (after_server c s0 tx) as [s2 e2] eqn:Ea. injection E as <- <-.
    destruct (after_server_eq _ _ _ _ _ Ea) as ((h & t & ->) & Ef & Eq). apply st_same; [exact Hb| |].
    - rewrite forwarded_app, Pf. cbn [forwarded app]. rewrite Ef. intros it [<-|[]]. split; [reflexivity|exact Hbad].
    - intros _. rewrite forallb_app, Pq. exact Eq. }
  destruct m; try destruct Hm; cbn [step_inner] in H.
  - destruct (eff c parsed v) eqn:Ev; [apply (Hfwd tx_after); [cbn [bad_msg]; rewrite Ev; reflexivity|exact H]| |];
      injection H as <- <-; (apply Hnone; [reflexivity|cbn [harmless]; congruence]).
  - rewrite Ep, Ee, Hsrv in H. destruct (pout s) eqn:Ep'.
    + destruct (drain c (ebuf s) (srv s) [] []) as [[early acc] sv] eqn:D.
      destruct acc as [|a acc]; destruct (after_server c _ _) as [s2 e2] eqn:Ea; injection H as <- <-;
        destruct (after_server_eq _ _ _ _ _ Ea) as ((h & t & ->) & Ef & Eq);
        [apply (st_drained c s _ _ _ early [] sv pre [] e2)
        |apply (st_drained c s _ _ _ early (a :: acc) sv pre [EvFwd ((a :: acc) ++ [FMsg (MS id pool_ok tx_after)])] e2)];
        try (split; assumption); try reflexivity; auto;
        unfold bufs; cbn; congruence.
    + injection H as <- <-. apply st_consumed; [congruence|unfold bufs; cbn; congruence|].
      rewrite forwarded_app, Pf. reflexivity.
    + injection H as <- <-. apply st_consumed; [congruence|unfold bufs; cbn; congruence|].
      rewrite forwarded_app, Pf. reflexivity.
  - injection H as <- <-. apply Hnone; reflexivity.
  - (* a custom command's text inside a transaction: an ordinary query *) exact (Hfwd tx_after eq_refl H).
Qed.

Lemma step_inner_stepped c s m s' ev : step_inner c s m = (s', ev) -> stepped c s m s' ev.
Proof.
  intros H. destruct m; try (apply buffer_msg_stepped; exact H);
    (refine (inner_stepped c s s [] _ _ _ eq_refl eq_refl (conj eq_refl eq_refl) _ H); exact I).
Qed.

Lemma step_core_stepped c s m s' ev : step_core c s m = (s', ev) ->
  stepped c s m s' ev \/ exists i cmd po tx, m = MCmd i cmd po tx /\ s' = apply_cmd s cmd /\ ev = [EvCmd].
Proof.
  unfold step_core. destruct (dead s).
  { intros H. injection H as <- <-. left. apply stepped_plain; [reflexivity|split; reflexivity]. }
  destruct (held s); [left; apply step_inner_stepped; assumption|].
  assert (Hco: (is_sync m = true -> pout s = Allow) -> unbuffered m ->
               outer_checkout c s m = (s', ev) -> stepped c s m s' ev).
  { unfold outer_checkout. intros Hs Hm H. destruct (pool_ok_of m && role_ok s).
    - destruct (step_inner c (set_held s true false) m) as [s2 e2] eqn:E. injection H as <- <-.
      exact (inner_stepped c s (set_held s true false) [EvCheckout] _ _ _ eq_refl eq_refl (conj eq_refl eq_refl) Hm E).
    - injection H as <- <-. destruct (is_sync m).
      + apply st_reset; [apply Hs; reflexivity|reflexivity|split; reflexivity].
      + apply stepped_plain; [reflexivity|split; reflexivity]. }
  assert (Hor: unbuffered m -> outer_rest c s m = (s', ev) -> stepped c s m s' ev).
  { unfold outer_rest. intros Hm H. destruct (pout s) eqn:Ep.
    - apply Hco; auto.
    - injection H as <- <-. apply st_consumed; [congruence|reflexivity|reflexivity].
    - destruct (is_sync m) eqn:Ey; [|apply Hco; [discriminate|exact Hm|exact H]].
      injection H as <- <-. apply st_consumed; [congruence|reflexivity|reflexivity]. }
  destruct m; cbn [step_outer]; intros H; try (left; apply buffer_msg_stepped; exact H); try (left; apply Hor; [exact I|exact H]).
  - (* a rejected Q is answered as in the transaction loop *)
    left. destruct (eff c parsed v) eqn:Ev; [apply Hor; [exact I|exact H]| |];
      apply step_inner_stepped; cbn [step_inner]; rewrite Ev; exact H.
  - right. injection H as <- <-. eauto 8.
Qed.

(** what one step may do to the buffer / pending verdict, and where forwarded items
    come from *)
Definition ok_step (c : cfg) (s : state) (m : msg) (s' : state) (ev : list event) : Prop :=
  (forall it, In it (forwarded ev) ->
      (it = FMsg m /\ bad_msg c m = false)
      \/ (exists m', it = FMsg m' /\ In m' (bmsgs s) /\ is_allow (pout s) = true)
      \/ (exists m' p, it = FParse p /\ In (m', Some p) (ebuf s) /\ is_allow (pout s) = true)) /\
  ( (bmsgs s' = bmsgs s /\ pout s' = pout s)
    \/ (bmsgs s' = bmsgs s ++ [m] /\ (if is_allow (pout s) then pout s' = pbuf c m else pout s' = pout s))
    \/ (bmsgs s' = [] /\ pout s' = Allow)
    \/ (bmsgs s' = [] /\ pout s' = pout s /\ is_allow (pout s) = true) ).

Lemma ok_bufs c s m s0 s' ev : bufs s' = bufs s0 -> ok_step c s m s0 ev -> ok_step c s m s' ev.
Proof. unfold bufs, ok_step, bmsgs. intros H. injection H as -> -> _ _ _. exact (fun x => x). Qed.

Lemma ok_buffered c s m s' o : ebuf s' = ebuf s ++ [(m, o)] ->
  pout s' = (if is_allow (pout s) then pbuf c m else pout s) -> ok_step c s m s' [].
Proof.
  intros Eb Ep. split; [intros it []|]. right; left. unfold bmsgs. rewrite Eb, map_app, Ep.
  split; [reflexivity|]. destruct (is_allow (pout s)); reflexivity.
Qed.

Lemma stepped_ok c s m s' ev : stepped c s m s' ev -> ok_step c s m s' ev.
Proof.
  intros [i n k p v -> -> Eb Ep _ _ _|o _ Em _ -> Eb Ep _ _ _|Hb Hf _|Hp Hb Hf|Hp Hb [Hf _]
         |early acc sv pre mid post Hp Hbad D Hb -> [Pf _] [Qf _] Hmid].
  - exact (ok_buffered _ _ _ _ _ Eb Ep).
  - apply (ok_buffered _ _ _ _ _ Eb). rewrite Em, is_allow_else. exact Ep.
  - apply (ok_bufs _ _ _ _ _ _ Hb). split; [intros it Hi; left; exact (Hf it Hi)|left; split; reflexivity].
  - apply (ok_bufs _ _ _ _ _ _ Hb). split; [rewrite Hf; intros it []|right; right; left; split; reflexivity].
  - apply (ok_bufs _ _ _ _ _ _ Hb). split; [rewrite Hf; intros it []|]. right; right; right. cbn. rewrite Hp. repeat split.
  - apply (ok_bufs _ _ _ _ _ _ Hb).
    destruct (drain_Forall c (fun it => exists m', it = FMsg m' /\ In m' (bmsgs s))
                (fun e => exists m' p, e = EvFwd [FParse p] /\ In (m', Some p) (ebuf s)) _
                (fun m o h => ex_intro _ m (conj eq_refl (in_map fst _ _ h)))
                (fun m p h => ex_intro _ m (ex_intro _ p (conj eq_refl h)))
                _ _ _ _ _ _ D (Forall_nil _) (Forall_nil _)) as [Hearly Hacc].
    rewrite Forall_forall in Hearly, Hacc. split; [|right; right; right; cbn; rewrite Hp; repeat split].
    rewrite !forwarded_app, Pf, Qf, app_nil_r. cbn [app]. rewrite Hp. intros it Hi.
    apply in_app_or in Hi. destruct Hi as [Hi|Hi].
    + right; right. destruct (in_forwarded _ _ Hi) as (items & Hin & Hit).
      destruct (Hearly _ Hin) as (m' & p & E & Hin'). injection E as ->. destruct Hit as [<-|[]]. eauto.
    + destruct Hmid as [->| ->]; [destruct Hi|]. cbn [forwarded] in Hi. rewrite app_nil_r in Hi.
      apply in_app_or in Hi. destruct Hi as [Hi|[<-|[]]]; [|left; split; [reflexivity|exact Hbad]].
      right; left. destruct (Hacc _ Hi) as (m' & -> & Hm'). eauto.
Qed.

Lemma step_ok c s m s' ev : step_core c s m = (s', ev) -> ok_step c s m s' ev.
Proof.
  intros H. destruct (step_core_stepped _ _ _ _ _ H) as [Hs|(i & cmd & po & tx & _ & -> & ->)]; [exact (stepped_ok _ _ _ _ _ Hs)|].
  (* a custom command is answered by pgcat; the batch and the pending verdict stay *)
  destruct cmd; (split; [intros it []|left; split; reflexivity]).
Qed.

(** Invariant.  A rejected Parse sitting in the buffer keeps a non-Allow verdict pending;
    so does a Bind/Describe that resolved to a rejected Parse; a rejected Parse in the
    client's map has its name on the rejected list; and the list is non-empty only while a
    verdict is pending. *)
Definition Inv (c : cfg) (s : state) : Prop :=
  (forall m o, In (m, o) (ebuf s) -> bad_msg c m = true -> is_allow (pout s) = false) /\
  (forall m p, In (m, Some p) (ebuf s) -> bad_msg c p = true -> is_allow (pout s) = false) /\
  (forall n p, In (n, p) (ps s) -> bad_msg c p = true -> In n (rej s)) /\
  (rej s <> [] -> is_allow (pout s) = false).

Lemma Inv_init c : Inv c init.
Proof. repeat split; cbn; intros; try contradiction. Qed.

Lemma Inv_same c s s' : ebuf s' = ebuf s -> pout s' = pout s -> ps s' = ps s -> rej s' = rej s -> Inv c s -> Inv c s'.
Proof. unfold Inv. intros -> -> -> ->. exact (fun H => H). Qed.

Lemma Inv_reset c s : Inv c s -> Inv c (reset s).
Proof.
  intros (_ & _ & I3 & _). unfold Inv, reset. cbn [ebuf pout ps rej]. repeat split; try (intros; contradiction).
  intros n p Hin Hb. unfold forget in Hin. apply filter_In in Hin. destruct Hin as [Hin Hf]. cbn [fst] in Hf.
  apply negb_true_iff in Hf. pose proof (I3 n p Hin Hb) as Hr. apply has_In in Hr. congruence.
Qed.

Lemma Inv_consume c s : Inv c s -> Inv c (consume s).
Proof.
  intros I0. apply Inv_reset in I0. destruct I0 as (I1 & I2 & I3 & I4).
  unfold consume, Inv. cbn [set_pout ebuf pout ps rej reset] in *. repeat split; try (intros; contradiction). exact I3.
Qed.

Lemma Inv_drained c s sv : Inv c s -> Inv c (drained s sv).
Proof.
  intros (_ & _ & I3 & I4). unfold Inv, drained. cbn [ebuf pout ps rej]. repeat split; try (intros; contradiction); assumption.
Qed.

(** Buffering [(m, o)], [o] resolved in the client's map: the buffer's half of [Inv] is kept if
    a pending verdict stays pending and a rejected [m] leaves one pending; what happens to the
    map and the rejected list differs from message to message and is the caller's. *)
Lemma Inv_buffered c s s' m o : Inv c s -> ebuf s' = ebuf s ++ [(m, o)] ->
  match o with Some p => exists n, In (n, p) (ps s) | None => True end ->
  (is_allow (pout s) = false -> is_allow (pout s') = false) -> (bad_msg c m = true -> is_allow (pout s') = false) ->
  (forall n p, In (n, p) (ps s') -> bad_msg c p = true -> In n (rej s')) ->
  (rej s' <> [] -> rej s <> [] \/ bad_msg c m = true) -> Inv c s'.
Proof.
  intros (I1 & I2 & I3 & I4) Eb Ho Hkeep Hnew H3 H4. unfold Inv. rewrite Eb. repeat split; [| |exact H3|].
  - intros x o' Hin Hx. apply in_app_or in Hin. destruct Hin as [Hin|[E|[]]]; [apply Hkeep; eapply I1; eassumption|].
    injection E as <- <-. exact (Hnew Hx).
  - intros x q Hin Hx. apply Hkeep. apply in_app_or in Hin. destruct Hin as [Hin|[E|[]]]; [eapply I2; eassumption|].
    injection E as <- ->. destruct Ho as (n & Hn). apply I4. intros Er. pose proof (I3 n q Hn Hx) as Hr. rewrite Er in Hr. destruct Hr.
  - intros Hr. destruct (H4 Hr) as [Hr'|Hx]; [exact (Hkeep (I4 Hr'))|exact (Hnew Hx)].
Qed.

Lemma Inv_bufs c s s' : bufs s' = bufs s -> Inv c s -> Inv c s'.
Proof. unfold bufs. intros H. injection H as E1 E2 E3 E4 _. apply Inv_same; assumption. Qed.

Lemma stepped_Inv c s m s' ev : Inv c s -> stepped c s m s' ev -> Inv c s'.
Proof.
  intros I0 H. pose proof I0 as (_ & _ & I3 & _).
  destruct H as [i n k p v -> _ Eb Ep Eps Er _|o Hm _ Ho _ Eb Ep Eps Er _|Hb _ _|_ Hb _|_ Hb _|early acc sv pre mid post _ _ _ Hb _ _ _ _].
  - (* a rejected Parse makes a verdict pending if none is; under caching its name goes on the
       rejected list as it enters the client's map *)
    apply (Inv_buffered _ _ _ _ _ I0 Eb I); rewrite ?Ep, ?Eps, ?Er.
    + intros Ha. rewrite Ha. exact Ha.
    + intros Hx. destruct (is_allow (pout s)) eqn:Ea; [apply negb_true_iff; exact Hx|exact Ea].
    + intros n' q Hin Hx. destruct (ps_on c); [|eapply I3; eassumption]. cbn [andb].
      destruct Hin as [E|Hin]; [injection E as <- <-; rewrite Hx; left; reflexivity|].
      destruct (bad_msg c _); [right|]; eapply I3; eassumption.
    + destruct (bad_msg c _); [right; reflexivity|rewrite andb_false_r; left; assumption].
  - apply (Inv_buffered _ _ _ _ _ I0 Eb Ho); rewrite ?Ep, ?Er; [exact (fun h => h)|congruence| |left; assumption].
    intros n q Hin. exact (I3 n q (Eps _ Hin)).
  - exact (Inv_bufs _ _ _ Hb I0).
  - exact (Inv_bufs _ _ _ Hb (Inv_consume _ _ I0)).
  - exact (Inv_bufs _ _ _ Hb (Inv_reset _ _ I0)).
  - exact (Inv_bufs _ _ _ Hb (Inv_drained _ _ _ I0)).
Qed.

Lemma Inv_step c s m s' ev : Inv c s -> step_core c s m = (s', ev) -> Inv c s'.
Proof.
  intros I0 H. destruct (step_core_stepped _ _ _ _ _ H) as [Hs|(i & cmd & po & tx & _ & -> & _)]; [exact (stepped_Inv _ _ _ _ _ I0 Hs)|].
  destruct cmd; (eapply Inv_same; [..|exact I0]; reflexivity).
Qed.

(** Induction over a run: a state invariant [J] and a property [Q] of event lists that
    concatenation keeps, both established step by step for the messages allowed by [G]. *)
Lemma run_with_inv P c (J : state -> Prop) (G : msg -> Prop) (Q : list event -> Prop) :
  Q [] -> (forall a b, Q a -> Q b -> Q (a ++ b)) ->
  (forall s m s' ev, J s -> G m -> step_core c s (arrive_with P c s m) = (s', ev) -> J s' /\ Q ev) ->
  forall ops s, J s -> (forall m, In m ops -> G m) ->
    J (fst (run_with P c s ops)) /\ Q (snd (run_with P c s ops)).
Proof.
  intros Q0 Qapp Hstep. induction ops as [|m r IH]; intros s Js Hg; [split; assumption|].
  cbn [run_with]. destruct (step_with P c s m) as [s1 e1] eqn:Es.
  destruct (Hstep _ _ _ _ Js (Hg m (or_introl eq_refl)) Es) as [J1 Q1].
  specialize (IH s1 J1 (fun x h => Hg x (or_intror h))). destruct (run_with P c s1 r) as [s2 e2].
  split; [apply IH|apply Qapp; [exact Q1|apply IH]].
Qed.

(** MAIN: whatever the client sends (custom commands included), whatever gate [P] decides
    which messages get parsed, from any state satisfying the invariant: a message that was
    parsed on arrival and rejected by the plugins is never written to a server - neither
    the client's own message nor a Parse that pgcat re-sends from the prepared-statement
    map - and the invariant holds again at the end.  (In the trace a Q/P carries [parsed] =
    "pgcat parsed it", see [arrive_with].) *)
Lemma run_Inv P c ops s : Inv c s ->
  Inv c (fst (run_with P c s ops)) /\ Forall (fun it => bad_item c it = false) (forwarded (snd (run_with P c s ops))).
Proof.
  intros I0. apply (run_with_inv P c (Inv c) (fun _ => True) (fun ev => Forall (fun it => bad_item c it = false) (forwarded ev)));
    [constructor| | |exact I0|trivial].
  - intros a b Ha Hb. rewrite forwarded_app. apply Forall_app. split; assumption.
  - clear. intros s m s' ev I0 _ Es. split; [eapply Inv_step; eassumption|].
    apply Forall_forall. intros it Hi. destruct (step_ok _ _ _ _ _ Es) as [Hf _]. destruct I0 as (I1 & I2 & _ & _).
    destruct (Hf it Hi) as [[-> Hb]|[(m' & -> & Hm' & Ha)|(m' & p & -> & Hp & Ha)]]; cbn [bad_item].
    + exact Hb.
    + destruct (bad_msg c m') eqn:Eb; [|reflexivity]. destruct (in_bmsgs _ _ Hm') as (o & Ho).
      rewrite (I1 m' o Ho Eb) in Ha. discriminate.
    + destruct (bad_msg c p) eqn:Eb; [|reflexivity]. rewrite (I2 m' p Hp Eb) in Ha. discriminate.
Qed.

Lemma enforced_from P c ops : forall s, Inv c s ->
  forall it, In it (forwarded (snd (run_with P c s ops))) -> bad_item c it = false.
Proof. intros s I0. apply Forall_forall. apply run_Inv. exact I0. Qed.

Lemma enforced c ops it : In it (forwarded (trace c ops)) -> bad_item c it = false.
Proof. apply enforced_from. apply Inv_init. Qed.

(** With the pool's parser on and plugins configured every message is parsed, whatever the
    session's override says (SET SERVER ROLE cannot switch the plugins off). *)
Lemma parses_pool c s : parser_on c = true -> plugins_on c = true -> parses c s = true.
Proof. intros H1 H2. unfold parses. rewrite H1, H2. apply orb_true_r. Qed.

Lemma arrive_id P c s m : msg_id (arrive_with P c s m) = msg_id m.
Proof. destruct m; reflexivity. Qed.

Lemma arrive_parsed c s m : parses c s = true -> arrive_with parses c s m = m.
Proof. intros E. destruct m; cbn [arrive_with]; try reflexivity; rewrite E, andb_true_r; reflexivity. Qed.

Definition ids (l : list msg) : list nat := map msg_id l.

(** A batch whose verdict is pending as Deny/Intercept is dropped as a whole: none of the
    messages buffered so far is ever forwarded, whatever follows (message ids of the
    continuation being fresh). *)
Lemma batch_dropped_gen P c ops : forall s (I : list nat),
  (is_allow (pout s) = false \/ (forall m, In m (bmsgs s) -> ~ In (msg_id m) I)) ->
  (forall m, In m ops -> ~ In (msg_id m) I) ->
  forall m, In (FMsg m) (forwarded (snd (run_with P c s ops))) -> ~ In (msg_id m) I.
Proof.
  intros s I H0 Hfresh.
  apply (run_with_inv P c (fun s => is_allow (pout s) = false \/ (forall m, In m (bmsgs s) -> ~ In (msg_id m) I))
           (fun m => ~ In (msg_id m) I) (fun ev => forall m, In (FMsg m) (forwarded ev) -> ~ In (msg_id m) I));
    [intros m []| | |exact H0|exact Hfresh].
  - intros a b Ha Hb m Hi. rewrite forwarded_app in Hi. apply in_app_or in Hi. destruct Hi; auto.
  - clear. intros s x s' ev H0 Hx Es. rewrite <- (arrive_id P c s) in Hx. set (x' := arrive_with P c s x) in *.
    destruct (step_ok _ _ _ _ _ Es) as [Hf Hb]. split.
    + destruct Hb as [[E1 E2]|[[E1 E2]|[[E1 E2]|[E1 _]]]]; rewrite E1.
      * rewrite E2. exact H0.
      * destruct H0 as [H0|H0]; [left; rewrite H0 in E2; rewrite E2; exact H0|].
        right. intros y Hy. apply in_app_or in Hy. destruct Hy as [Hy|[<-|[]]]; [apply H0; exact Hy|exact Hx].
      * right. intros y [].
      * right. intros y [].
    + intros m Hi. destruct (Hf _ Hi) as [[E _]|[(m' & E & Hm' & Ha)|(m' & p & E & _)]]; [| |discriminate]; injection E as ->.
      * exact Hx.
      * destruct H0 as [H0|H0]; [rewrite H0 in Ha; discriminate|]. apply H0. exact Hm'.
Qed.

(** What a verdict other than Allow is answered with. *)
Definition answer (v : verdict) : event :=
  match v with Deny t => EvErr (EPlugin t) | Intercept t => EvIntercept t | Allow => EvEnd end.

(** A pending Deny / Intercept is answered by the next Sync, in either loop, without a
    checkout, and the batch is gone - together with the names its rejected Parses gave. *)
Lemma sync_answers c s id po tx :
  dead s = false -> pout s <> Allow -> step c s (MS id po tx) = (consume s, [answer (pout s)]).
Proof.
  intros Hd Hp. unfold step, step_with, step_core. cbn [arrive_with]. rewrite Hd.
  destruct (held s); cbn [step_inner step_outer]; unfold outer_rest; destruct (pout s); try reflexivity; contradiction.
Qed.

(** After the batch is dropped no rejected Parse is left in the client's map: a later Bind or
    Describe of such a name is answered "does not exist". *)
Lemma consumed_map_clean c s : Inv c s -> forall n p, In (n, p) (ps (consume s)) -> bad_msg c p = false.
Proof.
  intros I0 n p Hin. apply Inv_consume in I0. destruct I0 as (_ & _ & I3 & _).
  destruct (bad_msg c p) eqn:Eb; [|reflexivity]. destruct (I3 n p Hin Eb).
Qed.

(** No stale verdict: a non-Allow verdict is pending only while the batch that earned it
    is still buffered (whatever happens to checkouts). *)
Definition fresh (s : state) : Prop := is_allow (pout s) = false -> ebuf s <> [].

Lemma no_stale_from P c ops : forall s, fresh s -> fresh (fst (run_with P c s ops)).
Proof.
  intros s F. apply (run_with_inv P c fresh (fun _ => True) (fun _ => True)); trivial. clear.
  intros s m s' ev F _ Es. split; [|exact I]. destruct (step_ok _ _ _ _ _ Es) as [_ Hb]. unfold fresh in *.
  destruct Hb as [[E1 E2]|[[E1 E2]|[[E1 E2]|(E1 & E2 & E3)]]].
  - rewrite E2. intros Ha Hn. apply (F Ha). apply bmsgs_nil. rewrite <- E1. apply bmsgs_nil. exact Hn.
  - intros _ Hn. apply bmsgs_nil in Hn. rewrite E1 in Hn. destruct (bmsgs s); discriminate.
  - rewrite E2. discriminate.
  - rewrite E2, E3. discriminate.
Qed.

(** Nothing is answered on a plugin's behalf while every arriving Q / P is harmless. *)
Lemma stepped_quiet c s m s' ev : harmless c m -> pout s = Allow -> stepped c s m s' ev ->
  pout s' = Allow /\ sess s' = sess s /\ quiet ev.
Proof.
  intros Hh Hp [i n k p v -> -> _ Ep _ _ Es|o _ _ _ -> _ Ep _ _ Es|Hb _ Hq|Hn _ _|_ Hb [_ Hq]
               |early acc sv pre mid post _ _ D Hb -> [_ Pq] [_ Qq] Hmid];
    [rewrite Ep, Hp; repeat split; assumption|rewrite Ep; repeat split; assumption| |contradiction| |];
    unfold bufs in Hb; injection Hb as _ -> _ _ ->; (split; [exact Hp|split; [reflexivity|]]); [exact (Hq Hh)|exact Hq|].
  destruct (drain_Forall c (fun _ => True) (fun e => negb (plugin_event e) = true) _ (fun _ _ _ => I) (fun _ _ _ => eq_refl)
              _ _ _ _ _ _ D (Forall_nil _) (Forall_nil _)) as [Qe _].
  rewrite Forall_forall in Qe. apply forallb_forall in Qe. rewrite !forallb_app, Pq, Qe, Qq.
  destruct Hmid as [->| ->]; reflexivity.
Qed.

(** the session's override changes only by a custom command in the outer loop *)
Lemma quiet_core c s m s' ev : harmless c m -> pout s = Allow -> step_core c s m = (s', ev) ->
  pout s' = Allow /\ quiet ev /\
  (sess s' = sess s \/ exists i cmd po tx, m = MCmd i cmd po tx /\ s' = apply_cmd s cmd).
Proof.
  intros Hh Hp H. destruct (step_core_stepped _ _ _ _ _ H) as [Hs|(i & cmd & po & tx & -> & -> & ->)].
  - destruct (stepped_quiet _ _ _ _ _ Hh Hp Hs) as (A & B & C). auto.
  - repeat split; [destruct cmd; exact Hp|eauto 8].
Qed.

(** Plugins not configured for the pool (no effective [plugins] section): no message is
    bad, nothing is ever answered by a plugin, and a Q goes to the server. *)
Definition disabled (c : cfg) : Prop := plugins_on c = false.

Lemma disabled_eff c p v : disabled c -> eff c p v = Allow.
Proof. unfold disabled, eff, plug. intros H. rewrite H. destruct p; reflexivity. Qed.

Lemma disabled_not_bad c m : disabled c -> bad_msg c m = false.
Proof. intros H. destruct m; cbn [bad_msg]; try reflexivity; rewrite disabled_eff by exact H; reflexivity. Qed.

Lemma disabled_harmless c m : disabled c -> harmless c m.
Proof. intros H. destruct m; cbn [harmless]; try exact I; apply disabled_eff; exact H. Qed.

Lemma disabled_quiet_from P c ops : disabled c -> forall s, pout s = Allow -> quiet (snd (run_with P c s ops)).
Proof.
  intros Hd s Hp. apply (run_with_inv P c (fun s => pout s = Allow) (fun _ => True) (fun ev => quiet ev)); trivial.
  - intros a b Ha Hb. rewrite forallb_app, Ha, Hb. reflexivity.
  - intros s0 m s' ev Hp0 _ Es. destruct (quiet_core _ _ _ _ _ (disabled_harmless c _ Hd) Hp0 Es) as (E & Q & _). split; assumption.
Qed.

(** a simple query that the plugins let through (or never see) goes to the server *)
Lemma allowed_q_forwarded c s id p v tx :
  dead s = false -> pout s = Allow -> role_ok s = true -> eff c (p && parses c s) v = Allow ->
  In (EvFwd [FMsg (MQ id (p && parses c s) v true tx)]) (snd (step c s (MQ id p v true tx))).
Proof.
  intros Hdead Hp Hr He. unfold step, step_with, step_core. cbn [arrive_with]. rewrite Hdead.
  destruct (held s); cbn [step_outer step_inner]; rewrite He.
  - destruct (after_server c s tx). left. reflexivity.
  - unfold outer_rest, outer_checkout. rewrite Hp, Hr. cbn [pool_ok_of andb step_inner]. rewrite He.
    destruct (after_server c (set_held s true false) tx). right. left. reflexivity.
Qed.

(** The pool's parser off and the session never switches its own parser on (no SET SERVER
    ROLE TO 'auto'): nothing is parsed, so nothing is ever answered by a plugin either. *)
Definition is_auto (m : msg) : bool := match m with MCmd _ (CRole RAuto _) _ _ => true | _ => false end.

Lemma parser_off_quiet_from c ops : parser_on c = false -> forallb (fun m => negb (is_auto m)) ops = true ->
  forall s, pout s = Allow -> ov s <> Some true -> quiet (snd (run c s ops)).
Proof.
  intros Hoff Hna s Hp Hov. rewrite forallb_forall in Hna.
  apply (run_with_inv parses c (fun s => pout s = Allow /\ ov s <> Some true) (fun m => negb (is_auto m) = true) (fun ev => quiet ev));
    [reflexivity| | |split; assumption|exact Hna].
  - intros a b Ha Hb. rewrite forallb_app, Ha, Hb. reflexivity.
  - clear - Hoff. intros s m s1 e1 [Hp Hov] Hm Es.
    assert (Hnp: parses c s = false).
    { unfold parses, qpe. rewrite Hoff. destruct (ov s) as [[|]|]; [congruence|reflexivity|reflexivity]. }
    assert (Hh: harmless c (arrive_with parses c s m)).
    { destruct m; cbn [arrive_with harmless]; try exact I; rewrite Hnp, andb_false_r; reflexivity. }
    destruct (quiet_core _ _ _ _ _ Hh Hp Es) as (E & Q & S1). repeat split; [exact E| |exact Q].
    destruct S1 as [S1|(i & cmd & po & tx & Em & ->)]; [unfold ov in *; rewrite S1; exact Hov|].
    destruct m; cbn [arrive_with] in Em; try discriminate. injection Em as _ -> _ _.
    destruct cmd as [r0 ok|]; [|exact Hov]. destruct r0; cbn; discriminate.
Qed.

(** * 4. settings across a RELOAD                                              *)

Definition rnew (o : rop) : rout :=
  match o with RReload => ONone | RQ _ vnew | RBatch _ vnew => act vnew end.

(** every statement is judged by the registered settings, whatever the session held before *)
Lemma reload_follows_new ops : forall f, rrun f ops = map rnew ops.
Proof.
  unfold rrun. induction ops as [|o r IH]; intros f; [reflexivity|].
  cbn [rrun_with map]. destruct o; cbn [rstep rnew]; rewrite IH; reflexivity.
Qed.

