(** C11 — property theorems only.  Each is a lemma of Proofs.v, Segment.v or MultiProofs.v, an instance of one or a
    conjunction of several, (a single panic site of a decoder) read off the decoder's definition, or (the F21c
    witness) evaluated on the recorded trace, and is audited with [Print Assumptions];
    [Example]s give non-vacuity and pin the model to concrete inputs. *)
From Coq Require Import ZArith NArith List Bool Lia.
From PV Require Import Hostile.Decode Hostile.Multi Hostile.Proofs Hostile.Segment Hostile.MultiProofs.
Import ListNotations.
Local Open Scope Z_scope.

(** ** Every byte string is classified: the per-message classifier never gets stuck, whatever the
    state, the bytes and the backend's replies are. *)
Theorem c11_total : forall o st s obs, r_fin (handle_bytes o st s obs) <> FStuck.
Proof. exact handle_bytes_total. Qed.
Print Assumptions c11_total.

Theorem c11_fuel_irrelevant : forall f1 f2 o st s obs effs zp,
  (length s < f1)%nat -> (f1 <= f2)%nat -> run_fuel f2 o st s obs effs zp = run_fuel f1 o st s obs effs zp.
Proof. exact run_fuel_mono. Qed.
Print Assumptions c11_fuel_irrelevant.

Theorem c11_every_step_consumes : forall o st s obs nx e z obs' rest,
  s <> [] -> step o st s obs = SDone nx e z obs' rest -> (length rest < length s)%nat.
Proof. intros o st s obs nx e z obs' rest _. apply step_progress. Qed.
Print Assumptions c11_every_step_consumes.

(** ** Message granularity does not depend on how TCP cuts the stream: processing [a] and, later,
    [b] (resuming inside a half-received message if need be) is processing [a ++ b]. *)
Theorem c11_segmentation : forall o st a b obs,
  handle_bytes o st (a ++ b) obs = resume o (handle_bytes o st a obs) b.
Proof. exact handle_bytes_app. Qed.
Print Assumptions c11_segmentation.

(** ** read_message: the length field *)
Theorem c11_frame_len_minus1 : forall chk c a b d e r, i32_of a b d e = -1 ->
  read_frame chk (c :: a :: b :: d :: e :: r) = if chk then FPanic else FErr.
Proof. intros. now apply read_frame_spec. Qed.
Print Assumptions c11_frame_len_minus1.

Theorem c11_frame_len_negative : forall chk c a b d e r, i32_of a b d e < -1 -> read_frame chk (c :: a :: b :: d :: e :: r) = FPanic.
Proof. intros. now apply read_frame_spec. Qed.
Print Assumptions c11_frame_len_negative.

Theorem c11_frame_len_below4 : forall chk c a b d e r, 0 <= i32_of a b d e < 4 -> read_frame chk (c :: a :: b :: d :: e :: r) = FErr.
Proof. intros. now apply read_frame_spec. Qed.
Print Assumptions c11_frame_len_below4.

Theorem c11_frame_len4 : forall chk c a b d e r, i32_of a b d e = 4 -> read_frame chk (c :: a :: b :: d :: e :: r) = FOk c 4 [] r.
Proof. intros chk c a b d e r H. destruct (read_frame_spec chk c a b d e r) as (_ & _ & _ & K & _).
  rewrite K, H by (unfold blen; lia). reflexivity. Qed.
Print Assumptions c11_frame_len4.

Theorem c11_frame_complete : forall chk c a b d e r, 4 <= i32_of a b d e -> i32_of a b d e - 4 <= blen r ->
  read_frame chk (c :: a :: b :: d :: e :: r) =
  FOk c (i32_of a b d e) (firstn (Z.to_nat (i32_of a b d e - 4)) r) (skipn (Z.to_nat (i32_of a b d e - 4)) r).
Proof. intros. now apply read_frame_spec. Qed.
Print Assumptions c11_frame_complete.

Theorem c11_frame_truncated : forall chk c a b d e r, 4 <= i32_of a b d e -> blen r < i32_of a b d e - 4 ->
  read_frame chk (c :: a :: b :: d :: e :: r) = FMore.
Proof. intros. now apply read_frame_spec. Qed.
Print Assumptions c11_frame_truncated.

Theorem c11_frame_short_header : forall chk s, (length s < 5)%nat -> read_frame chk s = FMore.
Proof. exact frame_short. Qed.
Print Assumptions c11_frame_short_header.

Theorem c11_frame_accepted_exact : forall chk s c len body rest, read_frame chk s = FOk c len body rest ->
  4 <= len /\ blen body = len - 4 /\ (length rest + 5 <= length s)%nat /\
  exists a b d e, s = c :: a :: b :: d :: e :: body ++ rest /\ len = i32_of a b d e.
Proof. exact frame_ok_inv. Qed.
Print Assumptions c11_frame_accepted_exact.

(** ** get_startup and the password message *)
Theorem c11_startup_len_below4 : forall a b c d r, i32_of a b c d < 4 -> fst (get_startup (a :: b :: c :: d :: r)) = SPanic.
Proof. intros. apply get_startup_spec. left. assumption. Qed.
Print Assumptions c11_startup_len_below4.

Theorem c11_startup_len_below8 : forall a b c d r, 4 <= i32_of a b c d < 8 -> i32_of a b c d - 4 <= blen r ->
  fst (get_startup (a :: b :: c :: d :: r)) = SPanic.
Proof. intros. apply get_startup_spec. right. split; [lia|assumption]. Qed.
Print Assumptions c11_startup_len_below8.

Theorem c11_startup_truncated : forall a b c d r, 4 <= i32_of a b c d -> blen r < i32_of a b c d - 4 ->
  fst (get_startup (a :: b :: c :: d :: r)) = SMore.
Proof. intros. now apply get_startup_spec. Qed.
Print Assumptions c11_startup_truncated.

Theorem c11_startup_params_never_panic : forall s, parse_params s <> Panic.
Proof. exact parse_params_never_panic. Qed.
Print Assumptions c11_startup_params_never_panic.

Theorem c11_startup_params_unterminated : forall s, s <> [] -> ~ In 0%N s -> parse_params s = Err.
Proof. intros s _. apply parse_params_unterminated. Qed.
Print Assumptions c11_startup_params_unterminated.

Theorem c11_startup_params_value_unterminated : forall name v, name <> [] -> ~ In 0%N name -> ~ In 0%N v ->
  parse_params (name ++ 0%N :: v) = Err.
Proof. intros name v _. apply parse_params_value_unterminated. Qed.
Print Assumptions c11_startup_params_value_unterminated.

Theorem c11_password_len_overflow : forall chk a b d e r, i32_of a b d e < -2147483644 ->
  read_password chk (112%N :: a :: b :: d :: e :: r) = if chk then PwPanic else PwMore.
Proof. intros. now apply read_password_spec. Qed.
Print Assumptions c11_password_len_overflow.

Theorem c11_password_len_below4 : forall chk a b d e r, -2147483644 <= i32_of a b d e < 4 ->
  read_password chk (112%N :: a :: b :: d :: e :: r) = PwPanic.
Proof. intros. now apply read_password_spec. Qed.
Print Assumptions c11_password_len_below4.

Theorem c11_password_complete : forall chk a b d e r, 4 <= i32_of a b d e -> i32_of a b d e - 4 <= blen r ->
  read_password chk (112%N :: a :: b :: d :: e :: r) =
  PwOk (firstn (Z.to_nat (i32_of a b d e - 4)) r) (skipn (Z.to_nat (i32_of a b d e - 4)) r).
Proof. intros. now apply read_password_spec. Qed.
Print Assumptions c11_password_complete.

(** ** strings, Close, Describe, Parse, Bind *)
Theorem c11_read_string_panic_iff : forall s, read_string s = Panic <-> s = [].
Proof. exact read_string_panic_iff. Qed.
Print Assumptions c11_read_string_panic_iff.

Theorem c11_read_string_terminated : forall p r, ~ In 0%N p -> read_string (p ++ 0%N :: r) = Ok (lossy p, r).
Proof. exact read_string_terminated. Qed.
Print Assumptions c11_read_string_terminated.

Theorem c11_read_string_missing_terminator : forall s, s <> [] -> ~ In 0%N s -> read_string s = Ok (lossy (removelast s), []).
Proof. exact read_string_unterminated. Qed.
Print Assumptions c11_read_string_missing_terminator.

Theorem c11_close_describe_panic_iff : forall body, dec_target_name body = Panic <-> (length body <= 1)%nat.
Proof. exact dec_target_name_panic_iff. Qed.
Print Assumptions c11_close_describe_panic_iff.

Theorem c11_close_describe_never_err : forall body, dec_target_name body <> Err.
Proof. exact dec_target_name_never_err. Qed.
Print Assumptions c11_close_describe_never_err.

Theorem c11_parse_exact : forall name query x y rest, ~ In 0%N name -> ~ In 0%N query ->
  let np := i16_of x y in
  dec_parse (name ++ 0%N :: query ++ 0%N :: x :: y :: rest) =
    if (length rest <? 4 * Z.to_nat np)%nat then Panic
    else match get_n get_i32 (Z.to_nat np) rest with
         | Ok (tys, _) => Ok (lossy name, lossy query, np, tys) | _ => Panic end.
Proof. exact dec_parse_wellformed. Qed.
Print Assumptions c11_parse_exact.

Theorem c11_parse_types_panic_iff : forall n s,
  (get_n get_i32 n s = Panic <-> (length s < 4 * n)%nat) /\ get_n get_i32 n s <> Err.
Proof. exact get_n_i32_spec. Qed.
Print Assumptions c11_parse_types_panic_iff.

Theorem c11_parse_negative_count : forall name query x y rest, ~ In 0%N name -> ~ In 0%N query -> i16_of x y < 0 ->
  dec_parse (name ++ 0%N :: query ++ 0%N :: x :: y :: rest) = Ok (lossy name, lossy query, i16_of x y, []).
Proof. intros. rewrite dec_parse_wellformed by assumption. replace (Z.to_nat (i16_of x y)) with 0%nat by lia. reflexivity. Qed.
Print Assumptions c11_parse_negative_count.

Theorem c11_parse_reencode_negative_count : forall np, np < 0 -> enc_parse true np = Panic /\ enc_parse false np = Ok tt.
Proof. intros np H. unfold enc_parse. destruct (Z.ltb_spec np 0); [split; reflexivity|lia]. Qed.
Print Assumptions c11_parse_reencode_negative_count.

Theorem c11_parse_name_only : forall name, ~ In 0%N name -> dec_parse (name ++ [0%N]) = Panic.
Proof. intros name H. unfold dec_parse. rewrite read_string_terminated by exact H. reflexivity. Qed.
Print Assumptions c11_parse_name_only.

Theorem c11_parse_no_count : forall name query, ~ In 0%N name -> ~ In 0%N query -> dec_parse (name ++ 0%N :: query ++ [0%N]) = Panic.
Proof. intros. rewrite dec_parse_strings by assumption. reflexivity. Qed.
Print Assumptions c11_parse_no_count.

Theorem c11_parse_half_count : forall name query x, ~ In 0%N name -> ~ In 0%N query -> dec_parse (name ++ 0%N :: query ++ [0%N; x]) = Panic.
Proof. intros. rewrite dec_parse_strings by assumption. reflexivity. Qed.
Print Assumptions c11_parse_half_count.

Theorem c11_parse_never_err : forall body, dec_parse body <> Err.
Proof. exact dec_parse_never_err. Qed.
Print Assumptions c11_parse_never_err.

Theorem c11_bind_negative_format_count : forall x y s, i16_of x y < 0 -> read_formats (x :: y :: s) = Panic.
Proof. intros x y s H. unfold read_formats. cbn [get_i16 bind].
  destruct (Z.eqb_spec (i16_of x y) 0), (Z.eqb_spec (i16_of x y) 1), (Z.ltb_spec (i16_of x y) 0); reflexivity || lia. Qed.
Print Assumptions c11_bind_negative_format_count.

Theorem c11_bind_bad_format_code : forall x y u v s, i16_of x y = 1 -> i16_of u v <> 0 -> i16_of u v <> 1 ->
  read_formats (x :: y :: u :: v :: s) = Panic.
Proof. intros x y u v s H1 H2 H3. unfold read_formats, get_fmt. cbn [get_i16 bind].
  rewrite H1, (proj2 (fmt_code_spec _) (conj H2 H3)). reflexivity. Qed.
Print Assumptions c11_bind_bad_format_code.

Theorem c11_bind_format_code_panic_iff : forall z, fmt_code z = Panic <-> (z <> 0 /\ z <> 1).
Proof. exact fmt_code_spec. Qed.
Print Assumptions c11_bind_format_code_panic_iff.

Theorem c11_bind_fewer_formats_than_params : forall l i, (length l <= i)%nat -> fmt_at (PSpecified l) i = Panic.
Proof. intros l i H. cbn [fmt_at]. apply nth_error_None in H. rewrite H. reflexivity. Qed.
Print Assumptions c11_bind_fewer_formats_than_params.

Theorem c11_bind_inference_never_err : forall ph body, infer_bind ph body <> Err.
Proof. exact infer_bind_never_err. Qed.
Print Assumptions c11_bind_inference_never_err.

(** ** try_execute_command, admin *)
Theorem c11_comment_routing_len4 : forall code body, (code = 80 \/ code = 81)%N -> tec_prefix true code 4 body = Panic.
Proof. intros code body [-> | ->]; reflexivity. Qed.
Print Assumptions c11_comment_routing_len4.

Theorem c11_query_empty_body : forall regex len, tec_prefix regex 81%N len [] = Panic.
Proof. intros regex len. unfold tec_prefix. cbn. destruct (regex && true && (len =? 4))%bool; reflexivity. Qed.
Print Assumptions c11_query_empty_body.

Theorem c11_command_prefix_never_err : forall regex code len body, tec_prefix regex code len body <> Err.
Proof. exact tec_never_err. Qed.
Print Assumptions c11_command_prefix_never_err.

(** ** Before authentication: the only effects are replies to the sender and one cancel-map
    lookup; a client entry (FxRegister) exists only after the credentials check passed. *)
Theorem c11_preauth_isolated : forall o st s obs, preauth st = true ->
  let r := handle_bytes o st s obs in
  forallb harmless (before_register (r_effs r)) = true /\
  (existsb is_register (r_effs r) = false -> fin_preauth r).
Proof. exact handle_bytes_preauth. Qed.
Print Assumptions c11_preauth_isolated.

Theorem c11_register_requires_credentials : forall o st s obs, preauth st = true ->
  preauth_ok (auth_ok o st s) (step o st s obs).
Proof. exact step_preauth. Qed.
Print Assumptions c11_register_requires_credentials.

(** ** The state and the effect log agree about holding a server: a task that ends has given
    its server back (FxRelease / FxCleanupOnEof / FxDropHeld), whatever the bytes were. *)
Theorem c11_task_end_gives_server_back : forall o st s obs, fin_balanced (holds st) (handle_bytes o st s obs).
Proof. exact handle_bytes_balanced. Qed.
Print Assumptions c11_task_end_gives_server_back.

(** ** Statement caching on: Closes of named statements — the sender's own names, another client's, the pooler's
    PGCAT_n — are answered by the pooler; a batch made of them forwards nothing, so the statements a backend session
    holds are unchanged by them. *)
Theorem c11_named_close_answered_locally : forall xs, forallb named_close xs = true -> fst (sync_walk true xs false []) = false.
Proof. intros xs. apply sync_walk_named_closes. Qed.
Print Assumptions c11_named_close_answered_locally.

(** ** Client bytes alone never make the task wait on its server: a step blocks only if the
    backend leaves a forwarded message unanswered, or in the recorded class F21c (COPY started
    by an Execute, then CopyDone/CopyFail). *)
Theorem c11_block_only_when_server_silent : forall o st s obs, blocked_reason st obs (step o st s obs).
Proof. exact step_blocked. Qed.
Print Assumptions c11_block_only_when_server_silent.

(** ** The sender only. *)
Theorem c11_sender_only : forall o tr, clean_handoff tr ->
  let w := exec o world0 tr in
  inv w /\
  (forall w0 e y, y <> e_cid e -> getc y (cls (ev o w0 e)) = getc y (cls w0)) /\
  (no_block o world0 tr = true ->
     all_unblocked w /\
     forall e, (e_dirty e = true -> e_unclean e = true) -> blocks o w e = false -> e_close e = true ->
       c_alive (getd (e_cid e) (cls (ev o w e))) = false /\ c_held (getd (e_cid e) (cls (ev o w e))) = None).
Proof.
  intros o tr Hc w. assert (Hi : inv w) by (apply exec_inv; [exact Hc|exact inv0]).
  split; [exact Hi|]. split; [intros; apply ev_frame; assumption|].
  intros Hn. assert (Hu : all_unblocked w) by (apply exec_unblocked; [intros x c H; discriminate|exact Hn]).
  split; [exact Hu|]. intros e He Hb Hk. apply ev_close_gives_back; try assumption.
  unfold getd. destruct (getc (e_cid e) (cls w)) eqn:E; [exact (Hu _ _ E)|reflexivity].
Qed.
Print Assumptions c11_sender_only.

(** The guard [no_block] is needed: the recorded class F21c.  Trust auth; Parse, Bind, Execute,
    Sync whose Execute starts COPY FROM STDIN (terminators seen: ReadyForQuery of the login,
    CopyInResponse); then CopyDone.  The task waits on its server, the client's leaving is not
    noticed, the only live connection is neither idle nor closed. *)
Theorem c11_sender_only_refuted : clean_handoff f21c_trace /\ no_block o_demo world0 f21c_trace = false /\
  let w := exec o_demo world0 f21c_trace in
  exists c, getc 0%nat (cls w) = Some c /\ c_blocked c = true /\ c_held c = Some (mkK false false) /\ free w = [] /\ opened w = 1%nat.
Proof.
  split; [repeat constructor; discriminate|]. split; [vm_compute; reflexivity|].
  vm_compute. eexists. repeat split.
Qed.
Print Assumptions c11_sender_only_refuted.

(** ** Non-vacuity / the panic-site table on concrete inputs *)
Definition o_plain (chk : bool) : opts :=
  mkO chk false false false false None true [117]%N [100; 98]%N false false [1]%N [1]%N (fun _ => 0%N) (fun _ => []) (fun _ => 0%N).
Definition o_all (chk : bool) : opts :=
  mkO chk true true true true None true [117]%N [100; 98]%N false false [1]%N [1]%N (fun _ => 0%N) (fun _ => [1]) (fun _ => 0%N).
Definition fin_of (r : rres) := fst (classify r).

(* Close with body "S" inside a transaction: the panic that used to poison the next client (F1) *)
Example ex_close_kind_only : fin_of (handle_bytes (o_plain true) (InTxn true c0) [67;0;0;0;5;83]%N []) = KPanic /\
  r_effs (handle_bytes (o_plain true) (InTxn true c0) [67;0;0;0;5;83]%N []) = [FxDropHeld].
Proof. vm_compute. split; reflexivity. Qed.
(* startup packets *)
Example ex_startup_len3 : fin_of (handle_bytes (o_plain true) PreStartup [0;0;0;3]%N []) = KPanic. Proof. reflexivity. Qed.
Example ex_startup_len_neg : fin_of (handle_bytes (o_plain false) PreStartup [255;255;255;255]%N []) = KPanic. Proof. reflexivity. Qed.
Example ex_startup_len8_cancel : fin_of (handle_bytes (o_plain true) PreStartup [0;0;0;8;4;210;22;46]%N []) = KPanic. Proof. reflexivity. Qed.
Example ex_startup_huge_waits : fin_of (handle_bytes (o_plain true) PreStartup [127;255;255;255;0;3;0;0]%N []) = KNeed. Proof. reflexivity. Qed.
(* frame lengths: debug vs release *)
Example ex_len_m1_debug : fin_of (handle_bytes (o_plain true) (Idle c0) [81;255;255;255;255]%N []) = KPanic. Proof. reflexivity. Qed.
Example ex_len_m1_release : fin_of (handle_bytes (o_plain false) (Idle c0) [81;255;255;255;255]%N []) = KErr. Proof. reflexivity. Qed.
Example ex_len_m2 : fin_of (handle_bytes (o_plain false) (Idle c0) [81;255;255;255;254]%N []) = KPanic. Proof. reflexivity. Qed.
Example ex_len_0 : fin_of (handle_bytes (o_plain true) (Idle c0) [81;0;0;0;0]%N []) = KErr. Proof. reflexivity. Qed.
(* Query with an empty body at idle: try_execute_command's unwrap *)
Example ex_q_len4 : fin_of (handle_bytes (o_plain true) (Idle c0) [81;0;0;0;4]%N []) = KPanic. Proof. reflexivity. Qed.
(* ... but inside a transaction, parser off, it is simply forwarded *)
Example ex_q_len4_txn : fin_of (handle_bytes (o_plain true) (InTxn true c0) [81;0;0;0;4]%N [ZT]) = KCont. Proof. reflexivity. Qed.
(* negative parameter count in Parse with caching: debug panics in the re-encoder, release goes on *)
Example ex_parse_neg_count : fin_of (handle_bytes (o_all true) (Idle c0) [80;0;0;0;9;0;83;0;255;255]%N []) = KPanic /\
                             fin_of (handle_bytes (o_all false) (Idle c0) [80;0;0;0;9;0;83;0;255;255]%N []) = KCont.
Proof. vm_compute. split; reflexivity. Qed.
(* Bind with format code 2 after a Parse that left a sharding-key placeholder *)
Example ex_bind_bad_format : fin_of (handle_bytes (o_all true) (Idle (mkC [] [] [1] 0))
     [66;0;0;0;19; 0;0; 0;1;0;2; 0;1; 0;0;0;1;53; 0;0]%N []) = KPanic.
Proof. reflexivity. Qed.
(* the two repaired hangs are no longer blocking *)
Example ex_copydone_outside_copy : classify (handle_bytes (o_plain true) (Idle c0) [99;0;0;0;4]%N []) = (KCont, 3%N). Proof. reflexivity. Qed.
Example ex_copydata_sync_in_copy : classify (handle_bytes (o_plain true) (InCopy false false c0) [100;0;0;0;5;120;83;0;0;0;4]%N []) = (KCont, 5%N). Proof. reflexivity. Qed.
(* a Query while the server is in COPY mode ends the sender's session and discards its server (016496c, F37) *)
Example ex_query_in_copy : classify (handle_bytes (o_plain true) (InCopy false false c0) [81;0;0;0;6;120;0]%N [ZI]) = (KErr, 9%N) /\
  r_effs (handle_bytes (o_plain true) (InCopy false false c0) [81;0;0;0;6;120;0]%N [ZI]) = [FxReply RErrOnly; FxDropHeld].
Proof. vm_compute. split; reflexivity. Qed.
(* the known one *)
Example ex_ext_copy_copydone : classify (handle_bytes (o_plain true) (InCopy false true c0) [99;0;0;0;4]%N [ZI]) = (KBlocked, 5%N). Proof. reflexivity. Qed.
(* caching on: Close of a named statement forgets the name when it ARRIVES (80b6794), so a Bind of that name
   behind it is refused at once with an error reply and the task ends; it is no longer buffered until Sync *)
Example ex_close_then_bind : classify (handle_bytes (o_all true) (Idle (mkC [[115;49]%N] [] [] 0))
     [67;0;0;0;8;83;115;49;0;  66;0;0;0;14;0;115;49;0;0;0;0;0;0;0]%N []) = (KErr, 9%N) /\
  r_effs (handle_bytes (o_all true) (Idle (mkC [[115;49]%N] [] [] 0))
     [67;0;0;0;8;83;115;49;0;  66;0;0;0;14;0;115;49;0;0;0;0;0;0;0]%N []) = [FxReply RErrZ].
Proof. vm_compute. split; reflexivity. Qed.
(* admin: non-Query ends the session, Query with empty body panics *)
Example ex_admin : fin_of (handle_bytes (o_plain true) AdminIdle [80;0;0;0;4]%N []) = KErr /\ fin_of (handle_bytes (o_plain true) AdminIdle [81;0;0;0;4]%N []) = KPanic.
Proof. vm_compute. split; reflexivity. Qed.
(* startup parameters without a terminator are refused, not a panic, since 5c1953d; an empty value is accepted *)
Example ex_params_unterminated : fin_of (handle_bytes (o_plain true) PreStartup [0;0;0;14; 0;3;0;0; 117;115;101;114;0; 117]%N []) = KErr. Proof. reflexivity. Qed.
Example ex_params_empty_value : parse_params [117;115;101;114;0; 0; 100;98;0; 120;0; 0]%N = Ok [([117;115;101;114], []); ([100;98], [120])]%N. Proof. reflexivity. Qed.
(* pre-auth: a wrong password is answered and ends the task; nothing but replies happened *)
Example ex_wrong_password : r_effs (handle_bytes (o_plain true) (AwaitPw false) [112;0;0;0;5;0]%N []) = [FxReply RWrongPw]. Proof. reflexivity. Qed.
