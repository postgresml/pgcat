(** C11 — lemmas about the multi-client abstraction (Multi.v). *)
From Coq Require Import ZArith NArith List Bool Lia.
From PV Require Import Hostile.Decode Hostile.Proofs Hostile.Multi.
Import ListNotations.
Open Scope nat_scope.

Lemma getc_setc_same : forall x v l, getc x (setc x v l) = Some v.
Proof.
  induction l as [|[y c] r IH]; cbn [setc getc].
  - rewrite Nat.eqb_refl. reflexivity.
  - destruct (Nat.eqb y x) eqn:E; cbn [getc]; rewrite E; [reflexivity|exact IH].
Qed.

Lemma getc_setc_other : forall x y v l, y <> x -> getc y (setc x v l) = getc y l.
Proof.
  intros x y v l H. induction l as [|[z c] r IH]; cbn [setc getc].
  - destruct (Nat.eqb_spec x y); [congruence|reflexivity].
  - destruct (Nat.eqb_spec z x) as [->|Hzx]; cbn [getc].
    + destruct (Nat.eqb_spec x y); [congruence|reflexivity].
    + destruct (Nat.eqb z y); [reflexivity|exact IH].
Qed.

Lemma setc_all : forall (P : cl -> Prop) x v l, P v -> (forall y c, getc y l = Some c -> P c) ->
  forall y c, getc y (setc x v l) = Some c -> P c.
Proof.
  intros P x v l Hv Hl y c Hy. destruct (Nat.eq_dec y x) as [->|Hne].
  - rewrite getc_setc_same in Hy. injection Hy as <-. exact Hv.
  - rewrite getc_setc_other in Hy by exact Hne. exact (Hl y c Hy).
Qed.

Lemma held_count_setc : forall x v l,
  held_count (setc x v l) + b2n (is_held (getd x l)) = held_count l + b2n (is_held v).
Proof.
  intros x v l. unfold getd. induction l as [|[y c] r IH]; cbn [setc getc held_count].
  - cbn. lia.
  - destruct (Nat.eqb y x) eqn:E; cbn [held_count]; [lia|]. lia.
Qed.

(** * one client's effects on the shared part *)
Definition some_b {A} (o : option A) : bool := match o with Some _ => true | None => false end.

Definition J (n : nat) (s : sh) (h : bool) : Prop :=
  some_b (s_held s) = h /\
  Forall (fun k => dirty k = false) (s_free s) /\
  s_open s = length (s_free s) + n + b2n h /\
  (forall k, s_held s = Some k -> dirty k = true -> unclean k = true).

Lemma fx_J : forall n e s h f, (e_dirty e = true -> e_unclean e = true) -> J n s h -> J n (fx e s f) (eff_hold h f).
Proof.
  intros n e s h f He (H1 & H2 & H3 & H4). destruct s as [fr op hd]. unfold J in *. cbn [s_held s_free s_open] in *.
  destruct f; cbn [fx eff_hold s_held s_free s_open]; try (repeat split; assumption);
    destruct hd as [k|]; cbn [some_b] in H1; subst h; cbn [b2n s_held s_free s_open some_b] in *;
    try (repeat split; assumption).
  3, 4: (* release, cleanup on eof: closed if the cleanup fails, else back in the pool and clean *)
    destruct (e_cleanup_fails e); cbn [s_held s_free s_open some_b length b2n];
      (repeat split; [assumption || (constructor; [reflexivity|assumption])|lia|discriminate]).
  - (* checkout, nothing held *)
    destruct fr as [|k r]; cbn [s_held s_free s_open some_b length b2n] in *.
    + repeat split; [constructor|lia|]. intros k Hk Hd. injection Hk as <-. discriminate.
    + inversion H2; subst. repeat split; [assumption|lia|]. intros k0 Hk Hd. injection Hk as <-. congruence.
  - (* to server *)
    repeat split; [assumption|assumption|]. intros k0 Hk Hd. injection Hk as <-. cbn [dirty unclean] in *. auto.
  - (* drop held *)
    destruct (unclean k) eqn:U; cbn [s_held s_free s_open some_b length b2n].
    + repeat split; [assumption|lia|discriminate].
    + repeat split; [constructor; [|assumption]|lia|discriminate].
      destruct (dirty k) eqn:D; [|reflexivity]. specialize (H4 k eq_refl D). congruence.
Qed.

Lemma fold_J : forall n e effs s h, (e_dirty e = true -> e_unclean e = true) -> J n s h ->
  J n (fold_left (fx e) effs s) (holding h effs).
Proof.
  intros n e effs. induction effs as [|f r IH]; intros s h He Hj; [exact Hj|].
  unfold holding. cbn [fold_left]. apply IH; [exact He|]. apply fx_J; assumption.
Qed.

Lemma outcome_holding : forall o e c st' pend alive blocked extra,
  is_held c = holds (c_st c) ->
  outcome_of e c (run_of o e c) = (st', pend, alive, blocked, extra) ->
  holding (is_held c) (r_effs (run_of o e c) ++ extra) = (alive && holds st')%bool /\
  (blocked = true -> alive = true).
Proof.
  intros o e c st' pend alive blocked extra Hc Ho.
  pose proof (handle_bytes_balanced (with_avail o (e_avail e)) (c_st c) (c_pend c ++ e_bytes e) (e_obs e)) as B.
  pose proof (handle_bytes_total (with_avail o (e_avail e)) (c_st c) (c_pend c ++ e_bytes e) (e_obs e)) as T.
  fold (run_of o e c) in B, T. unfold fin_balanced in B. unfold outcome_of in Ho. rewrite <- Hc in B.
  rewrite holding_app.
  destruct (r_fin (run_of o e c)) as [st|h|st p|st|]; [| | | |congruence].
  1, 3: destruct (e_close e); injection Ho as <- <- <- <- <-; rewrite B; (split; [|discriminate]);
    [apply on_eof_gives_back|reflexivity].
  - injection Ho as <- <- <- <- <-. rewrite B. split; [reflexivity|discriminate].
  - injection Ho as <- <- <- <- <-. destruct B as [B1 B2]. rewrite B1, B2. split; reflexivity.
Qed.

Lemma getd_ok : forall w x, inv w -> cl_ok (getd x (cls w)).
Proof.
  intros w x (_ & _ & H). unfold getd. destruct (getc x (cls w)) as [c|] eqn:E; [exact (H x c E)|].
  unfold cl_ok, new_cl. cbn. repeat split; try discriminate; try reflexivity.
Qed.

Lemma ev_inv : forall o w e, (e_dirty e = true -> e_unclean e = true) -> inv w -> inv (ev o w e).
Proof.
  intros o w e He Hi. unfold ev.
  set (x := e_cid e). set (c := getd x (cls w)).
  destruct (negb (c_alive c) || c_blocked c)%bool eqn:G; [exact Hi|].
  apply orb_false_elim in G. destruct G as [Ga Gb]. apply negb_false_iff in Ga.
  pose proof (getd_ok w x Hi) as (K1 & K2 & K3 & K4). fold c in K1, K2, K3, K4. specialize (K1 Ga).
  destruct (outcome_of e c (run_of o e c)) as [[[[st' pend] alive] blocked] extra] eqn:Ho.
  destruct (outcome_holding o e c st' pend alive blocked extra K1 Ho) as [Hh Hb].
  destruct Hi as (I1 & I2 & I3).
  (* the connections held by the others *)
  set (n := held_count (setc x new_cl (cls w))).
  pose proof (held_count_setc x new_cl (cls w)) as Hn. fold c n in Hn. cbn [is_held new_cl c_held b2n] in Hn.
  assert (Hj0 : J n (mkS (free w) (opened w) (c_held c)) (is_held c)).
  { unfold J. cbn [s_held s_free s_open]. split; [reflexivity|].
    split; [exact I1|]. split; [rewrite I2; lia|exact K4]. }
  pose proof (fold_J n e (r_effs (run_of o e c) ++ extra) _ _ He Hj0) as (J1 & J2 & J3 & J4).
  rewrite Hh in J1, J3.
  set (s2 := fold_left (fx e) (r_effs (run_of o e c) ++ extra) (mkS (free w) (opened w) (c_held c))) in *.
  unfold inv. cbn [free opened cls]. split; [exact J2|]. split.
  - pose proof (held_count_setc x (mkCl st' pend (s_held s2) alive blocked) (cls w)) as HC. fold c in HC.
    replace (is_held (mkCl st' pend (s_held s2) alive blocked)) with (alive && holds st')%bool in HC
      by (symmetry; exact J1). lia.
  - apply (setc_all cl_ok); [|exact I3]. unfold cl_ok, is_held. cbn [c_alive c_held c_st c_blocked].
    unfold some_b in J1. repeat split.
    + intros ->. rewrite J1. reflexivity.
    + intros ->. cbn [andb] in J1. destruct (s_held s2); [discriminate|reflexivity].
    + exact Hb.
    + exact J4.
Qed.

Lemma inv0 : inv world0.
Proof. unfold inv, world0. cbn. split; [constructor|]. split; [reflexivity|]. intros x c H. discriminate. Qed.

Lemma exec_inv : forall o tr w, clean_handoff tr -> inv w -> inv (exec o w tr).
Proof.
  intros o tr. induction tr as [|e r IH]; intros w Hc Hi; [exact Hi|].
  inversion Hc; subst. cbn [exec fold_left]. apply IH; [assumption|]. apply ev_inv; assumption.
Qed.

Lemma ev_frame : forall o w e y, y <> e_cid e -> getc y (cls (ev o w e)) = getc y (cls w).
Proof.
  intros o w e y H. unfold ev. destruct (negb _ || _)%bool; [reflexivity|].
  destruct (outcome_of e _ _) as [[[[st' pend] alive] blocked] extra]. cbn [cls]. apply getc_setc_other. exact H.
Qed.

Definition all_unblocked (w : world) : Prop := forall x c, getc x (cls w) = Some c -> c_blocked c = false.

Lemma outcome_of_flags : forall e c r st' pend alive blocked extra,
  outcome_of e c r = (st', pend, alive, blocked, extra) ->
  blocked = match r_fin r with FBlocked _ => true | _ => false end /\
  (e_close e = true -> blocked = false -> alive = false).
Proof.
  intros e c r st' pend alive blocked extra. unfold outcome_of.
  destruct (r_fin r); try destruct (e_close e); intros E; injection E as <- <- <- <- <-; split; congruence.
Qed.

Lemma ev_unblocked : forall o w e, all_unblocked w -> blocks o w e = false -> all_unblocked (ev o w e).
Proof.
  intros o w e Hu Hb. unfold ev, blocks in *.
  destruct (negb (c_alive (getd (e_cid e) (cls w))) || c_blocked (getd (e_cid e) (cls w)))%bool; [exact Hu|].
  destruct (outcome_of e _ _) as [[[[st' pend] alive] blocked] extra] eqn:Ho. apply outcome_of_flags in Ho. destruct Ho as [-> _].
  unfold all_unblocked. cbn [cls]. apply (setc_all (fun c => c_blocked c = false)); [exact Hb|exact Hu].
Qed.

Lemma exec_unblocked : forall o tr w, all_unblocked w -> no_block o w tr = true -> all_unblocked (exec o w tr).
Proof.
  intros o tr. induction tr as [|e r IH]; intros w Hu Hn; [exact Hu|].
  cbn [no_block] in Hn. apply andb_prop in Hn. destruct Hn as [Hb Hn]. apply negb_true_iff in Hb.
  cbn [exec fold_left]. apply IH; [|exact Hn]. apply ev_unblocked; assumption.
Qed.

(** when the sender leaves, its connection has been given back (returned clean, or closed) *)
Lemma ev_close_gives_back : forall o w e, (e_dirty e = true -> e_unclean e = true) -> inv w ->
  c_blocked (getd (e_cid e) (cls w)) = false -> blocks o w e = false -> e_close e = true ->
  let c' := getd (e_cid e) (cls (ev o w e)) in c_alive c' = false /\ c_held c' = None.
Proof.
  intros o w e He Hi Hb Hk Hc c'.
  pose proof (ev_inv o w e He Hi) as Hi'. pose proof (getd_ok _ (e_cid e) Hi') as (_ & K2 & _ & _). fold c' in K2.
  assert (Ha : c_alive c' = false); [|split; [exact Ha|exact (K2 Ha)]].
  subst c'. unfold ev, blocks in *. rewrite Hb in *. rewrite orb_false_r in *.
  destruct (negb (c_alive (getd (e_cid e) (cls w)))) eqn:A; [apply negb_true_iff in A; exact A|].
  destruct (outcome_of e _ _) as [[[[st' pend] alive] blocked] extra] eqn:Ho. apply outcome_of_flags in Ho.
  destruct Ho as [-> Ho]. cbn [cls]. unfold getd. rewrite getc_setc_same. exact (Ho Hc Hk).
Qed.

(** * the recorded class F21c as a witness *)
Definition o_demo : opts :=
  mkO true false false false false None true [117]%N [100; 98]%N true true [] [] (fun _ => 0%N) (fun _ => []) (fun _ => 0%N).
Definition f21c_bytes : bytes :=
  [0;0;0;28; 0;3;0;0; 117;115;101;114;0; 117;0; 100;97;116;97;98;97;115;101;0; 100;98;0; 0;
   80;0;0;0;9; 0;67;0;0;0;   66;0;0;0;12; 0;0;0;0;0;0;0;0;   69;0;0;0;9; 0;0;0;0;0;   83;0;0;0;4;   99;0;0;0;4]%N.
Definition f21c_trace : list event :=
  [mkE 0 true f21c_bytes [ZI; ZG] true false false false; mkE 0 true [] [] true false false false].
