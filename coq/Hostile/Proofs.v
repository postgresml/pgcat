(** C11 — lemmas about Decode.v (decoders and the per-message classifier). *)
From Coq Require Import ZArith NArith List Bool Lia.
From PV Require Import Hostile.Decode.
Import ListNotations.
Local Open Scope Z_scope.

Lemma read_string_panic_iff : forall s, read_string s = Panic <-> s = [].
Proof.
  intros s. unfold read_string. split; [|intros ->; reflexivity].
  destruct (split0 s) as [[p r]|]; [discriminate|]. destruct s; [reflexivity|discriminate].
Qed.

Lemma read_string_never_err : forall s, read_string s <> Err.
Proof. intros s. unfold read_string. destruct (split0 s) as [[p r]|]; [discriminate|]. destruct s; discriminate. Qed.

Lemma split0_none_no_nul : forall s, split0 s = None <-> ~ In 0%N s.
Proof.
  induction s as [|c r IH]; cbn [split0]; [split; [intros _ []|reflexivity]|].
  destruct (N.eqb_spec c 0) as [->|Hc]; [split; [discriminate|]; intros H; destruct H; left; reflexivity|].
  destruct (split0 r) as [[p q]|].
  - split; [discriminate|]. intros H. assert (Hn : ~ In 0%N r) by (intros Hi; apply H; right; exact Hi).
    apply IH in Hn. discriminate.
  - split; [|reflexivity]. intros _ [H|H]; [congruence|exact (proj1 IH eq_refl H)].
Qed.

Lemma split0_app : forall p r, ~ In 0%N p -> split0 (p ++ 0%N :: r) = Some (p, r).
Proof.
  induction p as [|c p IH]; intros r H; cbn [app split0]; [reflexivity|]. cbn [In] in H.
  destruct (N.eqb_spec c 0) as [->|Hc]; [tauto|]. rewrite IH by tauto. reflexivity.
Qed.

Lemma read_string_terminated : forall p r, ~ In 0%N p -> read_string (p ++ 0%N :: r) = Ok (lossy p, r).
Proof. intros p r H. unfold read_string. rewrite split0_app by exact H. reflexivity. Qed.

Lemma read_string_unterminated : forall s, s <> [] -> ~ In 0%N s -> read_string s = Ok (lossy (removelast s), []).
Proof.
  intros s Hne H. unfold read_string. apply split0_none_no_nul in H. rewrite H. destruct s; [congruence|reflexivity].
Qed.

(** * The three readers of a length-prefixed packet *)

(** [n] announced bytes that are there are cut off in the same way when more bytes follow *)
Lemma split_at_app : forall n (r b : bytes), n <= blen r ->
  (n <=? blen (r ++ b)) = true /\
  firstn (Z.to_nat n) (r ++ b) = firstn (Z.to_nat n) r /\ skipn (Z.to_nat n) (r ++ b) = skipn (Z.to_nat n) r ++ b.
Proof.
  unfold blen. intros n r b H. rewrite app_length, firstn_app, skipn_app.
  replace (Z.to_nat n - length r)%nat with 0%nat by lia. cbn [firstn skipn]. rewrite app_nil_r.
  repeat split. apply Z.leb_le. lia.
Qed.

(** read_message by the length field (the table above [Decode.read_frame]) *)
Lemma read_frame_spec : forall chk c a b d e r,
  (i32_of a b d e = -1 -> read_frame chk (c :: a :: b :: d :: e :: r) = if chk then FPanic else FErr) /\
  (i32_of a b d e < -1 -> read_frame chk (c :: a :: b :: d :: e :: r) = FPanic) /\
  (0 <= i32_of a b d e < 4 -> read_frame chk (c :: a :: b :: d :: e :: r) = FErr) /\
  (4 <= i32_of a b d e -> i32_of a b d e - 4 <= blen r -> read_frame chk (c :: a :: b :: d :: e :: r) =
     FOk c (i32_of a b d e) (firstn (Z.to_nat (i32_of a b d e - 4)) r) (skipn (Z.to_nat (i32_of a b d e - 4)) r)) /\
  (4 <= i32_of a b d e -> blen r < i32_of a b d e - 4 -> read_frame chk (c :: a :: b :: d :: e :: r) = FMore).
Proof.
  intros. cbn [read_frame]. generalize (i32_of a b d e). intros len.
  destruct (Z.eqb_spec len (-1)); [|destruct (Z.ltb_spec len (-1)); [|destruct (Z.ltb_spec len 4);
    [|destruct (Z.leb_spec (len - 4) (blen r))]]]; repeat split; intros; reflexivity || lia.
Qed.

Lemma frame_short : forall chk s, (length s < 5)%nat -> read_frame chk s = FMore.
Proof. intros chk s H. do 5 (destruct s as [|? s]; [reflexivity|]). cbn [length] in H. lia. Qed.

Lemma frame_ok_inv : forall chk s c len body rest, read_frame chk s = FOk c len body rest ->
  4 <= len /\ blen body = len - 4 /\ (length rest + 5 <= length s)%nat /\
  exists a b d e, s = c :: a :: b :: d :: e :: body ++ rest /\ len = i32_of a b d e.
Proof.
  intros chk s c len body rest H.
  destruct s as [|c0 [|a [|b [|d [|e r]]]]]; try discriminate. cbn [read_frame] in H.
  destruct (i32_of a b d e =? -1); [destruct chk; discriminate|].
  destruct (i32_of a b d e <? -1); [discriminate|].
  destruct (Z.ltb_spec (i32_of a b d e) 4); [discriminate|].
  destruct (Z.leb_spec (i32_of a b d e - 4) (blen r)) as [Hle|]; [|discriminate].
  injection H as <- <- <- <-. unfold blen in *.
  rewrite firstn_length_le, skipn_length by lia. cbn [length].
  repeat split; try lia. exists a, b, d, e. rewrite firstn_skipn. split; reflexivity.
Qed.

Lemma read_frame_app : forall chk s b,
  match read_frame chk s with
  | FOk c len body rest => read_frame chk (s ++ b) = FOk c len body (rest ++ b)
  | FMore => True
  | x => read_frame chk (s ++ b) = x
  end.
Proof.
  intros chk s b. destruct s as [|c [|a0 [|b0 [|d [|e r]]]]]; try exact I. cbn [read_frame app].
  destruct (i32_of a0 b0 d e =? -1); [destruct chk; reflexivity|].
  destruct (i32_of a0 b0 d e <? -1); [reflexivity|].
  destruct (i32_of a0 b0 d e <? 4); [reflexivity|].
  destruct (Z.leb_spec (i32_of a0 b0 d e - 4) (blen r)) as [Hle|]; [|exact I].
  destruct (split_at_app _ _ b Hle) as (-> & -> & ->). reflexivity.
Qed.

Lemma get_startup_spec : forall a b c d r,
  (i32_of a b c d < 4 \/ i32_of a b c d < 8 /\ i32_of a b c d - 4 <= blen r ->
     fst (get_startup (a :: b :: c :: d :: r)) = SPanic) /\
  (4 <= i32_of a b c d -> blen r < i32_of a b c d - 4 -> fst (get_startup (a :: b :: c :: d :: r)) = SMore).
Proof.
  intros. cbn [get_startup]. generalize (i32_of a b c d). intros len.
  destruct (Z.ltb_spec len 4), (Z.leb_spec (len - 4) (blen r)); split; intros; try reflexivity; try lia.
  assert (Hl : (length (firstn (Z.to_nat (len - 4)) r) <= 3)%nat) by (rewrite firstn_length; lia).
  destruct (firstn (Z.to_nat (len - 4)) r) as [|w [|x [|y [|z ps]]]]; try reflexivity. cbn [length] in Hl. lia.
Qed.

Lemma startup_short : forall s, (length s < 4)%nat -> fst (get_startup s) = SMore.
Proof. intros s H. do 4 (destruct s as [|? s]; [reflexivity|]). cbn [length] in H. lia. Qed.

Lemma get_startup_app : forall s b,
  match get_startup s with
  | (SMore, _) => True
  | (x, rest) => (length rest < length s)%nat /\ get_startup (s ++ b) = (x, rest ++ b)
  end.
Proof.
  intros s b. destruct s as [|a0 [|b0 [|c [|d r]]]]; try exact I. cbn [get_startup app length].
  destruct (i32_of a0 b0 c d <? 4); [split; [lia|reflexivity]|].
  destruct (Z.leb_spec (i32_of a0 b0 c d - 4) (blen r)) as [Hle|]; [|exact I].
  destruct (split_at_app _ _ b Hle) as (-> & -> & ->).
  assert (Hs : (length (skipn (Z.to_nat (i32_of a0 b0 c d - 4)) r) <= length r)%nat) by (rewrite skipn_length; lia).
  destruct (firstn (Z.to_nat (i32_of a0 b0 c d - 4)) r) as [|w [|x0 [|y [|z ps]]]]; try (split; [lia|reflexivity]).
  destruct (i32_of w x0 y z =? SSL_REQUEST_CODE); [|destruct (i32_of w x0 y z =? PROTOCOL_VERSION_NUMBER);
    [|destruct (i32_of w x0 y z =? CANCEL_REQUEST_CODE)]]; split; lia || reflexivity.
Qed.

Lemma read_password_spec : forall chk a b d e r,
  (i32_of a b d e < -2147483644 -> read_password chk (112%N :: a :: b :: d :: e :: r) = if chk then PwPanic else PwMore) /\
  (-2147483644 <= i32_of a b d e < 4 -> read_password chk (112%N :: a :: b :: d :: e :: r) = PwPanic) /\
  (4 <= i32_of a b d e -> i32_of a b d e - 4 <= blen r -> read_password chk (112%N :: a :: b :: d :: e :: r) =
     PwOk (firstn (Z.to_nat (i32_of a b d e - 4)) r) (skipn (Z.to_nat (i32_of a b d e - 4)) r)).
Proof.
  intros. cbn [read_password N.eqb Pos.eqb negb]. generalize (i32_of a b d e). intros len.
  destruct (Z.ltb_spec len (-2147483644)); [|destruct (Z.ltb_spec len 4); [|destruct (Z.leb_spec (len - 4) (blen r))]];
    repeat split; intros; reflexivity || lia.
Qed.

Lemma pw_bad_code : forall chk c s, c <> 112%N -> read_password chk (c :: s) = PwBadCode.
Proof. intros chk c s H. cbn [read_password]. destruct (N.eqb_spec c 112); [congruence|reflexivity]. Qed.

Lemma read_password_app : forall chk s b,
  match read_password chk s with
  | PwOk resp rest => (length rest < length s)%nat /\ read_password chk (s ++ b) = PwOk resp (rest ++ b)
  | PwMore => True
  | x => read_password chk (s ++ b) = x
  end.
Proof.
  intros chk s b. destruct s as [|c s1]; [exact I|]. cbn [read_password app].
  destruct (negb (c =? 112)%N); [reflexivity|].
  destruct s1 as [|a0 [|b0 [|d [|e r]]]]; try exact I. cbn [app].
  destruct (i32_of a0 b0 d e <? -2147483644); [destruct chk; [reflexivity|exact I]|].
  destruct (i32_of a0 b0 d e <? 4); [reflexivity|].
  destruct (Z.leb_spec (i32_of a0 b0 d e - 4) (blen r)) as [Hle|]; [|exact I].
  destruct (split_at_app _ _ b Hle) as (-> & -> & ->). rewrite skipn_length. cbn [length]. split; [lia|reflexivity].
Qed.

(** * parse_params (after 5c1953d: no panic is left in it) *)
Lemma params_walk_never_panic : forall fuel s acc, params_walk fuel s acc <> Panic.
Proof.
  induction fuel as [|f IH]; intros s acc; cbn [params_walk]; [discriminate|].
  destruct s as [|x s']; [discriminate|].
  destruct (split0 (x :: s')) as [[[|n0 name'] r1]|]; try discriminate.
  destruct (split0 r1) as [[v r2]|]; [apply IH|discriminate].
Qed.

Lemma parse_params_never_panic : forall s, parse_params s <> Panic.
Proof.
  intros s. unfold parse_params. pose proof (params_walk_never_panic (S (length s)) s []) as H.
  destruct (params_walk (S (length s)) s []) as [[|p l]| |]; congruence.
Qed.

Lemma parse_params_empty : parse_params [] = Err.
Proof. reflexivity. Qed.

(** a first string without its terminator: Err (it used to run off the end of the buffer) *)
Lemma parse_params_unterminated : forall s, ~ In 0%N s -> parse_params s = Err.
Proof.
  intros s H. unfold parse_params. cbn [params_walk]. destruct s as [|x s']; [reflexivity|].
  apply split0_none_no_nul in H. rewrite H. reflexivity.
Qed.

Lemma parse_params_value_unterminated : forall name v, ~ In 0%N name -> ~ In 0%N v ->
  parse_params (name ++ 0%N :: v) = Err.
Proof.
  intros name v Hi Hv. unfold parse_params. cbn [params_walk].
  destruct (name ++ 0%N :: v) as [|x s'] eqn:E; [destruct name; discriminate|]. rewrite <- E.
  rewrite split0_app by exact Hi. destruct name as [|n0 name']; [reflexivity|].
  apply split0_none_no_nul in Hv. rewrite Hv. reflexivity.
Qed.

(** * Decoders never answer [Err] where pgcat has no [Err] to return: a chain of readers does not if none of them does *)
Lemma bind_never_err : forall A B (r : res A) (f : A -> res B), r <> Err -> (forall a, f a <> Err) -> bind r f <> Err.
Proof. intros A B [a| |] f Hr Hf; [apply Hf|congruence|discriminate]. Qed.

Lemma get_n_never_err : forall A (g : bytes -> res (A * bytes)), (forall s, g s <> Err) -> forall n s, get_n g n s <> Err.
Proof.
  intros A g Hg. induction n as [|n IH]; intros s; cbn [get_n]; [discriminate|].
  apply bind_never_err; [apply Hg|intros [a r]]. apply bind_never_err; [apply IH|intros [l r']; discriminate].
Qed.

Lemma get_u8_never_err : forall s, get_u8 s <> Err.
Proof. intros [|? ?]; discriminate. Qed.

Lemma get_i16_never_err : forall s, get_i16 s <> Err.
Proof. intros [|? [|? ?]]; discriminate. Qed.

Lemma get_i32_spec : forall s, (get_i32 s = Panic <-> (length s < 4)%nat) /\ get_i32 s <> Err.
Proof.
  intros s. destruct s as [|a [|b [|c [|d r]]]]; cbn [get_i32 length]; (split; [split; [try lia; try discriminate|try reflexivity; try lia]|discriminate]).
Qed.

Lemma take_exact_never_err : forall n s, take_exact n s <> Err.
Proof. intros n s. unfold take_exact. destruct (n <=? blen s); discriminate. Qed.

(** * Close / Describe *)
Lemma dec_target_name_panic_iff : forall body, dec_target_name body = Panic <-> (length body <= 1)%nat.
Proof.
  intros [|k s]; unfold dec_target_name; cbn [get_u8 bind length]; [split; [lia|reflexivity]|].
  pose proof (read_string_panic_iff s) as P. pose proof (read_string_never_err s) as E.
  destruct (read_string s) as [[n r]| |]; cbn [bind]; [|congruence|].
  - destruct s; [discriminate (proj2 P eq_refl)|cbn [length]; split; [discriminate|lia]].
  - rewrite (proj1 P eq_refl). split; [cbn [length]; lia|reflexivity].
Qed.

Lemma dec_target_name_never_err : forall body, dec_target_name body <> Err.
Proof.
  intros body. apply bind_never_err; [apply get_u8_never_err|intros [k s]].
  apply bind_never_err; [apply read_string_never_err|intros [n r]; discriminate].
Qed.

Lemma get_n_i32_spec : forall n s,
  (get_n get_i32 n s = Panic <-> (length s < 4 * n)%nat) /\ get_n get_i32 n s <> Err.
Proof.
  split; [|apply get_n_never_err; intros; apply get_i32_spec]. revert s.
  induction n as [|n IH]; intros s; cbn [get_n]; [split; [discriminate|lia]|].
  destruct s as [|a [|b [|c [|d r]]]]; cbn [get_i32 bind length]; try (split; [lia|reflexivity]).
  transitivity (get_n get_i32 n r = Panic); [|rewrite IH; lia].
  destruct (get_n get_i32 n r) as [[l r']| |]; cbn [bind]; split; congruence.
Qed.

Lemma dec_parse_never_err : forall body, dec_parse body <> Err.
Proof.
  intros body. apply bind_never_err; [apply read_string_never_err|intros [name s1]].
  apply bind_never_err; [apply read_string_never_err|intros [query s2]].
  apply bind_never_err; [apply get_i16_never_err|intros [np s3]].
  apply bind_never_err; [apply get_n_i32_spec|intros [tys r]; discriminate].
Qed.

Lemma dec_parse_strings : forall name query s, ~ In 0%N name -> ~ In 0%N query ->
  dec_parse (name ++ 0%N :: query ++ 0%N :: s) =
    ('(np, s3) <- get_i16 s ;; '(tys, _) <- get_n get_i32 (Z.to_nat np) s3 ;; Ok (lossy name, lossy query, np, tys)).
Proof.
  intros name query s Hn Hq. unfold dec_parse. rewrite read_string_terminated by exact Hn. cbn [bind].
  rewrite read_string_terminated by exact Hq. reflexivity.
Qed.

(** exact prediction: the body decodes iff [4 * max count 0] bytes of types are present *)
Lemma dec_parse_wellformed : forall name query x y rest, ~ In 0%N name -> ~ In 0%N query ->
  let np := i16_of x y in
  dec_parse (name ++ 0%N :: query ++ 0%N :: x :: y :: rest) =
    if (length rest <? 4 * Z.to_nat np)%nat then Panic
    else match get_n get_i32 (Z.to_nat np) rest with
         | Ok (tys, _) => Ok (lossy name, lossy query, np, tys) | _ => Panic end.
Proof.
  intros name query x y rest Hn Hq np. rewrite dec_parse_strings by assumption. cbn [get_i16 bind]. fold np.
  destruct (get_n_i32_spec (Z.to_nat np) rest) as [[I1 I2] I3].
  destruct (Nat.ltb_spec (length rest) (4 * Z.to_nat np)) as [Hl|Hl]; [rewrite (I2 Hl); reflexivity|].
  destruct (get_n get_i32 (Z.to_nat np) rest) as [[tys r]| |]; cbn [bind]; congruence.
Qed.

Lemma dec_parse_empty : dec_parse [] = Panic.
Proof. reflexivity. Qed.

Lemma enc_parse_nonneg : forall chk np, 0 <= np -> enc_parse chk np = Ok tt.
Proof. intros chk np H. unfold enc_parse. destruct (Z.ltb_spec np 0); [lia|reflexivity]. Qed.

(** * infer_shard_from_bind *)
Lemma fmt_code_spec : forall z, fmt_code z = Panic <-> (z <> 0 /\ z <> 1).
Proof.
  intros z. unfold fmt_code. destruct (Z.eqb_spec z 0), (Z.eqb_spec z 1); split; try discriminate; try reflexivity; lia.
Qed.

Lemma get_fmt_never_err : forall s, get_fmt s <> Err.
Proof.
  intros s. apply bind_never_err; [apply get_i16_never_err|intros [z r]].
  unfold fmt_code. destruct (z =? 0), (z =? 1); discriminate.
Qed.

Lemma read_formats_never_err : forall s, read_formats s <> Err.
Proof.
  intros s. apply bind_never_err; [apply get_i16_never_err|intros [n s1]].
  destruct (n =? 0); [discriminate|]. destruct (n =? 1).
  - apply bind_never_err; [apply get_fmt_never_err|intros [b s2]; discriminate].
  - destruct (n <? 0); [discriminate|].
    apply bind_never_err; [apply get_n_never_err, get_fmt_never_err|intros [l s2]; discriminate].
Qed.

Lemma bind_params_never_err : forall ph f count i s, bind_params ph f i count s <> Err.
Proof.
  intros ph f. induction count as [|k IH]; intros i s; cbn [bind_params]; [discriminate|].
  apply bind_never_err; [apply get_i32_spec|intros [l s1]].
  apply bind_never_err; [destruct f; cbn [fmt_at]; try discriminate; destruct (nth_error l0 i); discriminate|intros b].
  destruct (in_ph ph i); [|apply IH].
  destruct b; [destruct (_ || _ || _)%bool; [|apply IH]|];
    (apply bind_never_err; [apply take_exact_never_err|intros [t s2]; apply IH]).
Qed.

Lemma infer_bind_never_err : forall ph body, infer_bind ph body <> Err.
Proof.
  intros ph body. apply bind_never_err; [apply read_string_never_err|intros [p s1]].
  apply bind_never_err; [apply read_string_never_err|intros [n s2]].
  apply bind_never_err; [apply read_formats_never_err|intros [f s3]].
  apply bind_never_err; [apply get_i16_never_err|intros [np s4]]. apply bind_params_never_err.
Qed.

(** * try_execute_command, admin *)
Lemma tec_not_query : forall code len body, code <> 81%N -> code <> 80%N -> forall regex, tec_prefix regex code len body = Ok None.
Proof.
  intros code len body H1 H2 regex. unfold tec_prefix.
  destruct (N.eqb_spec code 80); [congruence|]. destruct (N.eqb_spec code 81); [congruence|].
  cbn [orb andb negb]. rewrite andb_false_r. reflexivity.
Qed.

Lemma tec_never_err : forall regex code len body, tec_prefix regex code len body <> Err.
Proof.
  intros. unfold tec_prefix. destruct (regex && _ && _)%bool; [discriminate|]. destruct (negb _); [discriminate|].
  apply bind_never_err; [apply read_string_never_err|intros [q r]; discriminate].
Qed.

Lemma admin_prefix_spec : forall code len,
  admin_prefix code len = (if negb (code =? 81)%N then Err else if len =? 4 then Panic else Ok tt).
Proof. reflexivity. Qed.

(** * Closes of named statements
    With statement caching on, a Close of a NAMED statement never goes to the server: whatever name the sender puts
    in it (its own, another client's, the pooler's PGCAT_n), the statements a backend session holds are not the
    sender's to close.  A batch made of such Closes only is answered by the pooler (nothing is forwarded). *)
Definition named_close (x : xitem) : bool :=
  match x with XClose k (_ :: _) => (k =? 83)%N | _ => false end.

Lemma sync_walk_named_closes : forall xs fwd q, forallb named_close xs = true -> fst (sync_walk true xs fwd q) = fwd.
Proof.
  induction xs as [|x xs IH]; intros fwd q H; cbn [sync_walk]; [reflexivity|].
  cbn [forallb] in H. apply andb_prop in H. destruct H as [Hx Hxs].
  destruct x as [| m | m | | k [|n0 n']]; try discriminate.
  cbn [named_close] in Hx. rewrite Hx. apply IH. exact Hxs.
Qed.

Definition eff_hold (h : bool) (f : eff) : bool :=
  match f with FxCheckout => true | FxRelease | FxCleanupOnEof | FxDropHeld => false | _ => h end.
Definition holding (h0 : bool) (effs : list eff) : bool := fold_left eff_hold effs h0.

Definition is_reply (f : eff) : bool := match f with FxReply _ => true | _ => false end.

Lemma holding_app : forall h a b, holding h (a ++ b) = holding (holding h a) b.
Proof. intros. unfold holding. apply fold_left_app. Qed.

Lemma on_eof_gives_back : forall st, holding (holds st) (snd (on_eof st)) = false.
Proof. intros st. unfold on_eof. destruct (holds st); reflexivity. Qed.

Lemma holding_replies : forall q h, forallb is_reply q = true -> holding h q = h.
Proof.
  induction q as [|f q IH]; intros h H; [reflexivity|]. cbn [forallb] in H. apply andb_prop in H. destruct H as [Hf Hq].
  destruct f; [apply IH, Hq|discriminate Hf..].
Qed.

Lemma sync_walk_replies : forall cache xs fwd q, forallb is_reply (snd (sync_walk cache xs fwd q)) = forallb is_reply q.
Proof.
  induction xs as [|x xs IH]; intros fwd q; cbn [sync_walk]; [reflexivity|].
  destruct x as [| m | m | | k n]; try apply IH.
  destruct (cache && (k =? 83)%N && negb match n with [] => true | _ :: _ => false end)%bool; rewrite IH; [|reflexivity].
  rewrite forallb_app. apply andb_true_r.
Qed.

Definition balanced (h0 : bool) (so : sout) : Prop :=
  match so with
  | SNeed => True
  | SDone (NCont st') e _ _ _ => holding h0 e = holds st'
  | SDone (NBlocked st') e _ _ _ => holding h0 e = holds st' /\ holds st' = true
  | SDone (NEnd _) e _ _ _ => holding h0 e = false
  end.

(** * Message handlers
    What every handler does with a message, seen as a function of the bytes behind the message: they come back
    untouched and nothing else depends on them; the effects agree with the next state about holding a server (which
    was held or not, [h0], before); the task is left waiting on its server only if the backend stayed silent
    ([obs = []]) or in the recorded class F21c. *)
Definition sout_rest (so : sout) : option bytes :=
  match so with SNeed => None | SDone _ _ _ _ r => Some r end.

Definition handles (h0 : bool) (obs : list zrep) (f21c : bool) (f : bytes -> sout) : Prop :=
  exists nx e z obs', (forall rest, f rest = SDone nx e z obs' rest) /\
    balanced h0 (SDone nx e z obs' []) /\
    match nx with NBlocked _ => obs = [] \/ f21c = true | _ => True end.

Lemma handles_done : forall h0 obs x nx e z obs', balanced h0 (SDone nx e z obs' []) ->
  match nx with NBlocked _ => obs = [] \/ x = true | _ => True end -> handles h0 obs x (SDone nx e z obs').
Proof. intros. exists nx, e, z, obs'. repeat split; assumption. Qed.

Lemma handles_rest : forall h0 obs x f rest, handles h0 obs x f -> sout_rest (f rest) = Some rest.
Proof. intros h0 obs x f rest (nx & e & z & obs' & H & _). rewrite H. reflexivity. Qed.

Lemma handles_balanced : forall h0 obs x f rest, handles h0 obs x f -> balanced h0 (f rest).
Proof. intros h0 obs x f rest (nx & e & z & obs' & H & B & _). rewrite H. exact B. Qed.

Lemma handles_blocked : forall h0 obs x f rest, handles h0 obs x f ->
  match f rest with SDone (NBlocked _) _ _ _ _ => obs = [] \/ x = true | _ => True end.
Proof. intros h0 obs x f rest (nx & e & z & obs' & H & _ & K). rewrite H. destruct nx; exact K || exact I. Qed.

(* [handler_cases]: case analysis on what the body of the handler branches on next, until every goal is a leaf
   [fun rest => SDone nx e z obs' rest], which is for [handles_done]; when the scrutinee [x] is itself a [match],
   [head_case] goes to the innermost one *)
Ltac head_case x := first [ lazymatch x with match ?y with _ => _ end => head_case y end | destruct x ].
Ltac handler_cases := repeat match goal with |- handles _ _ _ (fun _ => match ?x with _ => _ end) => head_case x end.

Lemma forward_rest : forall pre intx c held obs rest, sout_rest (forward pre intx c held obs rest) = Some rest.
Proof. intros. unfold forward. destruct obs; [reflexivity|]. destruct (after_reply intx false c z). reflexivity. Qed.

Lemma holds_stay : forall (copy : bool) i e c, holds (if copy then InCopy i e c else InTxn i c) = true.
Proof. intros []; reflexivity. Qed.

Lemma txn_msg_handles : forall o copy ext intx c pre code len body obs first h0, holding h0 pre = true ->
  handles h0 obs (copy && ext) (fun rest => txn_msg o copy ext intx c pre code len body obs rest first).
Proof.
  intros o copy ext intx c pre code len body obs first h0 H.
  pose proof (sync_walk_replies (o_cache o) (xbuf c) false []) as HQ.
  unfold txn_msg, forward, after_reply, done_local, done_z, done_end.
  destruct (sync_walk (o_cache o) (xbuf c) false []) as [fwd q]. cbn [snd forallb] in HQ.
  (* every leaf's effects are [pre ++ ..]: after [pre] the server is held (H), the queued replies [q] change nothing *)
  handler_cases; apply handles_done; cbn [balanced holds andb];
    rewrite ?holds_stay, ?holding_app, ?H, ?(holding_replies q _ HQ); auto.
Qed.

Lemma txn_msg_balanced : forall o copy ext intx c pre code len body obs rest first h0,
  holding h0 pre = true -> balanced h0 (txn_msg o copy ext intx c pre code len body obs rest first).
Proof. intros. apply (handles_balanced _ _ _ _ rest (txn_msg_handles o copy ext intx c pre code len body obs first h0 H)). Qed.

Lemma idle_msg_handles : forall o c code len body obs, handles false obs false (idle_msg o c code len body obs).
Proof.
  intros. unfold idle_msg, done_local, done_z, done_end.
  handler_cases; first [apply (txn_msg_handles _ false false); reflexivity | apply handles_done; cbn; auto].
Qed.

Lemma admin_msg_handles : forall o code len body obs, handles false obs false (admin_msg o code len body obs).
Proof. intros. unfold admin_msg, done_z, done_end. handler_cases; apply handles_done; cbn; auto. Qed.

Lemma startup_msg_handles : forall o ps obs, handles false obs false (startup_msg o ps obs).
Proof. intros. unfold startup_msg, done_local, done_z, done_end. handler_cases; apply handles_done; cbn; auto. Qed.

(** * Steps
    After authentication every state reads a frame and hands it to its handler. *)
Definition handler (o : opts) (st : pstate) (code : byte) (len : Z) (body : bytes) (obs : list zrep) (rest : bytes) : sout :=
  match st with
  | Idle c => idle_msg o c code len body obs rest
  | InTxn intx c => txn_msg o false false intx c [] code len body obs rest false
  | InCopy intx ext c => txn_msg o true ext intx c [] code len body obs rest false
  | _ => admin_msg o code len body obs rest
  end.

Definition f21c (st : pstate) : bool := match st with InCopy _ ext _ => ext | _ => false end.

Lemma step_framed : forall o st s obs, preauth st = false ->
  step o st s obs =
  match read_frame (o_chk o) s with
  | FMore => SNeed
  | FErr => done_end HErr (snd (on_eof st)) obs (tl s)
  | FPanic => done_end HPanic (if holds st then [FxDropHeld] else []) obs (tl s)
  | FOk code len body rest => handler o st code len body obs rest
  end.
Proof. intros o [] s obs H; try discriminate H; reflexivity. Qed.

Lemma handler_handles : forall o st code len body obs, preauth st = false ->
  handles (holds st) obs (f21c st) (handler o st code len body obs).
Proof.
  intros o [] code len body obs H; try discriminate H;
    [apply idle_msg_handles|apply (txn_msg_handles _ false false)|apply (txn_msg_handles _ true)|apply admin_msg_handles]; reflexivity.
Qed.

Lemma tl_shorter : forall (s : bytes), s <> [] -> (length (tl s) < length s)%nat.
Proof. intros [|x s] H; [congruence|cbn; lia]. Qed.

Lemma tl_app : forall (s b : bytes), s <> [] -> tl (s ++ b) = tl s ++ b.
Proof. intros [|x s] b H; [congruence|reflexivity]. Qed.

(** Every step is a reader followed by a handler: unless the bytes end inside the message, the reader cuts the
    message off the front, and does so in the same way when more bytes follow; what is left goes through the handler. *)
Lemma step_cases : forall o st s obs,
  step o st s obs = SNeed \/
  exists f rest, step o st s obs = f rest /\ (forall b, step o st (s ++ b) obs = f (rest ++ b)) /\
    handles (holds st) obs (f21c st) f /\ (length rest < length s)%nat.
Proof.
  intros o st s obs. assert (Hs : s = [] \/ s <> []) by (destruct s; [left|right]; congruence).
  destruct Hs as [->|Hs]; [left; destruct st; reflexivity|].
  destruct (preauth st) eqn:Hp.
  - destruct st; try discriminate Hp; cbn [step holds f21c].
    1, 2: pose proof (fun b => get_startup_app s b) as C;
      destruct (get_startup s) as [[ps| |ps| | |] r0]; [..|left; reflexivity]; right.
    3: exists (fun r => match ps with
                        | _ :: _ :: _ :: _ :: _ :: _ :: _ :: _ :: _ => done_end HOk [FxCancel] obs r
                        | _ => done_end HPanic [] obs r
                        end), r0.
    1-2, 4-10: do 2 eexists.
    1-10: (split; [reflexivity|]); (split; [intros t; rewrite (proj2 (C t)); reflexivity|]);
      (split; [|apply (C [])]); try apply startup_msg_handles;
      try destruct ps as [|? [|? [|? [|? [|? [|? [|? [|? ?]]]]]]]]; apply handles_done; cbn; auto.
    pose proof (fun b => read_password_app (o_chk o) s b) as P.
    destruct (read_password (o_chk o) s); [destruct (beq_bytes resp _) eqn:E|..|left; reflexivity]; right;
      do 2 eexists; (split; [reflexivity|]);
      (split; [intros t; rewrite ?(proj2 (P t)), ?P, ?E, ?tl_app by exact Hs; reflexivity|]);
      (split; [apply handles_done; cbn; auto|apply (P []) || apply tl_shorter, Hs]).
    destruct admin; reflexivity.
  - rewrite step_framed by exact Hp. pose proof (fun b => read_frame_app (o_chk o) s b) as F.
    destruct (read_frame (o_chk o) s) as [code len body rest| | |] eqn:E; [..|left; reflexivity]; right;
      do 2 eexists; (split; [reflexivity|]);
      (split; [intros t; rewrite step_framed, F, ?tl_app by assumption; reflexivity|]).
    + split; [apply handler_handles, Hp|]. apply frame_ok_inv in E. lia.
    + split; [|apply tl_shorter, Hs]. apply handles_done; [apply on_eof_gives_back|exact I].
    + split; [|apply tl_shorter, Hs]. apply handles_done; [|exact I]. destruct (holds st); reflexivity.
Qed.

Lemma step_progress : forall o st s obs nx e z obs' rest,
  step o st s obs = SDone nx e z obs' rest -> (length rest < length s)%nat.
Proof.
  intros o st s obs nx e z obs' rest H. destruct (step_cases o st s obs) as [E|(f & r & E & _ & Hf & L)]; [congruence|].
  pose proof (handles_rest _ _ _ _ r Hf) as R. rewrite <- E, H in R. injection R as <-. exact L.
Qed.

(** ** Totality: the fuel [S (length s)] is always enough *)
Lemma run_fuel_total : forall fuel o st s obs effs zp,
  (length s < fuel)%nat -> r_fin (run_fuel fuel o st s obs effs zp) <> FStuck.
Proof.
  induction fuel as [|f IH]; intros o st s obs effs zp Hl; [lia|].
  cbn [run_fuel]. destruct s as [|x s']; [discriminate|].
  destruct (step o st (x :: s') obs) as [|nx e z obs' rest] eqn:S1; [discriminate|].
  apply step_progress in S1. destruct nx; try discriminate. apply IH. lia.
Qed.

Lemma handle_bytes_total : forall o st s obs, r_fin (handle_bytes o st s obs) <> FStuck.
Proof. intros. apply run_fuel_total. lia. Qed.

(** more fuel changes nothing (so [handle_bytes] is THE result of the step relation) *)
Lemma run_fuel_mono : forall f1 f2 o st s obs effs zp,
  (length s < f1)%nat -> (f1 <= f2)%nat -> run_fuel f2 o st s obs effs zp = run_fuel f1 o st s obs effs zp.
Proof.
  induction f1 as [|f1 IH]; intros f2 o st s obs effs zp Hl Hle; [lia|].
  destruct f2 as [|f2]; [lia|]. cbn [run_fuel]. destruct s as [|x s']; [reflexivity|].
  destruct (step o st (x :: s') obs) as [|nx e z obs' rest] eqn:S1; [reflexivity|].
  apply step_progress in S1. destruct nx; try reflexivity. apply IH; lia.
Qed.

(** ** The effect log agrees with the state about holding a server *)
Lemma step_balanced : forall o st s obs, balanced (holds st) (step o st s obs).
Proof.
  intros o st s obs. destruct (step_cases o st s obs) as [->|(f & r & -> & _ & Hf & _)]; [exact I|].
  apply (handles_balanced _ _ _ _ r Hf).
Qed.

Definition fin_balanced (h0 : bool) (r : rres) : Prop :=
  match r_fin r with
  | FCont st' | FNeed st' _ => holding h0 (r_effs r) = holds st'
  | FBlocked st' => holding h0 (r_effs r) = true /\ holds st' = true
  | FEnd _ => holding h0 (r_effs r) = false
  | FStuck => True
  end.

Lemma run_fuel_balanced : forall fuel o st s obs effs zp h0,
  holding h0 effs = holds st -> fin_balanced h0 (run_fuel fuel o st s obs effs zp).
Proof.
  induction fuel as [|f IH]; intros o st s obs effs zp h0 H; cbn [run_fuel]; [exact I|].
  destruct s as [|x s']; [exact H|].
  pose proof (step_balanced o st (x :: s') obs) as B.
  destruct (step o st (x :: s') obs) as [|[st'|h|st'] e z obs' rest]; [exact H|apply IH|unfold fin_balanced..];
    cbn [balanced r_fin r_effs] in *; rewrite holding_app, H; try exact B.
  destruct B as [B1 B2]. rewrite B1. split; assumption.
Qed.

Lemma handle_bytes_balanced : forall o st s obs, fin_balanced (holds st) (handle_bytes o st s obs).
Proof. intros. apply run_fuel_balanced. reflexivity. Qed.

Definition harmless (f : eff) : bool := match f with FxReply _ | FxCancel => true | _ => false end.
Definition is_register (f : eff) : bool := match f with FxRegister => true | _ => false end.

(** The credentials check, stated on its own: when does ONE pre-auth step authenticate? *)
Definition startup_auth_ok (o : opts) (ps : bytes) : bool :=
  match parse_params ps with
  | Ok kv =>
    match lookup_last s_user kv None with
    | Some user =>
      let db := match lookup_last s_database kv None with Some d => d | None => user end in
      if is_admin_db db then o_admin_trust o
      else beq_bytes db (o_db o) && beq_bytes user (o_user o) && o_user_trust o
    | None => false
    end
  | _ => false
  end.

Definition auth_ok (o : opts) (st : pstate) (s : bytes) : bool :=
  match st with
  | PreStartup | AfterSslN => match get_startup s with (SStartup ps, _) => startup_auth_ok o ps | _ => false end
  | AwaitPw adm => match read_password (o_chk o) s with
                   | PwOk resp _ => beq_bytes resp (if adm then o_pw_admin o else o_pw_user o) | _ => false end
  | _ => false
  end.

Definition preauth_ok (auth : bool) (so : sout) : Prop :=
  match so with
  | SNeed => True
  | SDone nx e _ _ _ =>
    (auth = false /\ forallb harmless e = true /\
     match nx with NCont st' => preauth st' = true | NEnd _ => True | NBlocked _ => False end)
    \/ (auth = true /\ e = [FxReply RAuthOk; FxRegister] /\ exists st', nx = NCont st' /\ preauth st' = false)
  end.

Lemma startup_msg_preauth : forall o ps obs rest, preauth_ok (startup_auth_ok o ps) (startup_msg o ps obs rest).
Proof.
  intros. unfold startup_msg, startup_auth_ok, done_local, done_z, done_end.
  destruct (parse_params ps) as [kv| |]; [|left; repeat split..].
  destruct (lookup_last s_user kv None) as [user|]; [|left; repeat split].
  destruct (is_admin_db _); [destruct (o_admin_trust o)|];
    [right; repeat split; eexists; split; reflexivity|left; repeat split|].
  destruct (beq_bytes _ (o_db o) && beq_bytes user (o_user o))%bool; [|left; repeat split].
  destruct (o_user_trust o); [right; repeat split; eexists; split; reflexivity|left; repeat split].
Qed.

Lemma step_preauth : forall o st s obs, preauth st = true -> preauth_ok (auth_ok o st s) (step o st s obs).
Proof.
  intros o st s obs Hp. destruct st; try discriminate; cbn [step auth_ok].
  1, 2: destruct (get_startup s) as [[ps| |ps| | |] r0]; try exact I; try apply startup_msg_preauth;
    try (left; repeat split; reflexivity).
  - destruct ps as [|? [|? [|? [|? [|? [|? [|? [|? ?]]]]]]]]; left; repeat split; reflexivity.
  - destruct (read_password (o_chk o) s); try exact I; try (left; repeat split; reflexivity).
    destruct (beq_bytes resp _); [|left; repeat split; reflexivity].
    right. repeat split. destruct admin; eexists; split; reflexivity.
Qed.

Fixpoint before_register (l : list eff) : list eff :=
  match l with [] => [] | FxRegister :: _ => [] | f :: r => f :: before_register r end.

Lemma before_register_harmless : forall a b, forallb harmless a = true -> before_register (a ++ b) = a ++ before_register b.
Proof.
  induction a as [|f a IH]; intros b H; [reflexivity|]. cbn [forallb] in H. apply andb_prop in H. destruct H as [Hf Ha].
  cbn [app before_register]. destruct f; try discriminate; rewrite IH by exact Ha; reflexivity.
Qed.

Definition fin_preauth (r : rres) : Prop :=
  match r_fin r with FCont st' | FNeed st' _ => preauth st' = true | FEnd _ => True | FBlocked _ => False | FStuck => True end.

(** a run only adds to the effects; as long as it is before authentication, what it adds up to the first
    [FxRegister] are replies to the sender or a cancel-map lookup, and without an [FxRegister] it never leaves the
    pre-auth states *)
Lemma run_fuel_preauth : forall fuel o st s obs effs zp,
  let r := run_fuel fuel o st s obs effs zp in
  exists more, r_effs r = effs ++ more /\
    (preauth st = true ->
     forallb harmless (before_register more) = true /\ (existsb is_register more = false -> fin_preauth r)).
Proof.
  induction fuel as [|f IH]; intros o st s obs effs zp; cbn [run_fuel].
  { exists []. split; [symmetry; apply app_nil_r|]. repeat split. }
  destruct s as [|x s']; [|pose proof (step_preauth o st (x :: s') obs) as SP;
                            destruct (step o st (x :: s') obs) as [|[st'|h|st'] e z obs' rest]].
  1, 2: exists []; split; [symmetry; apply app_nil_r|]; intros Hp; split; [reflexivity|intros _; exact Hp].
  - destruct (IH o st' rest obs' (effs ++ e) (zp ++ z)) as (m & Hm & Hi). exists (e ++ m).
    split; [rewrite Hm; symmetry; apply app_assoc|]. intros Hp.
    destruct (SP Hp) as [(_ & Hh & Hst')|(_ & -> & _)]; [|split; [reflexivity|discriminate]].
    destruct (Hi Hst') as [I1 I2]. rewrite before_register_harmless, forallb_app, existsb_app by exact Hh.
    rewrite Hh, I1. split; [reflexivity|]. intros Hx. apply orb_false_elim in Hx. apply I2, Hx.
  - exists e. split; [reflexivity|]. intros Hp. destruct (SP Hp) as [(_ & Hh & _)|(_ & _ & st' & E & _)]; [|discriminate E].
    rewrite <- (app_nil_r e), before_register_harmless, app_nil_r by exact Hh. split; [exact Hh|intros _; exact I].
  - exists e. split; [reflexivity|]. intros Hp. destruct (SP Hp) as [(_ & _ & [])|(_ & _ & st'' & E & _)]. discriminate E.
Qed.

Lemma handle_bytes_preauth : forall o st s obs, preauth st = true ->
  let r := handle_bytes o st s obs in
  forallb harmless (before_register (r_effs r)) = true /\
  (existsb is_register (r_effs r) = false -> fin_preauth r).
Proof.
  intros o st s obs H r. destruct (run_fuel_preauth (S (length s)) o st s obs [] []) as (m & Hm & Hi).
  fold (handle_bytes o st s obs) in Hm, Hi. fold r in Hm, Hi. rewrite Hm. exact (Hi H).
Qed.

(** * A step blocks only when the server stays silent, or in the known class F21c *)
Definition blocked_reason (st : pstate) (obs : list zrep) (so : sout) : Prop :=
  match so with
  | SDone (NBlocked _) _ _ _ _ => obs = [] \/ exists i c, st = InCopy i true c
  | _ => True
  end.

Lemma step_blocked : forall o st s obs, blocked_reason st obs (step o st s obs).
Proof.
  intros o st s obs. destruct (step_cases o st s obs) as [->|(f & r & -> & _ & Hf & _)]; [exact I|].
  pose proof (handles_blocked _ _ _ _ r Hf) as K. destruct (f r) as [|[] ? ? ? ?]; try exact I.
  destruct K as [K|K]; [left; exact K|right]. destruct st; try discriminate K. cbn [f21c] in K. subst ext. eauto.
Qed.
