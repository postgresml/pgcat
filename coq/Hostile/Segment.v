(** C11 — message granularity is independent of TCP segmentation: processing [a] and later [b]
    is processing [a ++ b]. *)
From Coq Require Import ZArith NArith List Bool Lia.
From PV Require Import Hostile.Decode Hostile.Proofs.
Import ListNotations.
Local Open Scope Z_scope.

Definition app_rest (b : bytes) (so : sout) : sout :=
  match so with SNeed => SNeed | SDone nx e z o r => SDone nx e z o (r ++ b) end.

Lemma handles_app : forall h0 obs x f rest b, handles h0 obs x f -> f (rest ++ b) = app_rest b (f rest).
Proof. intros h0 obs x f rest b (nx & e & z & obs' & H & _). rewrite !H. reflexivity. Qed.

Lemma step_app : forall o st s obs b, step o st s obs <> SNeed ->
  step o st (s ++ b) obs = app_rest b (step o st s obs).
Proof.
  intros o st s obs b Hn. destruct (step_cases o st s obs) as [E|(f & r & E & A & Hf & _)]; [congruence|].
  rewrite A, E. apply (handles_app _ _ _ _ r b Hf).
Qed.

Lemma run_fuel_nil : forall f o st obs effs zp, run_fuel (S f) o st [] obs effs zp = mkR (FCont st) effs zp obs.
Proof. reflexivity. Qed.

Lemma run_fuel_cons : forall f o st x s obs effs zp,
  run_fuel (S f) o st (x :: s) obs effs zp =
  match step o st (x :: s) obs with
  | SNeed => mkR (FNeed st (x :: s)) effs zp obs
  | SDone (NCont st') e z obs' rest => run_fuel f o st' rest obs' (effs ++ e) (zp ++ z)
  | SDone (NEnd h) e z obs' _ => mkR (FEnd h) (effs ++ e) (zp ++ z) obs'
  | SDone (NBlocked st') e z obs' _ => mkR (FBlocked st') (effs ++ e) (zp ++ z) obs'
  end.
Proof. reflexivity. Qed.

Lemma run_fuel_app : forall f a b F o st obs effs zp,
  (length a < f)%nat -> (length (a ++ b) < F)%nat ->
  run_fuel F o st (a ++ b) obs effs zp = resume o (run_fuel f o st a obs effs zp) b.
Proof.
  induction f as [|f IH]; intros a b F o st obs effs zp Hf HF; [lia|].
  destruct a as [|x a'].
  - rewrite run_fuel_nil. unfold resume. cbn [r_fin r_obs r_effs r_z app]. cbn [app] in HF. apply run_fuel_mono; lia.
  - rewrite run_fuel_cons. destruct (step o st (x :: a') obs) as [|nx e z obs' rest] eqn:S1.
    + (* the bytes end inside a message: resuming re-reads it together with what follows *)
      unfold resume. cbn [r_fin r_obs r_effs r_z]. apply run_fuel_mono; lia.
    + assert (Hne : step o st (x :: a') obs <> SNeed) by (rewrite S1; discriminate).
      pose proof (step_app o st (x :: a') obs b Hne) as SA. rewrite S1 in SA. cbn [app_rest] in SA.
      pose proof (step_progress _ _ _ _ _ _ _ _ _ S1) as Hp.
      destruct F as [|F]; [lia|]. cbn [app] in SA |- *. rewrite run_fuel_cons, SA.
      destruct nx as [st'|h|st']; [|reflexivity|reflexivity].
      apply IH; [lia|]. rewrite app_length in *. cbn [length] in *. lia.
Qed.

Lemma handle_bytes_app : forall o st a b obs,
  handle_bytes o st (a ++ b) obs = resume o (handle_bytes o st a obs) b.
Proof. intros. unfold handle_bytes. apply run_fuel_app; lia. Qed.
