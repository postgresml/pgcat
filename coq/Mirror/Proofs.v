(** C20 — lemmas about the mirroring model (coq/Mirror/Model.v). *)
From Coq Require Import List Bool Arith NArith.
From PV Require Import Gen.MirrorConsts Mirror.Model.
Import ListNotations.

Lemma Subseq_refl {A} (l : list A) : Subseq l l.
Proof. induction l; constructor; auto. Qed.

Lemma Subseq_trans {A} (l1 l2 l3 : list A) : Subseq l1 l2 -> Subseq l2 l3 -> Subseq l1 l3.
Proof.
  intros H1 H2. revert l1 H1. induction H2; intros l0 H1.
  - inversion H1. constructor.
  - inversion H1; subst; constructor; auto.
  - apply sub_skip. auto.
Qed.

Lemma Subseq_app_r {A} (l1 l2 l3 : list A) : Subseq l1 l2 -> Subseq l1 (l2 ++ l3).
Proof. induction 1; simpl; constructor; auto. Qed.

Lemma Subseq_app {A} (l1 l2 r1 r2 : list A) :
  Subseq l1 l2 -> Subseq r1 r2 -> Subseq (l1 ++ r1) (l2 ++ r2).
Proof.
  intros H R. induction H as [l| |]; simpl; try (constructor; assumption).
  induction l; simpl; [assumption | apply sub_skip; assumption].
Qed.

Lemma Subseq_In {A} (l1 l2 : list A) x : Subseq l1 l2 -> In x l1 -> In x l2.
Proof. induction 1; simpl; intros HI; [contradiction | destruct HI; auto | auto]. Qed.

Lemma Subseq_length {A} (l1 l2 : list A) : Subseq l1 l2 -> length l1 <= length l2.
Proof. induction 1; simpl; auto with arith. Qed.

Lemma subseqb_sound {A} (eqb : A -> A -> bool) :
  (forall a b, eqb a b = true -> a = b) ->
  forall l2 l1, subseqb eqb l1 l2 = true -> Subseq l1 l2.
Proof.
  intros E l2. induction l2 as [|y r2 IH]; intros l1 H.
  - destruct l1; [constructor | discriminate].
  - destruct l1 as [|x r1]; [constructor|]. simpl in H.
    destruct (eqb x y) eqn:Q.
    + apply E in Q. subst. apply sub_take. apply IH. assumption.
    + apply sub_skip. apply IH. assumption.
Qed.

Lemma bytes_eqb_eq a b : bytes_eqb a b = true -> a = b.
Proof. unfold bytes_eqb. destruct (list_eq_dec N.eq_dec a b); [auto | discriminate]. Qed.

Lemma upd_nth_length {A} n (f : A -> A) l : length (upd_nth n f l) = length l.
Proof. revert n. induction l; destruct n; simpl; auto. Qed.

Lemma nth_error_upd_nth_eq {A} n (f : A -> A) l :
  nth_error (upd_nth n f l) n = option_map f (nth_error l n).
Proof. revert n. induction l; destruct n; simpl; auto. Qed.

Lemma nth_error_upd_nth_neq {A} n k (f : A -> A) l :
  k <> n -> nth_error (upd_nth n f l) k = nth_error l k.
Proof.
  revert n k. induction l; destruct n, k; simpl; intros; auto; try congruence.
Qed.

(** frame lemmas for a property [P k x] of the items of a list by position: a new last item, *)
Lemma nth_error_snoc_inv {A} (P : nat -> A -> Prop) l a :
  (forall k x, nth_error l k = Some x -> P k x) -> P (length l) a ->
  forall k y, nth_error (l ++ [a]) k = Some y -> P k y.
Proof.
  revert P. induction l as [|x r IH]; intros P H1 H2 [|k] y H; simpl in *.
  - injection H as <-. exact H2.
  - destruct k; discriminate.
  - exact (H1 0 y H).
  - apply (IH (fun k => P (S k))) in H; [exact H | exact (fun k => H1 (S k)) | exact H2].
Qed.

(** ... and [upd_nth n f], where [f] has to establish it at position [n] *)
Lemma nth_error_upd_nth_inv {A} (P : nat -> A -> Prop) n (f : A -> A) l :
  (forall k x, nth_error l k = Some x -> P k x) ->
  (forall x, nth_error l n = Some x -> P n (f x)) ->
  forall k y, nth_error (upd_nth n f l) k = Some y -> P k y.
Proof.
  intros H1 H2 k y H. destruct (Nat.eq_dec k n) as [->|NE].
  - rewrite nth_error_upd_nth_eq in H. destruct (nth_error l n); [|discriminate].
    injection H as <-. auto.
  - rewrite nth_error_upd_nth_neq in H by assumption. auto.
Qed.

Lemma In_upd_nth {A} n (f : A -> A) l x :
  In x (upd_nth n f l) -> In x l \/ exists y, In y l /\ x = f y.
Proof.
  revert n. induction l; destruct n; simpl; intros H; auto.
  - destruct H as [H|H]; [right; exists a; auto | auto].
  - destruct H as [H|H]; [auto|].
    destruct (IHl _ H) as [H1|[y [H1 H2]]]; [auto | right; exists y; auto].
Qed.

Lemma map_upd_nth {A B} (f : A -> B) (g : A -> A) (h : B -> B) n l :
  (forall x, f (g x) = h (f x)) -> map f (upd_nth n g l) = upd_nth n h (map f l).
Proof. intros E. revert n. induction l; destruct n; simpl; auto; rewrite ?E, ?IHl; auto. Qed.

Lemma map_upd_nth_id {A B} (f : A -> B) (g : A -> A) n l :
  (forall x, f (g x) = f x) -> map f (upd_nth n g l) = map f l.
Proof. intros E. revert n. induction l; destruct n; simpl; auto; rewrite ?E, ?IHl; auto. Qed.

Lemma given_push b c : given (push b c) = given c ++ [b].
Proof. unfold given, push; simpl. apply app_assoc. Qed.

Lemma handed_sub_given c : Subseq (map snd (handed c)) (given c).
Proof. unfold given. apply Subseq_app_r. apply Subseq_refl. Qed.

Lemma send_one_cases skip b c :
  send_one skip b c = c \/ (unavailable c = false /\ send_one skip b c = push b c).
Proof.
  unfold send_one, try_send. destruct skip; auto. destruct (unavailable c) eqn:U; simpl; auto.
Qed.

Lemma unavailable_false_room c : unavailable c = false -> length (q c) < capacity /\ closed c = false.
Proof.
  unfold unavailable, full. intros H. apply orb_false_elim in H. destruct H as [H1 H2].
  apply Nat.leb_gt in H1. auto.
Qed.

(** the early return of MirroringManager::send changes nothing: each channel is decided by
    its own fullness/closedness alone *)
Lemma mirror_send_pointwise cs b :
  mirror_send cs b = map (fun c => if unavailable c then c else push b c) cs.
Proof.
  unfold mirror_send. destruct (forallb unavailable cs) eqn:F.
  - rewrite forallb_forall in F. apply map_ext_in. intros c HI. unfold send_one.
    rewrite (F c HI). reflexivity.
  - apply map_ext. intros c. unfold send_one, try_send. destruct (unavailable c); reflexivity.
Qed.

Lemma mirror_send_length cs b : length (mirror_send cs b) = length cs.
Proof. unfold mirror_send. apply map_length. Qed.

Lemma mirror_send_nth cs b j :
  nth_error (mirror_send cs b) j =
  option_map (fun c => if unavailable c then c else push b c) (nth_error cs j).
Proof. rewrite mirror_send_pointwise. apply nth_error_map. Qed.

(** [env_step] by cases: an enabled step does what is written here; a step that is not enabled (the task
    has ended, the link is not in the state the step needs, nothing is queued) and [Reply] do nothing. *)
Inductive env_case (c : chan) : env -> chan -> Prop :=
| ec_nothing e : env_case c e c
| ec_deliver b r : closed c = false -> lnk c = Up -> q c = b :: r ->
    env_case c Deliver (mkChan r false Up (epoch c) (handed c ++ [(epoch c, b)]))
| ec_fail : closed c = false -> env_case c Fail (mkChan (q c) false Down (epoch c) (handed c))
| ec_failsend b r : closed c = false -> lnk c = Up -> q c = b :: r ->
    env_case c FailSend (mkChan r false Down (epoch c) (handed c))
| ec_reconnect : closed c = false -> lnk c = Down ->
    env_case c Reconnect (mkChan (q c) false Up (S (epoch c)) (handed c))
| ec_dropall : closed c = false -> env_case c DropAll (mkChan [] false (lnk c) (epoch c) (handed c))
| ec_close : closed c = false -> env_case c Close (mkChan [] true Down (epoch c) (handed c)).

Lemma env_stepP e c : env_case c e (env_step e c).
Proof.
  unfold env_step. destruct (closed c) eqn:C; [constructor|].
  destruct e; try (constructor; assumption).
  all: destruct (lnk c) eqn:L; try (constructor; assumption).
  all: destruct (q c) eqn:Q; econstructor; eassumption.
Qed.

Lemma env_step_given e c : Subseq (given (env_step e c)) (given c).
Proof.
  unfold given. destruct (env_stepP e c) as [e|b r _ _ Q| |b r _ _ Q| | |]; simpl; rewrite ?Q.
  (* a delivery moves the head of the queue to the end of [handed] ... *)
  2: { rewrite map_app, <- app_assoc. apply Subseq_refl. }
  (* ... every other step leaves [handed] alone and the queue loses a prefix *)
  all: apply Subseq_app; [apply Subseq_refl|]; try constructor; apply Subseq_refl.
Qed.

Lemma env_step_qlen e c : length (q (env_step e c)) <= length (q c).
Proof. destruct (env_stepP e c) as [e|b r _ _ Q| |b r _ _ Q| | |]; simpl; rewrite ?Q; simpl; auto with arith. Qed.

Lemma epoch_changes_only_on_reconnect e c :
  epoch (env_step e c) <> epoch c ->
  e = Reconnect /\ lnk c = Down /\ closed c = false /\ epoch (env_step e c) = S (epoch c).
Proof. destruct (env_stepP e c); simpl; intros NE; auto; contradiction NE; reflexivity. Qed.

Lemma link_lost_only_by_failure e c :
  lnk c = Up -> lnk (env_step e c) = Down -> is_failure e = true.
Proof. destruct (env_stepP e c); simpl; intros U D; try reflexivity; congruence. Qed.

Lemma offer_keeps_connection b c :
  epoch (chan_step c (inl b)) = epoch c /\ lnk (chan_step c (inl b)) = lnk c /\ handed (chan_step c (inl b)) = handed c.
Proof. simpl. destruct (unavailable c); simpl; auto. Qed.

(** one continuous connection: the two states a channel can be in while nothing fails *)
Definition one_conn (c : chan) : Prop :=
  (lnk c = Down /\ epoch c = 0 /\ handed c = []) \/
  (lnk c = Up /\ epoch c = 1 /\ Forall (fun x => fst x = 1) (handed c)).

Lemma one_conn_new : one_conn new_chan.
Proof. left. auto. Qed.

Lemma one_conn_step c x :
  one_conn c -> (match x with inl _ => true | inr e => negb (is_failure e) end) = true -> one_conn (chan_step c x).
Proof.
  intros I NF. destruct x as [b|e].
  - destruct (offer_keeps_connection b c) as [E [L H]]. unfold one_conn. rewrite E, L, H. exact I.
  - simpl. revert NF. destruct (env_stepP e c) as [e|b r _ L _| | |_ L| |]; intros NF; try discriminate; try exact I.
    + (* Deliver: the link is up, so this is connection 1 *)
      destruct I as [[L' _]|[_ [E H]]]; [congruence|]. right. simpl. repeat split; auto.
      apply Forall_app. split; [assumption|]. constructor; [assumption | constructor].
    + (* Reconnect: the link was down, so nothing was handed yet *)
      destruct I as [[_ [E H]]|[L' _]]; [|congruence]. right. simpl. rewrite E, H. auto.
Qed.

Lemma one_conn_run xs : forall c, one_conn c -> no_failure xs = true -> one_conn (fold_left chan_step xs c).
Proof.
  induction xs as [|x r IH]; intros c I NF; [exact I|].
  simpl in NF. apply andb_true_iff in NF. destruct NF as [N1 N2].
  simpl. apply IH; [apply one_conn_step; assumption | assumption].
Qed.

(** * One connection: the primary side does not depend on the mirrors *)

Definition srv_send (s : srv) (be : bytes * bool) : srv := fst (fst (send s [] (fst be) (snd be))).

Lemma send_srv_indep s cs b ok : fst (fst (send s cs b ok)) = srv_send s (b, ok).
Proof. reflexivity. Qed.

Lemma run1_cons_send s m b ok r :
  run1 (s, m) (Send1 b ok :: r) =
  (fst (run1 (srv_send s (b, ok), mirror_send m b) r),
   (b, ok) :: snd (run1 (srv_send s (b, ok), mirror_send m b) r)).
Proof.
  simpl. unfold srv_send, send. simpl.
  destruct (run1 _ r) as [st'' outs]. reflexivity.
Qed.

Lemma run1_cons_env s m j e r :
  run1 (s, m) (Env1 j e :: r) = run1 (s, upd_nth j (env_step e) m) r.
Proof. simpl. destruct (run1 _ r) as [st'' outs]. reflexivity. Qed.

Lemma run1_char ops : forall s m,
  primary_trace (run1 (s, m) ops) = (fold_left srv_send (sends_of ops) s, sends_of ops).
Proof.
  induction ops as [|[b ok|j e] r IH]; intros s m; [reflexivity| |].
  - rewrite run1_cons_send. unfold primary_trace in *. cbn [fst snd].
    injection (IH (srv_send s (b, ok)) (mirror_send m b)) as -> ->. reflexivity.
  - rewrite run1_cons_env. apply IH.
Qed.

(** the channel of mirror j inside a run IS [chan_step] folded over what concerns it *)
Definition view (j : nat) (o : op1) : list (bytes + env) :=
  match o with Send1 b _ => [inl b] | Env1 i e => if i =? j then [inr e] else [] end.

Lemma run1_chan_view ops : forall s m j,
  nth_error (snd (fst (run1 (s, m) ops))) j =
  option_map (fold_left chan_step (flat_map (view j) ops)) (nth_error m j).
Proof.
  induction ops as [|o r IH]; intros s m j.
  - simpl. destruct (nth_error m j); reflexivity.
  - destruct o as [b ok | i e].
    + rewrite run1_cons_send. cbn [fst snd]. rewrite IH, mirror_send_nth.
      simpl. destruct (nth_error m j); reflexivity.
    + rewrite run1_cons_env, IH. simpl. destruct (i =? j) eqn:Q.
      * apply Nat.eqb_eq in Q. subst i. rewrite nth_error_upd_nth_eq. simpl. destruct (nth_error m j); reflexivity.
      * apply Nat.eqb_neq in Q. rewrite nth_error_upd_nth_neq by auto. reflexivity.
Qed.

Lemma view_concerns j ops : flat_map (view j) (filter (concerns j) ops) = flat_map (view j) ops.
Proof.
  induction ops as [|[b ok|i e] r IH]; simpl; [reflexivity | f_equal; exact IH |].
  destruct (i =? j) eqn:Q; simpl; rewrite ?Q, IH; reflexivity.
Qed.

Lemma In_enumerate_from {A} (l : list A) k i x :
  In (i, x) (enumerate_from k l) <-> exists d, i = k + d /\ nth_error l d = Some x.
Proof.
  revert k. induction l as [|a r IH]; intros k; simpl.
  - split; [contradiction | intros [[|d] [_ H]]; discriminate].
  - split.
    + intros [H|H].
      * injection H as <- <-. exists 0. auto.
      * apply IH in H. destruct H as [d [-> H]]. exists (S d). rewrite Nat.add_succ_r. auto.
    + intros [[|d] [-> H]].
      * left. injection H as ->. rewrite Nat.add_0_r. reflexivity.
      * right. apply IH. exists d. rewrite Nat.add_succ_r. auto.
Qed.

Lemma mirrors_of_spec g sh idx i mc :
  In (i, mc) (mirrors_of g sh idx) <->
  exists s, nth_error g sh = Some s /\ idx < length (servers s) /\
            nth_error (mirrors s) i = Some mc /\ m_target mc = idx.
Proof.
  unfold mirrors_of. split.
  - destruct (nth_error g sh) as [s|]; [|contradiction].
    destruct (idx <? length (servers s)) eqn:L; [|contradiction].
    intros H. apply filter_In in H. destruct H as [H T]. apply In_enumerate_from in H.
    destruct H as [d [-> H]]. apply Nat.ltb_lt in L. apply Nat.eqb_eq in T. exists s. auto.
  - intros [s [-> [L [H T]]]]. apply Nat.ltb_lt in L. rewrite L. apply filter_In.
    split; [apply In_enumerate_from; exists i; auto | apply Nat.eqb_eq, T].
Qed.

Lemma valid_cfg_target g sh s i mc :
  valid_cfg g = true -> nth_error g sh = Some s -> nth_error (mirrors s) i = Some mc ->
  m_target mc < length (servers s).
Proof.
  unfold valid_cfg. intros V G M. rewrite forallb_forall in V.
  specialize (V s (nth_error_In _ _ G)). rewrite forallb_forall in V.
  apply Nat.ltb_lt, V, (nth_error_In _ _ M).
Qed.

(** * The pooler: invariant of every reachable world *)

(** what holds of a channel all of whose offers are among [sent], in that order *)
Definition chan_ok (sent : list bytes) (c : chan) : Prop :=
  Subseq (given c) sent /\ length (q c) <= capacity.

Lemma chan_ok_new sent : chan_ok sent new_chan.
Proof. split; [constructor | apply Nat.le_0_l]. Qed.

Lemma chan_ok_more sent l c : chan_ok sent c -> chan_ok (sent ++ l) c.
Proof. intros [S L]. split; [apply Subseq_app_r|]; assumption. Qed.

Lemma chan_ok_offer skip b sent c : chan_ok sent c -> chan_ok (sent ++ [b]) (send_one skip b c).
Proof.
  intros OK. destruct (send_one_cases skip b c) as [E|[U E]]; rewrite E; [apply chan_ok_more, OK|].
  destruct OK as [S L]. split.
  - rewrite given_push. apply Subseq_app; [assumption | apply Subseq_refl].
  - apply unavailable_false_room in U. unfold push; simpl. rewrite last_length. apply U.
Qed.

Lemma chan_ok_env e sent c : chan_ok sent c -> chan_ok sent (env_step e c).
Proof.
  intros [S L]. split.
  - eapply Subseq_trans; [apply env_step_given | assumption].
  - eapply Nat.le_trans; [apply env_step_qlen | assumption].
Qed.

Definition attached (g : cfg) (c : conn) (m : mchan) : Prop :=
  In (mc_idx m, mc_cfg m) (mirrors_of g (c_shard c) (c_index c)).

Definition conn_ok (g : cfg) (log : list (nat * bytes * bool)) (cid : nat) (c : conn) : Prop :=
  forall m, In m (c_chans c) -> attached g c m /\ chan_ok (sent_on cid log) (mc_chan m).

Definition Inv (g : cfg) (w : world) : Prop :=
  forall cid c, nth_error (conns w) cid = Some c -> conn_ok g (plog w) cid c.

Lemma sent_on_app cid l1 l2 : sent_on cid (l1 ++ l2) = sent_on cid l1 ++ sent_on cid l2.
Proof. unfold sent_on. rewrite filter_app. apply map_app. Qed.

Lemma sent_on_own cid log b ok : sent_on cid (log ++ [(cid, b, ok)]) = sent_on cid log ++ [b].
Proof. rewrite sent_on_app. unfold sent_on at 2. simpl. rewrite Nat.eqb_refl. reflexivity. Qed.

Lemma In_sent_on cid log b : In b (sent_on cid log) -> exists ok, In (cid, b, ok) log.
Proof.
  unfold sent_on. intros H. apply in_map_iff in H. destruct H as [[[k b'] ok] [E HI]].
  apply filter_In in HI. destruct HI as [HI Q]. simpl in *. apply Nat.eqb_eq in Q. subst.
  exists ok. assumption.
Qed.

Lemma conn_ok_more g log l cid c : conn_ok g log cid c -> conn_ok g (log ++ l) cid c.
Proof.
  intros OK m HM. destruct (OK m HM) as [A C]. rewrite sent_on_app. split; [exact A | apply chan_ok_more, C].
Qed.

Lemma Inv0 g : Inv g world0.
Proof. intros cid c H. destruct cid; discriminate. Qed.

Lemma step_Inv g w o : Inv g w -> Inv g (step g w o).
Proof.
  intros I. destruct o as [sh idx | cid b ok | cid j e | cid]; unfold Inv; simpl.
  - (* Startup: the new connection comes last; its channels are new and attached by construction *)
    destruct (server_exists g sh idx); [|assumption].
    apply nth_error_snoc_inv; [exact I|]. intros m HM. apply in_map_iff in HM.
    destruct HM as [[i mc] [<- HI]]. split; [exact HI | apply chan_ok_new].
  - (* Send: every log grows, the one of [cid] by the buffer offered to each of its channels *)
    destruct (nth_error (conns w) cid) as [c0|]; [|assumption].
    destruct (c_alive c0); [|assumption].
    apply nth_error_upd_nth_inv; simpl.
    + intros k x H. apply conn_ok_more, I, H.
    + intros x H m HM. apply in_map_iff in HM. destruct HM as [m0 [<- HI]].
      destruct (I cid x H m0 HI) as [A C]. rewrite sent_on_own. split; [exact A | apply chan_ok_offer, C].
  - apply nth_error_upd_nth_inv; simpl; [exact I|].
    intros x H m HM. apply In_upd_nth in HM. destruct HM as [HM|[m0 [HI ->]]]; [exact (I cid x H m HM)|].
    destruct (I cid x H m0 HI) as [A C]. split; [exact A | apply chan_ok_env, C].
  - apply nth_error_upd_nth_inv; simpl; [exact I|]. intros x H. exact (I cid x H).
Qed.

Lemma runw_Inv g ops : forall w, Inv g w -> Inv g (runw g w ops).
Proof.
  unfold runw. induction ops as [|o r IH]; intros w I; simpl; [assumption|].
  apply IH. apply step_Inv. assumption.
Qed.

Lemma reachable_Inv g ops : Inv g (runw g world0 ops).
Proof. apply runw_Inv, Inv0. Qed.

(** * The pooler: the primary side is the same whatever mirrors are configured *)

Definition psend (b : bytes) (ok : bool) (p : nat * nat * srv * bool) : nat * nat * srv * bool :=
  let '(sh, idx, s, a) := p in (sh, idx, srv_send s (b, ok), a).
Definition pdrop (p : nat * nat * srv * bool) : nat * nat * srv * bool :=
  let '(sh, idx, s, a) := p in (sh, idx, s, false).

(** [step] as the primary side sees it: of the configuration only the servers of each shard matter, of the
    world only its [pview], and a step of a mirror task is no step at all *)
Definition pstep (sv : list (list N)) (v : list (nat * nat * srv * bool) * list (nat * bytes * bool)) (o : op) :=
  match o with
  | Startup sh idx =>
      match nth_error sv sh with
      | Some l => if idx <? length l then (fst v ++ [(sh, idx, srv0, true)], snd v) else v
      | None => v
      end
  | Send cid b ok =>
      match nth_error (fst v) cid with
      | Some (_, _, _, true) => (upd_nth cid (psend b ok) (fst v), snd v ++ [(cid, b, ok)])
      | _ => v
      end
  | Env _ _ _ => v
  | DropConn cid => (upd_nth cid pdrop (fst v), snd v)
  end.

Lemma server_exists_servers g sh idx :
  server_exists g sh idx = match nth_error (map servers g) sh with Some l => idx <? length l | None => false end.
Proof. unfold server_exists. rewrite nth_error_map. destruct (nth_error g sh); reflexivity. Qed.

Lemma step_pview g w o : pview (step g w o) = pstep (map servers g) (pview w) o.
Proof.
  destruct o as [sh idx | cid b ok | cid j e | cid]; simpl.
  - rewrite server_exists_servers. destruct (nth_error (map servers g) sh) as [l|]; [|reflexivity].
    destruct (idx <? length l); [|reflexivity]. unfold pview; simpl. rewrite map_app. reflexivity.
  - rewrite nth_error_map. destruct (nth_error (conns w) cid) as [c|]; simpl; [|reflexivity].
    destruct (c_alive c); [|reflexivity]. unfold pview; simpl.
    rewrite (map_upd_nth pconn (conn_send b ok) (psend b ok)) by reflexivity. reflexivity.
  - unfold pview; simpl. rewrite (map_upd_nth_id pconn (conn_env j e)) by reflexivity. reflexivity.
  - unfold pview; simpl. rewrite (map_upd_nth pconn conn_drop pdrop) by reflexivity. reflexivity.
Qed.

Lemma runw_pview g ops : forall w, pview (runw g w ops) = fold_left (pstep (map servers g)) ops (pview w).
Proof.
  unfold runw. induction ops as [|o r IH]; intros w; simpl; [reflexivity|]. rewrite IH, step_pview. reflexivity.
Qed.

Lemma pstep_client_ops sv ops : forall v,
  fold_left (pstep sv) (filter client_op ops) v = fold_left (pstep sv) ops v.
Proof. induction ops as [|[] r IH]; intros v; simpl; auto. Qed.

Lemma strip_same g : same_servers g (strip_mirrors g).
Proof. unfold same_servers, strip_mirrors. rewrite map_map. simpl. reflexivity. Qed.

Lemma strip_no_mirrors g sh idx : mirrors_of (strip_mirrors g) sh idx = [].
Proof.
  unfold mirrors_of, strip_mirrors. rewrite nth_error_map.
  destruct (nth_error g sh); simpl; [|reflexivity]. destruct (idx <? _); reflexivity.
Qed.

(** the model's channel update inside the pooler is Server::send's *)
Lemma conn_send_is_send b ok c :
  c_srv (conn_send b ok c) = fst (fst (send (c_srv c) (map mc_chan (c_chans c)) b ok)) /\
  map mc_chan (c_chans (conn_send b ok c)) = snd (fst (send (c_srv c) (map mc_chan (c_chans c)) b ok)).
Proof.
  split; [reflexivity|]. unfold conn_send, send, mirror_send. simpl. rewrite !map_map. reflexivity.
Qed.
