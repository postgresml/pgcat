(** C20 — "mirroring never affects the primary path": property theorems about the mirroring
    model (coq/Mirror/Model.v), for EVERY sequence of sends and mirror/task steps (deliver,
    fail, failing write, reconnect, backlog dropped, task end, replies of any kind), every
    state of the mirrors and every mapping of mirrors to servers. *)
From Coq Require Import List Bool Arith NArith.
From PV Require Import Gen.MirrorConsts Mirror.Model Mirror.Proofs.
Import ListNotations.

(** The bytes written to the real server, the value returned to the caller of Server::send
    and the Server's own state are the same whatever the mirrors are (how many, full, closed,
    connected or not) and whatever they do in between. *)
Theorem c20_noninterference : forall s m1 m2 ops,
  primary_trace (run s m1 ops) = primary_trace (run s m2 ops).
Proof. intros. unfold run. rewrite !run1_char. reflexivity. Qed.
Print Assumptions c20_noninterference.

(** ... and also under DIFFERENT environment schedules: only the sends themselves matter. *)
Theorem c20_noninterference_env : forall s m1 m2 ops1 ops2,
  sends_of ops1 = sends_of ops2 ->
  primary_trace (run s m1 ops1) = primary_trace (run s m2 ops2).
Proof. intros * E. unfold run. rewrite !run1_char, E. reflexivity. Qed.
Print Assumptions c20_noninterference_env.

(** What the real server gets is exactly the sequence of buffers passed to send. *)
Theorem c20_primary_gets_every_send : forall s m ops,
  snd (primary_trace (run s m ops)) = sends_of ops.
Proof. intros. unfold run. rewrite run1_char. reflexivity. Qed.
Print Assumptions c20_primary_gets_every_send.

(** The pooler as a whole (any number of connections to any servers): two configurations
    that differ only in their [mirrors] sections give the same primary side for every run;
    in particular a configuration behaves like itself with all mirrors removed. *)
Theorem c20_noninterference_world : forall g1 g2 ops,
  same_servers g1 g2 -> pview (runw g1 world0 ops) = pview (runw g2 world0 ops).
Proof. unfold same_servers. intros * SS. rewrite !runw_pview, SS. reflexivity. Qed.
Print Assumptions c20_noninterference_world.

Theorem c20_same_as_without_mirrors : forall g ops,
  pview (runw g world0 ops) = pview (runw (strip_mirrors g) world0 ops).
Proof. intros. apply c20_noninterference_world, strip_same. Qed.
Print Assumptions c20_same_as_without_mirrors.

(** The client path does not depend on the mirror tasks: take ANY schedule and erase every step of every
    mirror task and mirror (connecting, failing to connect, delivering, hanging, ...): connections, Server
    states and the log of what the real servers got, with the values returned to the callers, are the same.
    Modelling assumption, stated: a mirror-task step is a step of ITS OWN task and takes nothing from the
    client path but the shared runtime; that the runtime really has a free worker while a mirror task waits
    (no blocking call inside an async task) is outside the model and is what the round-trip latency monitor of
    props/c20.py observes on the real code. *)
Theorem c20_client_path_independent : forall g ops w1 w2, pview w1 = pview w2 ->
  pview (runw g w1 ops) = pview (runw g w2 (filter client_op ops)).
Proof. intros * E. rewrite !runw_pview, E, pstep_client_ops. reflexivity. Qed.
Print Assumptions c20_client_path_independent.

(** send has no mirror-dependent waiting state: it is a total function whose primary result
    is fixed by (server state, buffer, outcome of the real write) alone, and each mirror
    channel is decided by its own fullness/closedness (the early return is redundant). *)
Theorem c20_never_blocks : forall s b ok,
  exists s' out, out = (b, ok) /\
    forall cs, send s cs b ok = (s', map (fun c => if unavailable c then c else push b c) cs, out).
Proof.
  intros. exists (srv_send s (b, ok)), (b, ok). split; [reflexivity|]. intros cs.
  unfold send. rewrite mirror_send_pointwise. reflexivity.
Qed.
Print Assumptions c20_never_blocks.

(** The fan-out to mirror j does not depend on the state of any mirror i <> j: one send gives channel j the
    same result whatever the other channels are (a full, closed or stalled mirror listed BEFORE j does not stop
    the fan-out), and over whole runs mirror j ends in the same state -- queue, connection, everything it was
    handed -- when all other mirrors are replaced by anything and all their steps are erased. *)
Theorem c20_mirrors_independent_send : forall cs1 cs2 b j,
  nth_error cs1 j = nth_error cs2 j ->
  nth_error (mirror_send cs1 b) j = nth_error (mirror_send cs2 b) j.
Proof. intros * E. rewrite !mirror_send_nth, E. reflexivity. Qed.
Print Assumptions c20_mirrors_independent_send.

Theorem c20_mirrors_independent : forall ops s m1 m2 j,
  nth_error m1 j = nth_error m2 j ->
  nth_error (snd (fst (run s m1 ops))) j =
  nth_error (snd (fst (run s m2 (filter (concerns j) ops)))) j.
Proof. intros * E. unfold run. rewrite !run1_chan_view, view_concerns, E. reflexivity. Qed.
Print Assumptions c20_mirrors_independent.

(** A mirror connection's lifetime: the connection number of a mirror task changes only by a reconnect while the
    task holds no connection, and a held connection is lost only by a failure step (read error / the mirror
    closes, write error, task end) -- never by a forwarded request or by anything the mirror answers. *)
Theorem c20_mirror_conn_replaced_only_after_failure : forall e c,
  (epoch (env_step e c) <> epoch c ->
     e = Reconnect /\ lnk c = Down /\ closed c = false /\ epoch (env_step e c) = S (epoch c)) /\
  (lnk c = Up -> lnk (env_step e c) = Down -> is_failure e = true) /\
  (forall b, epoch (chan_step c (inl b)) = epoch c /\ lnk (chan_step c (inl b)) = lnk c /\
             handed (chan_step c (inl b)) = handed c).
Proof.
  intros e c. split; [exact (epoch_changes_only_on_reconnect e c)|].
  split; [exact (link_lost_only_by_failure e c) | intros b; exact (offer_keeps_connection b c)].
Qed.
Print Assumptions c20_mirror_conn_replaced_only_after_failure.

(** While nothing fails, everything a mirror of a server connection is handed goes over ONE connection (the first
    and only one the task opens), in any interleaving of offers, deliveries, replies and (re)connect attempts;
    and inside a run the channel of mirror j evolves by exactly these per-channel steps. *)
Theorem c20_mirror_one_continuous_connection : forall xs ep b,
  no_failure xs = true -> In (ep, b) (handed (fold_left chan_step xs new_chan)) ->
  ep = 1 /\ epoch (fold_left chan_step xs new_chan) = 1.
Proof.
  intros * NF HI.
  destruct (one_conn_run xs new_chan one_conn_new NF) as [[_ [_ H]]|[_ [E H]]].
  - rewrite H in HI. contradiction.
  - rewrite Forall_forall in H. exact (conj (H _ HI) E).
Qed.
Print Assumptions c20_mirror_one_continuous_connection.

Theorem c20_run_channel_view : forall ops s m j,
  nth_error (snd (fst (run s m ops))) j =
  option_map (fold_left chan_step (flat_map (view j) ops)) (nth_error m j).
Proof. intros. apply run1_chan_view. Qed.
Print Assumptions c20_run_channel_view.

(** In the pooler a send on a live connection is logged in the very step it is issued, in
    every state of every mirror: there is no enabling condition. *)
Theorem c20_send_always_completes : forall g w cid c b ok,
  nth_error (conns w) cid = Some c -> c_alive c = true ->
  plog (step g w (Send cid b ok)) = plog w ++ [(cid, b, ok)].
Proof. intros * N A. simpl. rewrite N, A. reflexivity. Qed.
Print Assumptions c20_send_always_completes.

(** What mirror [m] of connection [cid] has been handed is an in-order subsequence of the
    whole buffers passed to send on that very connection, item by item identical; and [m] is
    an entry of the connection's own shard whose mirroring_target_index equals the
    connection's server index (attachment by index equality only). *)
Theorem c20_mirror_sees_subsequence : forall g ops cid c m,
  nth_error (conns (runw g world0 ops)) cid = Some c -> In m (c_chans c) ->
  (exists sh, nth_error g (c_shard c) = Some sh /\ c_index c < length (servers sh) /\
              nth_error (mirrors sh) (mc_idx m) = Some (mc_cfg m) /\
              m_target (mc_cfg m) = c_index c) /\
  Subseq (map snd (handed (mc_chan m))) (sent_on cid (plog (runw g world0 ops))).
Proof.
  intros * N HM. destruct (reachable_Inv g ops cid c N m HM) as [A [S _]]. split.
  - apply mirrors_of_spec, A.
  - exact (Subseq_trans _ _ _ (handed_sub_given _) S).
Qed.
Print Assumptions c20_mirror_sees_subsequence.

(** Never a buffer of another server: every buffer a mirror was handed was passed to send on a
    connection of the server the mirror targets. *)
Theorem c20_mirror_only_own_server : forall g ops cid c m ep b,
  nth_error (conns (runw g world0 ops)) cid = Some c -> In m (c_chans c) ->
  In (ep, b) (handed (mc_chan m)) ->
  m_target (mc_cfg m) = c_index c /\ exists ok, In (cid, b, ok) (plog (runw g world0 ops)).
Proof.
  intros * N HM HI. destruct (c20_mirror_sees_subsequence g ops cid c m N HM) as [[sh [_ [_ [_ T]]]] S].
  split; [exact T|]. apply In_sent_on, (Subseq_In _ _ _ S), in_map_iff. exists (ep, b). auto.
Qed.
Print Assumptions c20_mirror_only_own_server.

(** The attachment function is exactly "entries of the shard whose target equals the index". *)
Theorem c20_attachment : forall g sh idx i mc,
  In (i, mc) (mirrors_of g sh idx) <->
  exists s, nth_error g sh = Some s /\ idx < length (servers s) /\
            nth_error (mirrors s) i = Some mc /\ m_target mc = idx.
Proof. exact mirrors_of_spec. Qed.
Print Assumptions c20_attachment.

(** A configuration pgcat accepts (Shard::validate: every mirroring_target_index names a server of the
    shard) attaches EVERY mirror, to exactly the server it names: no mirror is silently unused. *)
Theorem c20_valid_cfg_attaches_all : forall g sh s i mc,
  valid_cfg g = true -> nth_error g sh = Some s -> nth_error (mirrors s) i = Some mc ->
  In (i, mc) (mirrors_of g sh (m_target mc)) /\
  forall idx, In (i, mc) (mirrors_of g sh idx) -> idx = m_target mc.
Proof.
  intros * V G M. split.
  - apply mirrors_of_spec. exists s. repeat split; auto. exact (valid_cfg_target g sh s i mc V G M).
  - intros idx H. apply mirrors_of_spec in H. destruct H as [s' [_ [_ [_ T]]]]. auto.
Qed.
Print Assumptions c20_valid_cfg_attaches_all.

(** An offered buffer is enqueued whole (at the tail) or dropped whole; a delivery hands over
    exactly the oldest queued buffer; every other step only removes whole buffers. *)
Theorem c20_no_partial : forall cs b n c,
  nth_error cs n = Some c ->
  nth_error (mirror_send cs b) n = Some c \/
  (unavailable c = false /\ nth_error (mirror_send cs b) n = Some (push b c)).
Proof. intros * H. rewrite mirror_send_nth, H. simpl. destruct (unavailable c); auto. Qed.
Print Assumptions c20_no_partial.

Theorem c20_no_partial_deliver : forall c,
  env_step Deliver c = c \/
  exists b r, q c = b :: r /\ q (env_step Deliver c) = r /\
              handed (env_step Deliver c) = handed c ++ [(epoch c, b)].
Proof.
  intros c. unfold env_step. destruct (closed c); auto. destruct (lnk c); auto.
  destruct (q c) as [|b r]; auto. right. exists b, r. auto.
Qed.
Print Assumptions c20_no_partial_deliver.

Theorem c20_env_only_removes : forall e c, Subseq (given (env_step e c)) (given c).
Proof. exact env_step_given. Qed.
Print Assumptions c20_env_only_removes.

(** Memory held for a mirror is bounded by the channel capacity. *)
Theorem c20_queue_bounded : forall g ops cid c m,
  nth_error (conns (runw g world0 ops)) cid = Some c -> In m (c_chans c) ->
  length (q (mc_chan m)) <= capacity.
Proof. intros * N HM. destruct (reachable_Inv g ops cid c N m HM) as [_ [_ L]]. exact L. Qed.
Print Assumptions c20_queue_bounded.

(** * Non-vacuity and spec validation (all by computation) *)

Definition buf (i : nat) : bytes := [81%N; N.of_nat i].
Definition bufs (n : nat) : list bytes := map buf (seq 0 n).

(** a healthy mirror gets everything, in order *)
Example ex_all_delivered :
  let ops := [Env1 0 Reconnect; Send1 (buf 1) true; Env1 0 Deliver; Send1 (buf 2) true; Env1 0 Deliver] in
  map snd (handed (nth 0 (snd (fst (run srv0 [new_chan] ops))) new_chan)) = [buf 1; buf 2]
  /\ snd (run srv0 [new_chan] ops) = [(buf 1, true); (buf 2, true)].
Proof. vm_compute. split; reflexivity. Qed.

(** a mirror that is down from the start: the first [capacity] buffers are kept, the rest is
    dropped; when it comes up it gets exactly those, whole and in order — and the real server
    got all of them *)
Example ex_overflow :
  let n := capacity + 5 in
  let ops := map (fun b => Send1 b true) (bufs n)
             ++ [Env1 0 Reconnect] ++ repeat (Env1 0 Deliver) n in
  let r := run srv0 [new_chan] ops in
  map snd (handed (nth 0 (snd (fst r)) new_chan)) = firstn capacity (bufs n)
  /\ map fst (snd r) = bufs n
  /\ wire (fst (fst r)) = bufs n.
Proof. vm_compute. repeat split; reflexivity. Qed.

(** two mirrors, one closed: the open one still gets the buffer (no early return);
    both unavailable: nothing is cloned, nothing changes *)
Example ex_early_return :
  let dead := mkChan [] true Down 0 [] in
  map q (mirror_send [dead; new_chan] (buf 7)) = [[]; [buf 7]]
  /\ mirror_send [dead; dead] (buf 7) = [dead; dead].
Proof. vm_compute. split; reflexivity. Qed.

(** a stalled mirror listed first (never connects, its channel fills up) does not keep anything from the healthy
    mirror listed after it *)
Example ex_stalled_first :
  let n := capacity + 8 in
  let ops := [Env1 1 Reconnect] ++ flat_map (fun b => [Send1 b true; Env1 1 Deliver]) (bufs n) in
  let r := run srv0 [new_chan; new_chan] ops in
  map snd (handed (nth 1 (snd (fst r)) new_chan)) = bufs n
  /\ q (nth 0 (snd (fst r)) new_chan) = firstn capacity (bufs n).
Proof. vm_compute. split; reflexivity. Qed.

(** a transaction, a SET, a COPY ... : whatever is forwarded and answered, one connection; a failure, then two *)
Example ex_one_connection :
  let xs := [inr Reconnect; inl (buf 1); inr Deliver; inr Reply; inl (buf 2); inr Deliver; inr Reply; inr Reconnect;
             inl (buf 3); inr Deliver] in
  handed (fold_left chan_step xs new_chan) = [(1, buf 1); (1, buf 2); (1, buf 3)]
  /\ no_failure xs = true
  /\ map fst (handed (fold_left chan_step (xs ++ [inr Fail; inr Reconnect; inl (buf 4); inr Deliver]) new_chan)) = [1; 1; 1; 2].
Proof. vm_compute. repeat split; reflexivity. Qed.

(** a failing write to the mirror loses that buffer only; a failing write to the REAL server
    is reported to the caller and marks the server bad, mirrors or not *)
Example ex_failures :
  let ops := [Env1 0 Reconnect; Send1 (buf 1) true; Send1 (buf 2) true; Env1 0 FailSend;
              Env1 0 Reconnect; Env1 0 Deliver; Send1 (buf 3) false] in
  let r := run srv0 [new_chan] ops in
  handed (nth 0 (snd (fst r)) new_chan) = [(2, buf 2)]
  /\ snd r = [(buf 1, true); (buf 2, true); (buf 3, false)]
  /\ bad (fst (fst r)) = true
  /\ primary_trace r = primary_trace (run srv0 [] ops).
Proof. vm_compute. repeat split; reflexivity. Qed.

(** attachment: shard 0 has servers [s0; s1] and mirrors with targets 1, 0, 5, 1 *)
Definition g_ex : cfg :=
  [mkShard [100%N; 101%N] [mkMirror 200 1; mkMirror 201 0; mkMirror 202 5; mkMirror 203 1];
   mkShard [110%N] [mkMirror 210 0]].

Example ex_mirrors_of :
  map fst (mirrors_of g_ex 0 0) = [1] /\ map fst (mirrors_of g_ex 0 1) = [0; 3]
  /\ mirrors_of g_ex 0 5 = [] /\ mirrors_of g_ex 0 2 = []
  /\ map fst (mirrors_of g_ex 1 0) = [0] /\ mirrors_of g_ex 2 0 = [].
Proof. vm_compute. repeat split; reflexivity. Qed.

Example ex_valid_cfg :
  valid_cfg g_ex = false
  /\ valid_cfg [mkShard [100%N; 101%N] [mkMirror 200 1; mkMirror 201 0]; mkShard [110%N] [mkMirror 210 0]] = true
  /\ valid_cfg [mkShard [100%N] [mkMirror 200 1]] = false.
Proof. vm_compute. repeat split; reflexivity. Qed.

(** a run of the pooler: traffic of server 0 reaches only the mirror that targets 0, traffic of
    server 1 only the two that target 1; the mirror with target 5 is attached to nothing *)
Example ex_world :
  let ops := [Startup 0 0; Startup 0 1; Startup 0 5;
              Env 0 0 Reconnect; Env 1 0 Reconnect; Env 1 1 Reconnect;
              Send 0 (buf 1) true; Send 1 (buf 2) true; Send 0 (buf 3) true;
              Env 0 0 Deliver; Env 0 0 Deliver; Env 1 0 Deliver; Env 1 1 Deliver;
              DropConn 0; Send 0 (buf 4) true] in
  let w := runw g_ex world0 ops in
  map (fun c => map (fun m => (m_addr (mc_cfg m), map snd (handed (mc_chan m)))) (c_chans c)) (conns w)
  = [[(201%N, [buf 1; buf 3])]; [(200%N, [buf 2]); (203%N, [buf 2])]]
  /\ plog w = [(0, buf 1, true); (1, buf 2, true); (0, buf 3, true)]
  /\ pview w = pview (runw (strip_mirrors g_ex) world0 ops).
Proof. vm_compute. repeat split; reflexivity. Qed.

(** Subseq is not trivially true *)
Example ex_subseq_discriminates :
  subseqb bytes_eqb [buf 1; buf 3] [buf 1; buf 2; buf 3] = true
  /\ subseqb bytes_eqb [buf 3; buf 1] [buf 1; buf 2; buf 3] = false
  /\ subseqb bytes_eqb [buf 1; buf 1] [buf 1; buf 2; buf 3] = false.
Proof. vm_compute. repeat split; reflexivity. Qed.
