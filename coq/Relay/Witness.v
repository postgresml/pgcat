(** C03 — the instantiation of the model with the constants extracted from the source, and the
    sample frames of the refutation witnesses and examples of Props.v. *)
From Coq Require Import ZArith List Bool.
From PV Require Import Relay.Model Gen.RelayConsts.
Import ListNotations.
Open Scope Z_scope.

(** the model with the thresholds / loop shape found in the source on this run *)
Definition recv_now := recv recv_break_D recv_break_d true.
Definition relay_now := relay recv_break_D recv_break_d true.
Definition relay_segments_now := relay_segments recv_break_D recv_break_d true.
Definition crun_now := crun client_copy_flush copy_done_loops.
(** mutants = the code before the repairs 8562805 ('G' arm) and fd4aac1 ('c'|'f' arm) *)
Definition relay_before_8562805 := relay recv_break_D recv_break_d false.
Definition crun_before_fd4aac1 := crun client_copy_flush false.

(** sample backend frames *)
Definition fT : frame := (84, [0; 0]).                               (* RowDescription, no columns *)
Definition fD (n : Z) : frame := (68, repeat 120 (Z.to_nat n)).              (* DataRow with an n-byte body *)
Definition fC : frame := (67, [83; 69; 76; 69; 67; 84; 32; 49; 0]).  (* CommandComplete "SELECT 1" *)
Definition fG : frame := (71, [0; 0; 1; 0; 0]).                      (* CopyInResponse *)
Definition fH : frame := (72, [0; 0; 1; 0; 0]).                      (* CopyOutResponse *)
Definition fd (n : Z) : frame := (100, repeat 121 (Z.to_nat n)).             (* CopyData *)
Definition fc : frame := (99, []).                                   (* CopyDone *)
Definition fZ : frame := (90, [73]).                                 (* ReadyForQuery 'I' *)
Definition fN : frame := (78, [83; 78; 79; 84; 73; 67; 69; 0; 0]).   (* NoticeResponse *)
Definition fS : frame := (83, [97; 0; 98; 0]).                       (* ParameterStatus a=b *)
Definition fE : frame := (69, [83; 69; 82; 82; 79; 82; 0; 0]).       (* ErrorResponse *)
(** sample frontend frames *)
Definition cP : frame := (80, [0; 83; 69; 76; 69; 67; 84; 32; 49; 0; 0; 0]).   (* Parse "" "SELECT 1" *)
Definition cB : frame := (66, [0; 0; 0; 0; 0; 0; 0; 0]).
Definition cE : frame := (69, [0; 0; 0; 0; 0]).
Definition cS : frame := (83, []).
Definition cH : frame := (72, []).                                   (* Flush *)
Definition cQ : frame := (81, [83; 69; 76; 69; 67; 84; 32; 49; 0]).
Definition cd (n : Z) : frame := (100, repeat 122 (Z.to_nat n)).
Definition cc : frame := (99, []).
