(** C03 — framing: [parse_frame_Some] says on which streams read_message succeeds, and
    [parse_avail_ind] reasons about [parse_avail] without its fuel.  The relay identity is one
    induction over the reply ([forward_recv]), one arm of recv() against one step of the guard
    ([arm_scan]).  The witnesses with large rows are computed from frame sizes ([recv_taken],
    [relay_sizes]).  Client side: one invariant per protocol ([crun_inv], [copy_in_inv]). *)
From Coq Require Import ZArith List Bool Lia Arith.
From PV Require Import Relay.Model.
Import ListNotations.
Open Scope Z_scope.

Lemma u32_be32 : forall z, 0 <= z < 4294967296 ->
  u32_of ((z / 16777216) mod 256) ((z / 65536) mod 256) ((z / 256) mod 256) (z mod 256) = z.
Proof.
  intros z Hz. unfold u32_of.
  change 65536 with (256 * 256). change 16777216 with (256 * 256 * 256).
  rewrite <- !Z.div_div by lia.
  pose proof (Z.div_mod z 256). pose proof (Z.div_mod (z / 256) 256).
  pose proof (Z.div_mod (z / 256 / 256) 256).
  rewrite (Z.mod_small (z / 256 / 256 / 256)); [lia|].
  split; [repeat apply Z.div_pos; lia|]. repeat (apply Z.div_lt_upper_bound; [lia|]). lia.
Qed.

Lemma i32_be32 : forall z, 0 <= z < 2147483648 ->
  i32_of ((z / 16777216) mod 256) ((z / 65536) mod 256) ((z / 256) mod 256) (z mod 256) = z.
Proof.
  intros z Hz. unfold i32_of. rewrite u32_be32 by lia.
  destruct (z >=? 2147483648) eqn:E; [lia | reflexivity].
Qed.

Lemma blen_nonneg : forall b, 0 <= blen b.
Proof. intros; unfold blen; lia. Qed.

Lemma blen_app : forall a b, blen (a ++ b) = blen a + blen b.
Proof. intros; unfold blen; rewrite app_length; lia. Qed.

Lemma enc_length : forall f, blen (enc f) = 5 + blen (snd f).
Proof. intros [t b]. unfold enc, be32, blen. cbn [fst snd length app]. lia. Qed.

Lemma encs_cons : forall f fs, encs (f :: fs) = enc f ++ encs fs.
Proof. reflexivity. Qed.
Lemma encs_app : forall a b, encs (a ++ b) = encs a ++ encs b.
Proof. intros. unfold encs. rewrite map_app, concat_app. reflexivity. Qed.
Lemma encs_one : forall f, encs [f] = enc f.
Proof. intros. unfold encs. cbn [map concat]. apply app_nil_r. Qed.

Lemma wf_len : forall f, wf f -> 0 <= blen (snd f) + 4 < 2147483648.
Proof.
  intros f H. unfold wf, wfb in H. apply andb_prop in H as [_ H].
  apply Z.ltb_lt in H. pose proof (blen_nonneg (snd f)). lia.
Qed.

(** read_message returns a frame exactly when the stream starts with a tag, a length word that
    announces the frame's body, and that body: it consumes 1 + 4 + |body| bytes. *)
Lemma parse_frame_Some : forall bs f rest, parse_frame bs = Some (f, rest) <->
  exists a b c d, bs = fst f :: a :: b :: c :: d :: snd f ++ rest /\ i32_of a b c d = blen (snd f) + 4.
Proof.
  intros bs [t body] rest. cbn [fst snd]. split.
  - destruct bs as [|t' [|a [|b [|c [|d r]]]]]; try discriminate. cbn [parse_frame].
    destruct (i32_of a b c d <? 4) eqn:E1; [discriminate|].
    destruct (length r <? _)%nat eqn:E2; [discriminate|]. intros H. inversion H. subst.
    exists a, b, c, d. rewrite firstn_skipn. split; [reflexivity|].
    apply Z.ltb_ge in E1. apply Nat.ltb_ge in E2. unfold blen. rewrite firstn_length. lia.
  - intros (a & b & c & d & -> & E). cbn [parse_frame]. rewrite E.
    pose proof (blen_nonneg body) as L.
    destruct (blen body + 4 <? 4) eqn:E1; [lia|].
    replace (Z.to_nat (blen body + 4 - 4)) with (length body) by (unfold blen; lia).
    rewrite app_length. destruct (_ <? _)%nat eqn:E2; [apply Nat.ltb_lt in E2; lia|].
    rewrite firstn_app, skipn_app, Nat.sub_diag, firstn_all, skipn_all, app_nil_r. reflexivity.
Qed.

Lemma parse_enc : forall f rest, wf f -> parse_frame (enc f ++ rest) = Some (f, rest).
Proof.
  intros f rest H. apply parse_frame_Some. unfold enc, be32. do 4 eexists.
  split; [reflexivity|]. apply i32_be32, wf_len, H.
Qed.

Lemma parse_frame_shrinks : forall bs f rest, parse_frame bs = Some (f, rest) ->
  (length rest + 5 <= length bs)%nat.
Proof.
  intros bs f rest H. apply parse_frame_Some in H as (a & b & c & d & -> & _).
  cbn [length]. rewrite app_length. lia.
Qed.

Lemma parse_frame_mono : forall a f rest b, parse_frame a = Some (f, rest) ->
  parse_frame (a ++ b) = Some (f, rest ++ b).
Proof.
  intros a f rest b H. apply parse_frame_Some in H as (x & y & z & w & -> & E).
  apply parse_frame_Some. exists x, y, z, w. cbn [app]. rewrite <- app_assoc. split; [reflexivity | exact E].
Qed.

Lemma parse_frame_none_bad : forall a b, parse_frame a = None -> bad_header a = true ->
  parse_frame (a ++ b) = None.
Proof.
  intros a b H Hb. unfold parse_frame, bad_header in *.
  destruct a as [|t [|x [|y [|z [|w r]]]]]; try discriminate.
  cbn [app]. rewrite Hb. reflexivity.
Qed.

(** ** [parse_avail] without its fuel: two equations and the induction they give *)

Lemma fuel_enough : forall k1 k2 bs, (length bs <= k1)%nat -> (length bs <= k2)%nat ->
  parse_avail_f k1 bs = parse_avail_f k2 bs.
Proof.
  induction k1 as [|k1 IH]; intros k2 bs H1 H2.
  - destruct bs; [|cbn in H1; lia]. destruct k2; reflexivity.
  - destruct k2 as [|k2].
    + destruct bs; [|cbn in H2; lia]. reflexivity.
    + cbn [parse_avail_f]. destruct (parse_frame bs) as [[f rest]|] eqn:E; [|reflexivity].
      apply parse_frame_shrinks in E. rewrite (IH k2 rest) by lia. reflexivity.
Qed.

Lemma parse_avail_step : forall bs f rest, parse_frame bs = Some (f, rest) ->
  parse_avail bs = let (fs, p) := parse_avail rest in (f :: fs, p).
Proof.
  intros bs f rest H. unfold parse_avail.
  pose proof (parse_frame_shrinks _ _ _ H) as L.
  destruct (length bs) as [|k] eqn:Ek; [lia|].
  cbn [parse_avail_f]. rewrite H.
  rewrite (fuel_enough k (length rest) rest) by lia. reflexivity.
Qed.

Lemma parse_avail_none : forall bs, parse_frame bs = None -> parse_avail bs = ([], bs).
Proof.
  intros bs H. unfold parse_avail. destruct (length bs); cbn [parse_avail_f]; [reflexivity|].
  rewrite H. reflexivity.
Qed.

Lemma parse_avail_ind : forall P : bytes -> list frame * bytes -> Prop,
  (forall bs, parse_frame bs = None -> P bs ([], bs)) ->
  (forall bs f rest fs p, parse_frame bs = Some (f, rest) -> P rest (fs, p) -> P bs (f :: fs, p)) ->
  forall bs, P bs (parse_avail bs).
Proof.
  intros P Hn Hs bs. remember (length bs) as n eqn:En. revert bs En.
  induction n as [n IH] using lt_wf_ind. intros bs ->.
  destruct (parse_frame bs) as [[f rest]|] eqn:E.
  - rewrite (parse_avail_step _ _ _ E). destruct (parse_avail rest) as [fs p] eqn:E2.
    apply (Hs _ _ _ _ _ E). rewrite <- E2.
    apply (IH (length rest)); [apply parse_frame_shrinks in E; lia | reflexivity].
  - rewrite parse_avail_none by exact E. apply Hn, E.
Qed.

Lemma parse_avail_pending : forall bs, parse_frame (snd (parse_avail bs)) = None.
Proof. apply (parse_avail_ind (fun _ r => parse_frame (snd r) = None)); auto. Qed.

Lemma parse_avail_app : forall a b, parse_avail (a ++ b) =
  let (fa, pa) := parse_avail a in let (fb, pb) := parse_avail (pa ++ b) in (fa ++ fb, pb).
Proof.
  intros a b. revert a.
  apply (parse_avail_ind (fun a r => parse_avail (a ++ b) =
    let (fa, pa) := r in let (fb, pb) := parse_avail (pa ++ b) in (fa ++ fb, pb))).
  - intros bs _. destruct (parse_avail (bs ++ b)). reflexivity.
  - intros bs f rest fs p E IH.
    rewrite (parse_avail_step _ _ _ (parse_frame_mono _ _ _ b E)), IH.
    destruct (parse_avail (p ++ b)). reflexivity.
Qed.

Lemma parse_avail_encs_all : forall fs, Forall wf fs -> parse_avail (encs fs) = (fs, []).
Proof.
  induction 1 as [|f fs Hf _ IH]; [reflexivity|].
  rewrite encs_cons, (parse_avail_step _ f (encs fs)), IH by (apply parse_enc, Hf). reflexivity.
Qed.

Lemma parse_avail_encs : forall fs rest, Forall wf fs ->
  parse_avail (encs fs ++ rest) = let (gs, p) := parse_avail rest in (fs ++ gs, p).
Proof. intros fs rest H. rewrite parse_avail_app, parse_avail_encs_all by exact H. reflexivity. Qed.

Lemma frame_roundtrip_rest : forall fs rest, Forall wf fs -> parse_frame rest = None ->
  parse_avail (encs fs ++ rest) = (fs, rest).
Proof.
  intros fs rest H Hn. rewrite parse_avail_encs by assumption.
  rewrite parse_avail_none by assumption. rewrite app_nil_r. reflexivity.
Qed.

Lemma frame_roundtrip : forall fs, Forall wf fs -> parse_all (encs fs) = Some fs.
Proof. intros fs H. unfold parse_all. rewrite parse_avail_encs_all by exact H. reflexivity. Qed.

Lemma feed_all_from : forall segs fs p, parse_frame p = None ->
  fold_left feed segs (fs, p) =
  let (gs, q) := parse_avail (p ++ concat segs) in (fs ++ gs, q).
Proof.
  induction segs as [|s segs IH]; intros fs p Hp; cbn [fold_left concat].
  - rewrite app_nil_r, parse_avail_none, app_nil_r by exact Hp. reflexivity.
  - unfold feed at 2. cbn [fst snd]. rewrite app_assoc, (parse_avail_app (p ++ s)).
    pose proof (parse_avail_pending (p ++ s)) as Hq. destruct (parse_avail (p ++ s)) as [g1 q1].
    cbv iota. rewrite IH by exact Hq. destruct (parse_avail (q1 ++ concat segs)). rewrite app_assoc. reflexivity.
Qed.

Lemma feed_all_concat : forall segs, feed_all segs = parse_avail (concat segs).
Proof.
  intros. unfold feed_all. rewrite feed_all_from by reflexivity. cbn [app].
  destruct (parse_avail (concat segs)). reflexivity.
Qed.

Lemma kind_of_tag : forall t,
  match kind_of t with
  | KZ => t = 90 | KE => t = 69 | KC => t = 67 | KS => t = 83 | KD => t = 68 | KG => t = 71
  | KH => t = 72 | Kd => t = 100 | Kother => True
  end.
Proof.
  intros t. unfold kind_of.
  repeat (destruct (t =? _) eqn:E; [apply Z.eqb_eq, E | clear E]). exact I.
Qed.

Section RecvProofs.
  Variables (pD pd : Z -> bool).

  (** One arm of recv() against one step of the guard: at a stop the call returns with
      data_available false; when it returns earlier data_available is true (which is what [scan]
      asks of a CopyData) and the loop comes back for the rest. *)
  Lemma arm_scan : forall f r s n, okframe f = true -> scan (da s) (f :: r) = true ->
    match arm pD pd true s n f with
    | Break s' => if is_stop f then da s' = false else da s' = true /\ scan true r = true
    | Cont s' => is_stop f = false /\ scan (da s') r = true
    | Fail => False
    end.
  Proof.
    intros f r s n Hf Hs. unfold okframe in Hf. apply andb_prop in Hf as [_ Hf].
    cbn [scan] in Hs. unfold arm, is_stop.
    destruct (kind_of (fst f)); try (split; [reflexivity | exact Hs]).
    - destruct (snd f) as [|b tl]; [discriminate|].
      destruct (b =? 84), (b =? 73), (b =? 69); try reflexivity. discriminate.
    - rewrite Hf. split; [reflexivity | exact Hs].
    - destruct (pD n); split; try reflexivity; exact Hs.
    - reflexivity.
    - apply andb_prop in Hs as [Ha Hs]. destruct (pd n); split; try reflexivity; try assumption.
      rewrite Ha in Hs. exact Hs.
  Qed.

  (** what send_and_receive_loop does with the result of one recv():
      [relay_loop (S k) s fs acc = forward k acc (recv s [] fs)] *)
  Definition forward (k : nat) (acc : list bytes) (res : rres) : lres :=
    match res with
    | Ret chunk s' rest =>
        if da s' then relay_loop pD pd true k s' rest (acc ++ [chunk]) else Done (acc ++ [chunk]) s' rest
    | Blocked => LBlocked acc
    | Failed => LFailed acc
    end.

  Lemma forward_recv : forall fs k s buf acc, (length fs <= k)%nat ->
    forallb okframe fs = true -> scan (da s) fs = true ->
    exists chunks s', forward k acc (recv pD pd true s buf fs) = Done (acc ++ chunks) s' (after_stop fs) /\
                      concat chunks = buf ++ encs (upto_stop fs) /\ da s' = false.
  Proof.
    induction fs as [|f r IH]; intros k s buf acc L Hok Hsc; [discriminate|].
    cbn [forallb] in Hok. apply andb_prop in Hok as [Hf Hr]. cbn [length] in L.
    pose proof (arm_scan f r s (blen (buf ++ enc f)) Hf Hsc) as A.
    cbn [recv upto_stop after_stop].
    destruct (arm pD pd true s (blen (buf ++ enc f)) f) as [s1|s1|]; [| |contradiction].
    - cbn [forward]. destruct (is_stop f).
      + rewrite A. exists [buf ++ enc f], s1. rewrite encs_one. cbn [concat]. rewrite app_nil_r. auto.
      + destruct A as [D1 S1]. rewrite D1. destruct k as [|k]; [lia|].
        destruct (IH k s1 [] (acc ++ [buf ++ enc f])) as (ch & s2 & E & Ec & D2);
          [lia | exact Hr | rewrite D1; exact S1 |].
        exists ((buf ++ enc f) :: ch), s2. rewrite <- app_assoc in E. split; [exact E|].
        cbn [concat]. rewrite Ec, encs_cons, <- app_assoc. auto.
    - destruct A as [St S1]. rewrite St.
      destruct (IH k s1 (buf ++ enc f) acc) as (ch & s2 & E & Ec & D2); [lia | exact Hr | exact S1 |].
      exists ch, s2. split; [exact E|]. rewrite Ec, encs_cons, <- app_assoc. auto.
  Qed.

  Lemma relay_identity : forall fs s, da s = false -> reply_stream fs -> relay_ok fs = true ->
    exists chunks s', relay pD pd true s fs = Done chunks s' (after_stop fs) /\
                      concat chunks = encs (upto_stop fs) /\ da s' = false.
  Proof.
    intros fs s Hs Hr Hk. unfold reply_stream, reply_streamb in Hr. apply andb_prop in Hr as [Hok _].
    apply (forward_recv fs (length fs) s [] []); [apply le_n | exact Hok | rewrite Hs; exact Hk].
  Qed.

  (** without CopyInResponse before the first ReadyForQuery the answer ends at that 'Z' *)
  Definition noG (fs : list frame) : bool := forallb (fun f => negb (fst f =? 71)) fs.

  Lemma stop_is_Z : forall fs, noG fs = true ->
    upto_stop fs = upto_first_Z fs /\ after_stop fs = after_first_Z fs.
  Proof.
    induction fs as [|f r IH]; intros H; [split; reflexivity|].
    cbn [noG forallb] in H. apply andb_prop in H as [Hf Hr]. destruct (IH Hr) as [A B].
    cbn [upto_stop after_stop upto_first_Z after_first_Z]. rewrite A, B.
    replace (is_stop f) with (is_Z f); [split; reflexivity|].
    unfold is_stop, is_Z. pose proof (kind_of_tag (fst f)) as K.
    destruct (kind_of (fst f)); try reflexivity. rewrite K in Hf. discriminate.
  Qed.

  Lemma relay_identity_Z : forall fs s, da s = false -> reply_stream fs -> relay_ok fs = true ->
    noG fs = true ->
    exists chunks s', relay pD pd true s fs = Done chunks s' (after_first_Z fs) /\
                      concat chunks = encs (upto_first_Z fs) /\ da s' = false.
  Proof.
    intros fs s Hs Hr Hk Hg. destruct (stop_is_Z fs Hg) as [A B]. rewrite <- A, <- B.
    apply relay_identity; assumption.
  Qed.

  Lemma scan_no_copydata : forall fs a, forallb (fun f => negb (fst f =? 100)) fs = true ->
    existsb is_stop fs = true -> scan a fs = true.
  Proof.
    induction fs as [|f r IH]; intros a Hn Hs; [discriminate|].
    cbn [forallb] in Hn. apply andb_prop in Hn as [Hf Hn]. cbn [existsb] in Hs. cbn [scan].
    unfold is_stop in Hs. pose proof (kind_of_tag (fst f)) as K.
    destruct (kind_of (fst f)); cbn [orb] in Hs; try reflexivity; try (apply IH; assumption).
    rewrite K in Hf. discriminate.
  Qed.

  Lemma forall_okframe_wf : forall fs, forallb okframe fs = true -> Forall wf fs.
  Proof.
    intros fs H. apply Forall_forall. intros f Hf. apply (proj1 (forallb_forall _ _) H) in Hf.
    unfold okframe in Hf. apply andb_prop in Hf as [Hf _]. exact Hf.
  Qed.

  Lemma wire_identity : forall fs segs s, da s = false -> reply_stream fs -> relay_ok fs = true ->
    concat segs = encs fs ->
    exists chunks s', relay_segments pD pd true s segs = Done chunks s' (after_stop fs) /\
                      concat chunks = encs (upto_stop fs) /\ da s' = false.
  Proof.
    intros fs segs s Hs Hr Hk Hc. unfold relay_segments.
    rewrite feed_all_concat, Hc, parse_avail_encs_all.
    - apply relay_identity; assumption.
    - apply forall_okframe_wf. apply andb_prop in Hr as [Hok _]. exact Hok.
  Qed.

  Lemma chunking_irrelevant : forall segs1 segs2 s gclr, concat segs1 = concat segs2 ->
    feed_all segs1 = feed_all segs2 /\
    relay_segments pD pd gclr s segs1 = relay_segments pD pd gclr s segs2.
  Proof.
    intros segs1 segs2 s g H. unfold relay_segments. rewrite !feed_all_concat, H. split; reflexivity.
  Qed.
End RecvProofs.

(** A body of [n] equal bytes (the sample rows of Witness.v): size and well-formedness without
    building it. *)
Lemma blen_repeat : forall (x : Z) n, 0 <= n -> blen (repeat x (Z.to_nat n)) = n.
Proof. intros. unfold blen. rewrite repeat_length. lia. Qed.

Lemma blen_enc_repeat : forall (t x : Z) n, 0 <= n -> blen (enc (t, repeat x (Z.to_nat n))) = 5 + n.
Proof. intros. rewrite enc_length. cbn [snd]. rewrite blen_repeat by assumption. reflexivity. Qed.

Lemma wfb_repeat : forall (t x : Z) n, byte_ok t = true -> byte_ok x = true -> 0 <= n < 2147483644 ->
  wfb (t, repeat x (Z.to_nat n)) = true.
Proof.
  intros t x n Ht Hx Hn. unfold wfb. cbn [fst snd]. rewrite Ht, blen_repeat by lia.
  apply andb_true_intro. split; [|apply Z.ltb_lt; lia].
  apply forallb_forall. intros y Hy. apply repeat_spec in Hy. subst y. exact Hx.
Qed.

Lemma reply_stream_cons : forall f r, okframe f = true -> reply_stream r -> reply_stream (f :: r).
Proof.
  unfold reply_stream, reply_streamb. intros f r Hf Hr. apply andb_prop in Hr as [Ho Hs].
  cbn [forallb existsb]. rewrite Hf, Ho, Hs. apply orb_true_r.
Qed.

Section Sizes.
  Variables (pD pd : Z -> bool) (gclr : bool).

  (** [recv] reads the body of a 'Z' and of an 'S' frame; of every other frame, and of its
      buffer, it uses the size only.  [taken s n fs ns]: how many frames one call takes off [fs]
      with [n] bytes already buffered, how many bytes it returns and the flags it leaves, from
      the sizes [ns] of the frames' encodings. *)
  Fixpoint taken (s : bel) (n : Z) (fs : list frame) (ns : list Z) : option (nat * Z * bel) :=
    match fs, ns with
    | f :: r, m :: ms =>
        match arm pD pd gclr s (n + m) f with
        | Break s' => Some (1%nat, n + m, s')
        | Cont s' => match taken s' (n + m) r ms with
                     | Some (k, c, s'') => Some (S k, c, s'')
                     | None => None
                     end
        | Fail => None
        end
    | _, _ => None
    end.

  Lemma recv_taken : forall fs s buf k c s',
    taken s (blen buf) fs (map (fun f => blen (enc f)) fs) = Some (k, c, s') ->
    recv pD pd gclr s buf fs = Ret (buf ++ encs (firstn k fs)) s' (skipn k fs) /\
    blen (buf ++ encs (firstn k fs)) = c.
  Proof.
    induction fs as [|f r IH]; intros s buf k c s' H; [discriminate|].
    cbn [map taken] in H. rewrite <- blen_app in H. cbn [recv].
    destruct (arm pD pd gclr s (blen (buf ++ enc f)) f) as [s1|s1|]; [| |discriminate].
    - inversion H. subst. cbn [firstn skipn]. rewrite encs_one. auto.
    - destruct (taken s1 _ r _) as [[[k1 c1] s2]|] eqn:E; inversion H. subst.
      cbn [firstn skipn]. rewrite encs_cons, app_assoc. exact (IH _ _ _ _ _ E).
  Qed.

  (** for a caller: the sizes are a list [ns] of their own, to be had by rewriting
      ([blen_enc_repeat]) before anything is evaluated *)
  Lemma recv_sizes : forall k c ns fs s s', map (fun f => blen (enc f)) fs = ns ->
    taken s 0 fs ns = Some (k, c, s') ->
    recv pD pd gclr s [] fs = Ret (encs (firstn k fs)) s' (skipn k fs).
  Proof. intros k c ns fs s s' <- H. exact (proj1 (recv_taken fs s [] k c s' H)). Qed.

  Lemma relay_once : forall fs s c s' rest, recv pD pd gclr s [] fs = Ret c s' rest -> da s' = false ->
    relay pD pd gclr s fs = Done [c] s' rest.
  Proof. intros fs s c s' rest H D. unfold relay. cbn [relay_loop]. rewrite H, D. reflexivity. Qed.

  Fixpoint chunk_sizes (fuel : nat) (s : bel) (fs : list frame) (ns : list Z) : option (list Z) :=
    match fuel with
    | O => None
    | S k =>
        match taken s 0 fs ns with
        | Some (j, c, s') =>
            if da s' then option_map (cons c) (chunk_sizes k s' (skipn j fs) (skipn j ns))
            else Some [c]
        | None => None
        end
    end.

  Lemma relay_loop_sizes : forall fuel fs s acc l,
    chunk_sizes fuel s fs (map (fun f => blen (enc f)) fs) = Some l ->
    match relay_loop pD pd gclr fuel s fs acc with Done cs _ _ => Some (map blen cs) | _ => None end
    = Some (map blen acc ++ l).
  Proof.
    induction fuel as [|k IH]; intros fs s acc l H; [discriminate|].
    cbn [chunk_sizes] in H. destruct (taken s 0 fs _) as [[[j c] s1]|] eqn:T; [|discriminate].
    destruct (recv_taken fs s [] j c s1 T) as [R C]. cbn [relay_loop]. rewrite R.
    destruct (da s1).
    - rewrite skipn_map in H. destruct (chunk_sizes k s1 _ _) as [l'|] eqn:E; inversion H.
      rewrite (IH _ s1 _ l' E), map_app, <- app_assoc. cbn [map].
      rewrite C. reflexivity.
    - inversion H. rewrite map_app. cbn [map]. rewrite C. reflexivity.
  Qed.

  (** over [relay] itself: applied to a goal about [relay_now], [relay_loop_sizes] makes the
      unifier unfold [relay] and the rows with it *)
  Lemma relay_sizes : forall ns fs s l, map (fun f => blen (enc f)) fs = ns ->
    chunk_sizes (S (length fs)) s fs ns = Some l ->
    match relay pD pd gclr s fs with Done cs _ _ => Some (map blen cs) | _ => None end = Some l.
  Proof. intros ns fs s l <-. exact (relay_loop_sizes _ fs s [] l). Qed.
End Sizes.

Definition is_nil {A} (l : list A) : bool := match l with [] => true | _ => false end.

Fixpoint closed_end (fresh : bool) (ms : list frame) : bool :=
  match ms with
  | [] => fresh
  | f :: r => if fst f =? 83 then closed_end true r
              else if batch_msg f then closed_end false r
              else closed_end fresh r
  end.

Fixpoint count_relay (acts : list act) : nat :=
  match acts with [] => O | RelayLoop :: r => S (count_relay r) | _ :: r => count_relay r end.

Lemma sent_app : forall a b, sent (a ++ b) = sent a ++ sent b.
Proof.
  induction a as [|x a IH]; intros b; [reflexivity|].
  destruct x; cbn [app sent]; rewrite ?IH, ?app_assoc; reflexivity.
Qed.

Lemma batch_msg_not_S_Q_H : forall f, batch_msg f = true -> (fst f =? 83) = false /\ (fst f =? 81) = false /\ (fst f =? 72) = false.
Proof.
  intros [t b]. unfold batch_msg. cbn [fst snd]. intros H.
  repeat (apply orb_prop in H as [H|H]); try (apply andb_prop in H as [H _]);
    apply Z.eqb_eq in H; subst t; repeat split; reflexivity.
Qed.

Section ClientProofs.
  Variables (pc : Z -> bool) (cloop : bool).

  Lemma cstep_batch : forall st f, batch_msg f = true ->
    cstep pc cloop false st f = Some (mkC (ext st ++ [f]) (cbuf st), []).
  Proof.
    intros st [t b] H. unfold batch_msg in H. cbn [fst snd] in H. unfold cstep. cbn [fst snd].
    repeat (apply orb_prop in H as [H|H]).
    1-4: apply Z.eqb_eq in H; subst t; reflexivity.
    apply andb_prop in H as [H C]. apply Z.eqb_eq in H. subst t. cbn. rewrite C. reflexivity.
  Qed.

  Lemma cstep_Q : forall st b, cstep pc cloop false st (81, b) = Some (st, [SendSrv (enc (81, b)); RelayLoop]).
  Proof. reflexivity. Qed.

  Lemma cstep_S : forall f0 e b, (fst f0 =? 83) = false ->
    cstep pc cloop false (mkC (f0 :: e) []) (83, b) =
    Some (cst0, [SendSrv (encs (f0 :: e) ++ enc (83, b)); RelayLoop]).
  Proof.
    intros [t0 b0] e b H. cbn [fst] in H. cbn. rewrite H. reflexivity.
  Qed.

  (** [e] = the open batch; the guards' flag [fresh] is [is_nil e] *)
  Lemma crun_inv : forall ms e,
    forallb batch_msg e = true -> forallb req_msg ms = true -> known_flush ms = false ->
    known_lone_sync_from (is_nil e) ms = false -> q_boundary (is_nil e) ms = true ->
    exists st' acts, crun pc cloop false (mkC e []) ms = Some (st', acts) /\ cbuf st' = [] /\
      sent acts ++ encs (ext st') = encs e ++ encs ms /\
      is_nil (ext st') = closed_end (is_nil e) ms /\
      count_recv_once acts = O.
  Proof.
    induction ms as [|f ms IH]; intros e He Hr Hf Hl Hq.
    - exists (mkC e []), []. cbn. rewrite app_nil_r. repeat split; reflexivity.
    - cbn [forallb] in Hr. apply andb_prop in Hr as [Hrf Hr].
      unfold known_flush in Hf. cbn [existsb] in Hf. apply orb_false_elim in Hf as [Hf1 Hf].
      cbn [known_lone_sync_from] in Hl. cbn [q_boundary] in Hq. cbn [crun closed_end].
      unfold req_msg in Hrf.
      destruct (batch_msg f) eqn:B.
      + (* Parse / Bind / Describe / Execute / Close: buffered *)
        destruct (batch_msg_not_S_Q_H f B) as (N83 & N81 & _). rewrite N83 in *. rewrite N81 in Hq.
        rewrite cstep_batch by exact B. cbn [ext cbuf].
        destruct (IH (e ++ [f])) as (st' & acts & -> & Hb & Heq & Hn & Hc);
          [ rewrite forallb_app, He; cbn [forallb]; rewrite B; reflexivity | exact Hr | exact Hf
          | destruct e; exact Hl | destruct e; exact Hq | ].
        exists st', acts. rewrite Heq, Hn, encs_app, encs_one, <- app_assoc.
        repeat split; try assumption. destruct e; reflexivity.
      + rewrite orb_false_r in Hrf. destruct f as [t b]. cbn [fst snd] in *.
        rewrite Hf1, orb_false_r in Hrf.
        apply orb_prop in Hrf as [H|H]; apply Z.eqb_eq in H; subst t; cbn in Hl, Hq.
        * (* Query: at a batch boundary only *)
          apply andb_prop in Hq as [Hfresh Hq]. destruct e; [|discriminate]. rewrite cstep_Q.
          destruct (IH [] eq_refl Hr Hf Hl Hq) as (st' & acts & -> & Hb & Heq & Hn & Hc).
          exists st', ([SendSrv (enc (81, b)); RelayLoop] ++ acts). cbn [sent app].
          rewrite <- app_assoc, Heq. repeat split; assumption.
        * (* Sync: never with an empty batch *)
          apply orb_false_elim in Hl as [Hne Hl]. destruct e as [|f0 e']; [discriminate|].
          cbn [forallb] in He. apply andb_prop in He as [Hf0 _].
          destruct (batch_msg_not_S_Q_H f0 Hf0) as (N83 & _ & _). rewrite cstep_S by exact N83.
          destruct (IH [] eq_refl Hr Hf Hl Hq) as (st' & acts & E & Hb & Heq & Hn & Hc).
          unfold cst0. rewrite E.
          exists st', ([SendSrv (encs (f0 :: e') ++ enc (83, b)); RelayLoop] ++ acts). cbn [sent app].
          rewrite <- app_assoc, Heq, <- app_assoc. repeat split; assumption.
  Qed.

  Lemma copy_in_inv : forall ds x b0 e,
    forallb (fun f => fst f =? 100) ds = true -> (fst e =? 99) || (fst e =? 102) = true ->
    exists pre, crun pc cloop true (mkC x b0) (ds ++ [e]) =
                  Some (mkC x [], pre ++ [if cloop then RelayLoop else RecvOnce]) /\
      sent pre = b0 ++ encs (ds ++ [e]) /\ count_relay pre = O /\ count_recv_once pre = O.
  Proof.
    induction ds as [|d ds IH]; intros x b0 e Hd He; cbn [app crun].
    - destruct e as [t b]. cbn [fst] in He. exists [SendSrv (b0 ++ enc (t, b))].
      cbn [sent]. rewrite encs_one, app_nil_r.
      apply orb_prop in He as [He|He]; apply Z.eqb_eq in He; subst t; repeat split.
    - cbn [forallb] in Hd. apply andb_prop in Hd as [H100 Hd]. destruct d as [t b].
      apply Z.eqb_eq in H100. cbn [fst] in H100. subst t.
      change (cstep pc cloop true (mkC x b0) (100, b))
        with (if pc (blen (b0 ++ enc (100, b))) then Some (mkC x [], [SendSrv (b0 ++ enc (100, b))])
              else Some (mkC x (b0 ++ enc (100, b)), [])).
      destruct (pc _).
      + destruct (IH x [] e Hd He) as (pre & E & Hsn & Hc). rewrite E.
        exists (SendSrv (b0 ++ enc (100, b)) :: pre). cbn [sent app count_relay count_recv_once].
        rewrite Hsn, encs_cons, <- app_assoc. auto.
      + destruct (IH x (b0 ++ enc (100, b)) e Hd He) as (pre & E & Hsn & Hc). rewrite E.
        exists pre. rewrite Hsn, encs_cons, <- app_assoc. auto.
  Qed.
End ClientProofs.

Lemma batch_identity : forall pc cloop ms,
  forallb req_msg ms = true -> known_c03 ms = false -> q_boundary true ms = true ->
  exists st' acts, crun pc cloop false cst0 ms = Some (st', acts) /\ cbuf st' = [] /\
    sent acts ++ encs (ext st') = encs ms /\
    (closed_end true ms = true -> st' = cst0 /\ sent acts = encs ms) /\
    count_recv_once acts = O.
Proof.
  intros pc cloop ms Hr Hk Hq. unfold known_c03 in Hk. apply orb_false_elim in Hk as [Hf Hl].
  destruct (crun_inv pc cloop ms [] eq_refl Hr Hf Hl Hq) as (st' & acts & E & Hb & Heq & Hn & Hc).
  exists st', acts. split; [exact E|]. split; [exact Hb|]. split; [exact Heq|]. split; [|exact Hc].
  intros Hce. cbn [is_nil] in Hn. rewrite Hce in Hn. destruct st' as [[|] b]; [|discriminate].
  cbn [cbuf ext] in *. subst b. split; [reflexivity|]. rewrite <- (app_nil_r (sent acts)). exact Heq.
Qed.

Lemma copy_in_identity : forall pc cloop ds e,
  forallb (fun f => fst f =? 100) ds = true -> (fst e =? 99) || (fst e =? 102) = true ->
  exists acts, crun pc cloop true cst0 (ds ++ [e]) = Some (cst0, acts) /\
    sent acts = encs (ds ++ [e]) /\
    exists pre, acts = pre ++ [if cloop then RelayLoop else RecvOnce] /\
                count_relay pre = O /\ count_recv_once pre = O.
Proof.
  intros pc cloop ds e Hd He.
  destruct (copy_in_inv pc cloop ds [] [] e Hd He) as (pre & E & Hs & Hc).
  eexists. split; [exact E|]. split; [|exists pre; auto].
  rewrite sent_app, Hs. destruct cloop; apply app_nil_r.
Qed.
