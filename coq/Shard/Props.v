(** C06 — the property theorems, each audited with [Print Assumptions].  The lemmas they are
    instances of are in HashProofs.v, PathsProofs.v, Spellings.v and Sha1Proofs.v. *)
From Coq Require Import ZArith NArith List Bool.
From PV Require Import Common.RustInt Gen.ShardingGen Shard.PgSpec Shard.HashProofs Shard.Paths Shard.PathsProofs Shard.Sha1 Shard.Sha1Proofs Shard.Spellings.
Import ListNotations.

(** The shard computed by the code generated from src/sharding.rs equals PostgreSQL's
    PARTITION BY HASH (MODULUS n) partition, for every bigint key and every n. *)
Theorem c06_hash_is_pg : forall (k : Z) (n : N), in_i64 k -> shard_pg k n = partition_of k n.
Proof. exact bigint_hash_is_pg. Qed.
Print Assumptions c06_hash_is_pg.

Theorem c06_in_range : forall (k : Z) (n : N), (0 < n)%N -> (shard_pg k n < n)%N.
Proof. intros k n H. apply N.mod_lt. intros ->. discriminate H. Qed.
Print Assumptions c06_in_range.

(** The "sha1" sharding function (model of fn sha1: hex formatting of the digest, last 8
    characters, from_str_radix 16, modulo) never hits its unwrap() and equals the documented
    rule: the last 4 bytes of SHA1(decimal(key)) as a big-endian integer, modulo n. *)
Theorem c06_sha1_rule : forall (k : Z) (n : N),
  sha1_shard k n = Some (be_valN 0 (lastn 4 (sha1 (dec k))) mod n)%N.
Proof. exact sha1_rule. Qed.
Print Assumptions c06_sha1_rule.

(** Every delivery path decodes the canonical spelling of k to k itself (hence to the same
    shard): text Bind and binary Bind for every i64, the digit-only paths for k >= 0. *)
Theorem c06_paths_agree : forall k : Z, in_i64 k ->
  path_bind_text (dec k) = Key k /\ path_bind_bin (be64 k) = Key k /\
  (0 <= k -> path_set_key (dec k) = Key k /\ path_comment (dec k) = Key k /\ path_literal (dec k) = Key k)%Z.
Proof.
  intros k Hk. split; [unfold path_bind_text; rewrite parse_dec by exact Hk; reflexivity|].
  split; [exact (bin8 k Hk)|].
  intros H0. destruct (parse_dec_nonneg k H0 Hk) as [Hp Hd]. pose proof (text_paths_key _ _ Hd Hp). tauto.
Qed.
Print Assumptions c06_paths_agree.

Theorem c06_bin4_sign_extends : forall k : Z, (- 2^31 <= k < 2^31)%Z -> path_bind_bin (be32 k) = Key k.
Proof. exact bin4. Qed.
Print Assumptions c06_bin4_sign_extends.

Theorem c06_bin2_sign_extends : forall k : Z, (- 2^15 <= k < 2^15)%Z -> path_bind_bin (be16 k) = Key k.
Proof. exact bin2. Qed.
Print Assumptions c06_bin2_sign_extends.

(** Any accepted text spelling denotes a key inside i64 (nothing is silently truncated). *)
Theorem c06_text_key_in_range : forall s k, parse_i64 s = Some k -> in_i64 k.
Proof. exact parse_in_range. Qed.
Print Assumptions c06_text_key_in_range.

(** Non-canonical spellings.  Leading zeros never change the key, by any text path. *)
Theorem c06_leading_zeros : forall (m : nat) (k : Z), (0 <= k)%Z -> in_i64 k ->
  let s := repeat 48%N m ++ dec k in
  path_set_key s = Key k /\ path_comment s = Key k /\ path_literal s = Key k /\ path_bind_text s = Key k.
Proof.
  intros m k H0 Hk s. destruct (parse_dec_nonneg k H0 Hk) as [Hp Hd].
  apply text_paths_key; [apply all_digits_zeros, Hd|unfold s; rewrite parse_zeros; assumption].
Qed.
Print Assumptions c06_leading_zeros.

(** An explicit plus sign is understood by the text Bind path only; the digit-only captures
    deliver no key for it (never a wrong key). *)
Theorem c06_plus_sign : forall k : Z, (0 <= k)%Z -> in_i64 k ->
  path_bind_text (43%N :: dec k) = Key k /\ path_set_key (43%N :: dec k) = NoKey /\ path_comment (43%N :: dec k) = NoKey.
Proof.
  intros k H0 Hk. destruct (parse_dec_nonneg k H0 Hk) as [Hp Hd].
  split; [unfold path_bind_text; rewrite parse_plus, Hp by exact Hd; reflexivity|split; reflexivity].
Qed.
Print Assumptions c06_plus_sign.

(** On EVERY byte string the text paths are consistent: when a digit-only path delivers a key,
    all text paths deliver that key, and it is not negative. *)
Theorem c06_text_paths_consistent : forall s k,
  (path_set_key s = Key k \/ path_comment s = Key k \/ path_literal s = Key k) ->
  path_set_key s = Key k /\ path_comment s = Key k /\ path_literal s = Key k /\ path_bind_text s = Key k /\ (0 <= k)%Z.
Proof.
  intros s k H. destruct (digit_path_key s k H) as [Hd Hp].
  pose proof (text_paths_key s k Hd Hp). pose proof (all_digits_key_nonneg s k Hd Hp). tauto.
Qed.
Print Assumptions c06_text_paths_consistent.

Theorem c06_text_paths_no_disagreement : forall s k1 k2,
  path_bind_text s = Key k1 -> (path_set_key s = Key k2 \/ path_comment s = Key k2) -> k1 = k2.
Proof.
  intros s k1 k2 H1 H2. assert (H: path_bind_text s = Key k2) by (apply c06_text_paths_consistent; tauto).
  congruence.
Qed.
Print Assumptions c06_text_paths_no_disagreement.

(** A digit string denoting a value outside i64 is refused (SET SHARDING KEY) or ignored (other
    paths); it is never wrapped around to another key. *)
Theorem c06_out_of_range_never_wraps : forall s v, all_digits s = true -> digits_val 0 s = Some v -> ~ in_i64 v ->
  path_set_key s = Rejected /\ path_comment s = NoKey /\ path_bind_text s = NoKey.
Proof.
  intros s v Hall V Hout. unfold path_set_key, path_comment, path_bind_text.
  rewrite Hall, parse_digits, V, checked_out by assumption. repeat split.
Qed.
Print Assumptions c06_out_of_range_never_wraps.

Example c06_spellings_nonvacuous :
  path_set_key [48; 48; 53]%N = Key 5%Z /\ path_bind_text [43; 53]%N = Key 5%Z /\
  path_set_key [57;50;50;51;51;55;50;48;51;54;56;53;52;55;55;53;56;48;56]%N = Rejected.
Proof. vm_compute. repeat split. Qed.

(** A key bound at any position of a multi-parameter Bind is found, whatever the other
    parameters contain (NULLs, text, binary of any length). *)
Theorem c06_bind_any_position : forall before after ph fmts p k,
  (forall j, existsb (Nat.eqb j) ph = true <-> j = S (length before)) ->
  decode_param (fmt_of fmts (length before)) p = Key k ->
  bind_keys ph fmts (before ++ p :: after) = [k].
Proof. exact bind_position. Qed.
Print Assumptions c06_bind_any_position.

(** No text spelling makes a delivery path panic, and a spelling that is not a bigint never
    selects a shard. *)
Theorem c06_text_paths_total : forall s,
  path_set_key s <> Panics /\ path_comment s <> Panics /\ path_bind_text s <> Panics /\
  (parse_i64 s = None -> forall k, path_set_key s <> Key k /\ path_comment s <> Key k /\ path_bind_text s <> Key k).
Proof.
  intros s. unfold path_set_key, path_comment, path_bind_text.
  destruct (all_digits s), (parse_i64 s); repeat split; intros; discriminate.
Qed.
Print Assumptions c06_text_paths_total.

Theorem c06_set_shard_refused : forall cur v n, (n <= v)%N -> set_shard cur v n = (cur, false).
Proof. exact set_shard_refused. Qed.
Print Assumptions c06_set_shard_refused.

Theorem c06_set_shard_accepted : forall cur v n, (v < n)%N -> set_shard cur v n = (Some v, true).
Proof. exact set_shard_accepted. Qed.
Print Assumptions c06_set_shard_accepted.

(** The selection persists until changed and is decided by the LAST selecting event alone
    (a key by any path, or an accepted SET SHARD), whatever the earlier history was. *)
Theorem c06_selection_last_key : forall part n cur ops k quiet, Forall (quiet_op n) quiet ->
  sel_run part n cur (ops ++ SelKey k :: quiet) = Some (part k).
Proof. intros part n cur ops k quiet Hq. rewrite sel_run_last by exact Hq. reflexivity. Qed.
Print Assumptions c06_selection_last_key.

Theorem c06_selection_last_shard : forall part n cur ops v quiet, (v < n)%N -> Forall (quiet_op n) quiet ->
  sel_run part n cur (ops ++ SelShard v :: quiet) = Some v.
Proof.
  intros part n cur ops v quiet Hv Hq. rewrite sel_run_last by exact Hq.
  cbn [sel_step]. rewrite set_shard_accepted by exact Hv. reflexivity.
Qed.
Print Assumptions c06_selection_last_shard.

Theorem c06_refused_set_shard_invisible : forall part n cur ops v rest, (n <= v)%N ->
  sel_run part n cur (ops ++ SelShard v :: rest) = sel_run part n cur (ops ++ rest).
Proof. intros part n cur ops v rest H. apply sel_quiet_invisible. right. exists v. auto. Qed.
Print Assumptions c06_refused_set_shard_invisible.

(** The selection is always something an event of the history named: the initial one, the
    partition of a delivered key, or an in-range SET SHARD value. *)
Theorem c06_selection_provenance : forall part n ops cur,
  sel_run part n cur ops = cur \/
  (exists k, In (SelKey k) ops /\ sel_run part n cur ops = Some (part k)) \/
  (exists v, In (SelShard v) ops /\ (v < n)%N /\ sel_run part n cur ops = Some v).
Proof. exact sel_run_provenance. Qed.
Print Assumptions c06_selection_provenance.

Theorem c06_only_selected_shard : forall role sh addrs a, In a (candidates role sh addrs) ->
  a_shard a = sh /\ In a addrs /\ (forall r, role = Some r -> a_role a = r).
Proof.
  unfold candidates. intros role sh addrs a H. apply filter_In in H. destruct H as [H Hs].
  apply filter_In in H. destruct H as [Hin Hr]. apply N.eqb_eq in Hs.
  split; [exact Hs|]. split; [exact Hin|]. intros r ->. apply N.eqb_eq, Hr.
Qed.
Print Assumptions c06_only_selected_shard.

(** Validation of the hand-written PostgreSQL specification: the 50 (key, partition)
    pairs of src/sharding.rs' unit test, which were produced by a real PostgreSQL
    (tests/sharding/partition_hash_test_setup.sql), MODULUS 5. *)
Definition pg_vectors : list (list Z) :=
  [[1; 4; 5; 14; 19; 39; 40; 46; 47; 53]; [2; 3; 11; 17; 21; 23; 30; 49; 51; 54];
   [6; 7; 15; 16; 18; 20; 25; 28; 34; 35]; [8; 12; 13; 22; 29; 31; 33; 36; 41; 43];
   [9; 10; 24; 26; 27; 32; 37; 38; 42; 45]]%Z.
Example pgspec_matches_postgres :
  map (map (fun k => partition_of k 5)) pg_vectors =
  [repeat 0%N 10; repeat 1%N 10; repeat 2%N 10; repeat 3%N 10; repeat 4%N 10].
Proof.
  (* evaluated through [partition_m], see HashProofs.v *)
  erewrite map_ext by (intros; apply map_ext; intros; symmetry; apply partition_m_eq).
  vm_compute. reflexivity.
Qed.

(** Validation of the SHA-1 model: FIPS 180 test vector "abc", and the 20 (key, shard) pairs of
    the repository's unit test (12 shards). *)
Example sha1_vectors :
  sha1 [97; 98; 99]%N = [169; 153; 62; 54; 71; 6; 129; 106; 186; 62; 37; 113; 120; 80; 194; 108; 156; 208; 216; 157]%N /\
  map (fun k => sha1_shard (Z.of_nat k) 12) (seq 0 20) =
  map Some [4; 7; 8; 3; 6; 0; 0; 10; 3; 11; 1; 7; 4; 4; 11; 2; 5; 0; 8; 3]%N.
Proof.
  (* evaluated through [sha1_m], see Sha1Proofs.v *)
  split.
  - rewrite <- sha1_m_eq. vm_compute. reflexivity.
  - erewrite map_ext by (intros; rewrite sha1_rule, <- sha1_m_eq; reflexivity). vm_compute. reflexivity.
Qed.

(** Non-vacuity of the hypotheses: boundary keys are in range and reach the theorem. *)
Example c06_boundaries : in_i64 (-9223372036854775808) /\ in_i64 9223372036854775807 /\
  shard_pg (-9223372036854775808) 7 = partition_of (-9223372036854775808) 7 /\
  path_bind_bin (be64 (-1)) = Key (-1)%Z /\ path_bind_text (dec (-9223372036854775808)) = Key (-9223372036854775808)%Z.
Proof.
  assert (Hmin: in_i64 (-9223372036854775808)) by (split; [discriminate|reflexivity]).
  assert (Hneg: in_i64 (-1)) by (split; [discriminate|reflexivity]).
  split; [exact Hmin|]. split; [split; [discriminate|reflexivity]|]. split; [exact (c06_hash_is_pg _ 7 Hmin)|].
  split; [exact (proj1 (proj2 (c06_paths_agree _ Hneg)))|exact (proj1 (c06_paths_agree _ Hmin))].
Qed.
