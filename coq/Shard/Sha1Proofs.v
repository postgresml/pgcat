From Coq Require Import ZArith NArith List Bool Lia.
From PV Require Import Shard.Paths Shard.Sha1.
Import ListNotations.
Open Scope N_scope.
Ltac Zify.zify_post_hook ::= Z.div_mod_to_equations.

Lemma hexv_hexd d : d < 16 -> hexv (hexd d) = Some d.
Proof.
  intros H. destruct d as [|p]; [reflexivity|].
  do 4 (destruct p as [p|p|]; try reflexivity); lia.
Qed.

Lemma of_hex_to_hex : forall bs acc, Forall (fun b => b < 256) bs -> of_hex acc (to_hex bs) = Some (be_valN acc bs).
Proof.
  induction bs as [|b r IH]; intros acc HF; cbn [to_hex of_hex be_valN]; [reflexivity|].
  inversion HF as [|x xs Hb Hr]; subst.
  rewrite hexv_hexd by (apply N.div_lt_upper_bound; lia).
  rewrite hexv_hexd by (apply N.mod_lt; lia).
  rewrite IH by exact Hr. f_equal. f_equal.
  pose proof (N.div_mod b 16 ltac:(lia)). lia.
Qed.

Lemma to_hex_length bs : length (to_hex bs) = (2 * length bs)%nat.
Proof. induction bs as [|b r IH]; cbn [to_hex length]; lia. Qed.

Lemma skipn_to_hex : forall n bs, skipn (2 * n) (to_hex bs) = to_hex (skipn n bs).
Proof.
  induction n as [|n IH]; intros bs; [reflexivity|].
  destruct bs as [|b r]; [reflexivity|].
  replace (2 * S n)%nat with (S (S (2 * n))) by lia. cbn [to_hex skipn]. apply IH.
Qed.

Lemma lastn_to_hex bs : lastn 8 (to_hex bs) = to_hex (lastn 4 bs).
Proof.
  unfold lastn. rewrite to_hex_length.
  replace (2 * length bs - 8)%nat with (2 * (length bs - 4))%nat by lia. apply skipn_to_hex.
Qed.

Lemma word_bytes_lt w : Forall (fun b => b < 256) (word_bytes w).
Proof. unfold word_bytes. repeat constructor; apply N.mod_lt; lia. Qed.

Lemma sha1_shape msg : length (sha1 msg) = 20%nat /\ Forall (fun b => b < 256) (sha1 msg).
Proof.
  unfold sha1. destruct (blocks _ _ _) as [[[[h0 h1] h2] h3] h4]. split.
  - rewrite !app_length. reflexivity.
  - repeat (apply Forall_app; split); apply word_bytes_lt.
Qed.

Lemma forall_skipn {A} (P : A -> Prop) n l : Forall P l -> Forall P (skipn n l).
Proof. intros H. rewrite <- (firstn_skipn n l) in H. apply Forall_app in H. apply H. Qed.

Lemma sha1_rule k n : sha1_shard k n = Some (be_valN 0 (lastn 4 (sha1 (dec k))) mod n).
Proof.
  unfold sha1_shard. destruct (sha1_shape (dec k)) as [_ HF].
  rewrite lastn_to_hex, of_hex_to_hex; [reflexivity|].
  unfold lastn. apply forall_skipn. exact HF.
Qed.

(** * Evaluating [sha1]

    Some five sixths of the work of evaluating [sha1] in the kernel goes into [mod m32], a binary
    long division after every addition and shift.  [sha1_m] is [sha1] with a 32-bit mask in
    place of each division; the test vectors are evaluated through it. *)
Definition mask32 (x : N) : N := N.land x 4294967295.
Definition add32_m (a b : N) : N := mask32 (a + b).
Definition rotl_m (x k : N) : N := N.lor (mask32 (N.shiftl x k)) (N.shiftr x (32 - k)).

Fixpoint extend_m (n : nat) (ws : list N) : list N :=
  match n with
  | O => ws
  | S m =>
      let x := N.lxor (N.lxor (nth 2 ws 0) (nth 7 ws 0)) (N.lxor (nth 13 ws 0) (nth 15 ws 0)) in
      extend_m m (rotl_m x 1 :: ws)
  end.

Definition round_m (t : nat) st (w : N) :=
  let '(a, b, c, d, e) := st in
  let '(f, k) :=
    if Nat.ltb t 20 then (N.lor (N.land b c) (N.land (not32 b) d), 1518500249)
    else if Nat.ltb t 40 then (N.lxor (N.lxor b c) d, 1859775393)
    else if Nat.ltb t 60 then (N.lor (N.lor (N.land b c) (N.land b d)) (N.land c d), 2400959708)
    else (N.lxor (N.lxor b c) d, 3395469782) in
  let tmp := add32_m (add32_m (add32_m (add32_m (rotl_m a 5) f) e) k) w in
  (tmp, a, rotl_m b 30, c, d).

Fixpoint rounds_m (t : nat) (ws : list N) st :=
  match ws with
  | [] => st
  | w :: r => rounds_m (S t) r (round_m t st w)
  end.

Definition block_m h (bs : list N) :=
  let w80 := rev (extend_m 64 (rev (words bs 16))) in
  let '(h0, h1, h2, h3, h4) := h in
  let '(a, b, c, d, e) := rounds_m 0 w80 h in
  (add32_m h0 a, add32_m h1 b, add32_m h2 c, add32_m h3 d, add32_m h4 e).

Fixpoint blocks_m (n : nat) h (bs : list N) :=
  match n with
  | O => h
  | S m => blocks_m m (block_m h (firstn 64 bs)) (skipn 64 bs)
  end.

Definition sha1_m (msg : list N) : list N :=
  let p := pad msg in
  let '(h0, h1, h2, h3, h4) :=
    blocks_m (length p / 64) (1732584193, 4023233417, 2562383102, 271733878, 3285377520) p in
  word_bytes h0 ++ word_bytes h1 ++ word_bytes h2 ++ word_bytes h3 ++ word_bytes h4.

Lemma mask32_mod x : mask32 x = x mod m32.
Proof. exact (N.land_ones x 32). Qed.

Lemma add32_m_eq a b : add32_m a b = add32 a b.
Proof. apply mask32_mod. Qed.

Lemma rotl_m_eq x k : rotl_m x k = rotl x k.
Proof. unfold rotl_m. rewrite mask32_mod. reflexivity. Qed.

Lemma extend_m_eq n : forall ws, extend_m n ws = extend n ws.
Proof. induction n as [|n IH]; intros ws; cbn [extend_m extend]; [reflexivity|]. rewrite rotl_m_eq. apply IH. Qed.

Lemma round_m_eq t st w : round_m t st w = round t st w.
Proof.
  destruct st as [[[[a b] c] d] e]. unfold round_m, round.
  destruct (if Nat.ltb t 20 then _ else _) as [f k]. rewrite !add32_m_eq, !rotl_m_eq. reflexivity.
Qed.

Lemma rounds_m_eq ws : forall t st, rounds_m t ws st = rounds t ws st.
Proof. induction ws as [|w r IH]; intros t st; cbn [rounds_m rounds]; [reflexivity|]. rewrite round_m_eq. apply IH. Qed.

Lemma block_m_eq h bs : block_m h bs = block h bs.
Proof.
  unfold block_m, block. rewrite extend_m_eq, rounds_m_eq. destruct h as [[[[h0 h1] h2] h3] h4].
  destruct (rounds _ _ _) as [[[[a b] c] d] e]. rewrite !add32_m_eq. reflexivity.
Qed.

Lemma blocks_m_eq n : forall h bs, blocks_m n h bs = blocks n h bs.
Proof. induction n as [|n IH]; intros h bs; cbn [blocks_m blocks]; [reflexivity|]. rewrite block_m_eq. apply IH. Qed.

Lemma sha1_m_eq msg : sha1_m msg = sha1 msg.
Proof. unfold sha1_m, sha1. rewrite blocks_m_eq. reflexivity. Qed.
