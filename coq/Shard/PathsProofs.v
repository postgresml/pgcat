From Coq Require Import ZArith NArith List Bool Lia.
From PV Require Import Common.RustInt Shard.Paths.
Import ListNotations.
Open Scope Z_scope.
Ltac Zify.zify_post_hook ::= Z.div_mod_to_equations.

Lemma in_i64b_spec k : reflect (in_i64 k) (in_i64b k).
Proof. apply iff_reflect. unfold in_i64, in_i64b. rewrite andb_true_iff, Z.leb_le, Z.ltb_lt. reflexivity. Qed.

Lemma checked_in k : in_i64 k -> checked k = Some k.
Proof. intros H. unfold checked. destruct (in_i64b_spec k); [reflexivity|contradiction]. Qed.

Lemma checked_out v : ~ in_i64 v -> checked v = None.
Proof. intros H. unfold checked. destruct (in_i64b_spec v); [contradiction|reflexivity]. Qed.

Lemma checked_some v k : checked v = Some k -> v = k /\ in_i64 k.
Proof. unfold checked. destruct (in_i64b_spec v); intros E; inversion E; subst; auto. Qed.

Lemma digit_char d : 0 <= d < 10 -> (N.leb 48 (48 + Z.to_N d) && N.leb (48 + Z.to_N d) 57)%bool = true.
Proof. intros H. apply andb_true_intro. split; apply N.leb_le; lia. Qed.

Lemma digit_of d : 0 <= d < 10 -> digit (48 + Z.to_N d)%N = Some d.
Proof. intros H. unfold digit. rewrite digit_char by exact H. f_equal. lia. Qed.

Lemma digits_val_app a xs ys :
  digits_val a (xs ++ ys) = match digits_val a xs with Some v => digits_val v ys | None => None end.
Proof.
  revert a. induction xs as [|x xs IH]; intros a; cbn [app digits_val]; [reflexivity|].
  destruct (digit x); [apply IH|reflexivity].
Qed.

Lemma all_digits_app xs ys : all_digits xs = true -> all_digits ys = true -> all_digits (xs ++ ys) = true.
Proof.
  destruct xs as [|x xs], ys as [|y ys]; try discriminate. unfold all_digits. intros Hx Hy.
  change (forallb (fun c => (N.leb 48 c && N.leb c 57)%bool) ((x :: xs) ++ y :: ys) = true).
  rewrite forallb_app. exact (f_equal2 andb Hx Hy).
Qed.

(* The sign dispatch of [parse_i64] matches on the literals 45 and 43, i.e. on the bits of [c]. *)
Lemma not_sign_match (c : N) A (x y z : A) : c <> 45%N -> c <> 43%N ->
  match c with 45%N => x | 43%N => y | _ => z end = z.
Proof.
  intros H1 H2. destruct c as [|p]; [reflexivity|].
  do 6 (destruct p as [p|p|]; try reflexivity); try congruence; destruct p; reflexivity.
Qed.

Lemma parse_digits s : all_digits s = true ->
  parse_i64 s = match digits_val 0 s with Some v => checked v | None => None end.
Proof.
  destruct s as [|c r]; [discriminate|]. unfold all_digits. cbn [forallb]. intros H.
  apply andb_prop in H. destruct H as [H _]. apply andb_prop in H. destruct H as [H _]. apply N.leb_le in H.
  unfold parse_i64. apply not_sign_match; lia.
Qed.

(* every [Some] of [parse_i64] comes out of [checked] *)
Lemma parse_in_range s k : parse_i64 s = Some k -> in_i64 k.
Proof.
  assert (D: forall (f : Z -> Z) r,
             match digits_val 0 r with Some v => checked (f v) | None => None end = Some k -> in_i64 k).
  { intros f r. destruct (digits_val 0 r); [intros E; apply checked_some in E; apply E|discriminate]. }
  destruct s as [|c r]; [discriminate|].
  destruct (N.eq_dec c 45) as [->|H45]; [destruct r; [discriminate|apply (D Z.opp)]|].
  destruct (N.eq_dec c 43) as [->|H43]; [destruct r; [discriminate|apply (D (fun v => v))]|].
  unfold parse_i64. rewrite not_sign_match by assumption. apply (D (fun v => v)).
Qed.

(* [dec_pos] pushes the digits of [n] in front of [acc], least significant first; [f] is fuel. *)
Lemma dec_pos_spec f : forall n acc, (0 < f)%nat -> 0 <= n < 10 ^ Z.of_nat f ->
  exists ds, dec_pos f n acc = ds ++ acc /\ all_digits ds = true /\ digits_val 0 ds = Some n.
Proof.
  induction f as [|f IH]; intros n acc Hf Hn; [lia|].
  cbn [dec_pos]. set (c := (48 + Z.to_N (n mod 10))%N).
  assert (Hd: 0 <= n mod 10 < 10) by (apply Z.mod_pos_bound; lia).
  assert (Hc: all_digits [c] = true).
  { unfold all_digits. cbn [forallb]. unfold c. rewrite digit_char by exact Hd. reflexivity. }
  assert (Hv: forall v, digits_val v [c] = Some (v * 10 + n mod 10)).
  { intros v. cbn [digits_val]. unfold c. rewrite digit_of by exact Hd. reflexivity. }
  destruct (Z.eqb_spec (n / 10) 0) as [E|E].
  - exists [c]. split; [reflexivity|]. split; [exact Hc|]. rewrite Hv. f_equal. lia.
  - rewrite Nat2Z.inj_succ, Z.pow_succ_r in Hn by lia.
    destruct (IH (n / 10) (c :: acc)) as (ds & E1 & Hall & Hds); [destruct f; [cbn in Hn|]; lia|lia|].
    exists (ds ++ [c]). rewrite <- app_assoc. split; [exact E1|]. split; [apply all_digits_app; assumption|].
    rewrite digits_val_app, Hds, Hv. f_equal. lia.
Qed.

Lemma dec_pos_val n : 0 <= n < 10 ^ 20 ->
  all_digits (dec_pos 20 n []) = true /\ digits_val 0 (dec_pos 20 n []) = Some n.
Proof.
  intros Hn. destruct (dec_pos_spec 20 n [] ltac:(lia) Hn) as (ds & -> & H). rewrite app_nil_r. exact H.
Qed.

Lemma parse_dec_nonneg k : 0 <= k -> in_i64 k -> parse_i64 (dec k) = Some k /\ all_digits (dec k) = true.
Proof.
  intros H0 Hk. unfold dec. destruct (Z.ltb_spec k 0); [lia|].
  destruct (dec_pos_val k) as [Hall Hv]; [unfold in_i64 in Hk; lia|].
  split; [|exact Hall]. rewrite parse_digits, Hv by exact Hall. apply checked_in, Hk.
Qed.

Lemma parse_dec k : in_i64 k -> parse_i64 (dec k) = Some k.
Proof.
  intros Hk. destruct (Z.le_gt_cases 0 k) as [H0|H0]; [apply parse_dec_nonneg; assumption|].
  unfold dec. destruct (Z.ltb_spec k 0); [|lia].
  destruct (dec_pos_val (- k)) as [Hall Hv]; [unfold in_i64 in Hk; lia|].
  cbn [parse_i64]. destruct (dec_pos 20 (- k) []); [discriminate|].
  rewrite Hv, Z.opp_involutive. apply checked_in, Hk.
Qed.

Lemma text_paths_key s k : all_digits s = true -> parse_i64 s = Some k ->
  path_set_key s = Key k /\ path_comment s = Key k /\ path_literal s = Key k /\ path_bind_text s = Key k.
Proof.
  intros Hd Hp. unfold path_literal, path_set_key, path_comment, path_bind_text. rewrite Hd, Hp. repeat split.
Qed.

Lemma be_val_app a xs ys : be_val a (xs ++ ys) = be_val (be_val a xs) ys.
Proof. revert a; induction xs as [|x xs IH]; intros a; cbn [app be_val]; [reflexivity|apply IH]. Qed.

Lemma be_bytes_len n u : length (be_bytes n u) = n.
Proof. revert u; induction n as [|n IH]; intros u; cbn [be_bytes]; [reflexivity|]. rewrite app_length, IH. cbn [length]. lia. Qed.

Lemma be_val_bytes n : forall u, 0 <= u < 256 ^ Z.of_nat n -> be_val 0 (be_bytes n u) = u.
Proof.
  induction n as [|n IH]; intros u Hu.
  - cbn [be_bytes be_val]. change (256 ^ Z.of_nat 0) with 1 in Hu. lia.
  - cbn [be_bytes]. rewrite be_val_app. cbn [be_val].
    rewrite Nat2Z.inj_succ, Z.pow_succ_r in Hu by lia.
    rewrite IH by lia. rewrite Z2N.id by (apply Z.mod_pos_bound; lia). lia.
Qed.

Lemma signed_mod bits k : 0 < bits -> - 2 ^ (bits - 1) <= k < 2 ^ (bits - 1) -> signed bits (k mod 2 ^ bits) = k.
Proof.
  intros Hb Hk. unfold signed.
  replace (2 ^ bits) with (2 * 2 ^ (bits - 1)) by (rewrite <- Z.pow_succ_r by lia; f_equal; lia).
  set (h := 2 ^ (bits - 1)) in *.
  destruct (Z.le_gt_cases 0 k).
  - rewrite Z.mod_small by lia. destruct (Z.ltb_spec k h); lia.
  - rewrite <- (Z.mod_add k 1), Z.mod_small by lia. destruct (Z.ltb_spec (k + 1 * (2 * h)) h); lia.
Qed.

(** The binary path at every width it accepts: n big-endian bytes of [k]'s two's complement. *)
Lemma bind_bin_be n k : (n = 2 \/ n = 4 \/ n = 8)%nat -> let bits := 8 * Z.of_nat n in
  - 2 ^ (bits - 1) <= k < 2 ^ (bits - 1) -> path_bind_bin (be_bytes n (k mod 2 ^ bits)) = Key k.
Proof.
  intros Hn bits Hk.
  assert (E: signed bits (be_val 0 (be_bytes n (k mod 2 ^ bits))) = k).
  { rewrite be_val_bytes; [apply signed_mod; [lia|exact Hk]|].
    unfold bits. rewrite Z.pow_mul_r by lia. apply Z.mod_pos_bound, Z.pow_pos_nonneg; lia. }
  unfold path_bind_bin. rewrite be_bytes_len. destruct Hn as [-> | [-> | ->]]; apply f_equal, E.
Qed.

Lemma bin8 k : in_i64 k -> path_bind_bin (be64 k) = Key k.
Proof. intros Hk. apply (bind_bin_be 8); [auto|exact Hk]. Qed.

Lemma bin4 k : - 2^31 <= k < 2^31 -> path_bind_bin (be32 k) = Key k.
Proof. intros Hk. apply (bind_bin_be 4); [auto|exact Hk]. Qed.

Lemma bin2 k : - 2^15 <= k < 2^15 -> path_bind_bin (be16 k) = Key k.
Proof. intros Hk. apply (bind_bin_be 2); [auto|exact Hk]. Qed.

Lemma bind_keys_skip i ph fmts params :
  (forall j, (i < j <= i + length params)%nat -> existsb (Nat.eqb j) ph = false) ->
  bind_keys_from i ph fmts params = [].
Proof.
  revert i. induction params as [|p r IH]; intros i H; cbn [bind_keys_from]; [reflexivity|].
  rewrite (H (S i)) by (cbn [length]; lia).
  apply IH. intros j Hj. apply H. cbn [length]. lia.
Qed.

Lemma bind_keys_app i ph fmts xs ys :
  bind_keys_from i ph fmts (xs ++ ys) = bind_keys_from i ph fmts xs ++ bind_keys_from (i + length xs) ph fmts ys.
Proof.
  revert i. induction xs as [|x xs IH]; intros i; cbn [app bind_keys_from length].
  - rewrite Nat.add_0_r. reflexivity.
  - rewrite IH. replace (S i + length xs)%nat with (i + S (length xs))%nat by lia.
    destruct (existsb (Nat.eqb (S i)) ph); [|reflexivity].
    destruct (decode_param (fmt_of fmts i) x); reflexivity.
Qed.

Lemma bind_position before after ph fmts p k :
  let pos := S (length before) in
  (forall j, existsb (Nat.eqb j) ph = true <-> j = pos) ->
  decode_param (fmt_of fmts (length before)) p = Key k ->
  bind_keys ph fmts (before ++ p :: after) = [k].
Proof.
  intros pos Hph Hdec. subst pos.
  assert (Hoff: forall j, j <> S (length before) -> existsb (Nat.eqb j) ph = false).
  { intros j Hj. destruct (existsb (Nat.eqb j) ph) eqn:E; [apply Hph in E; contradiction|reflexivity]. }
  unfold bind_keys. rewrite bind_keys_app, bind_keys_skip by (intros j Hj; apply Hoff; lia).
  cbn [app bind_keys_from Nat.add]. rewrite (proj2 (Hph _) eq_refl), Hdec.
  rewrite bind_keys_skip by (intros j Hj; apply Hoff; lia). reflexivity.
Qed.

Lemma set_shard_refused cur v n : (n <= v)%N -> set_shard cur v n = (cur, false).
Proof. intros H. unfold set_shard. destruct (N.leb_spec n v); [reflexivity|lia]. Qed.

Lemma set_shard_accepted cur v n : (v < n)%N -> set_shard cur v n = (Some v, true).
Proof. intros H. unfold set_shard. destruct (N.leb_spec n v); [lia|reflexivity]. Qed.

Definition quiet_op (n : N) (o : selop) : Prop := o = SelNone \/ exists v, o = SelShard v /\ (n <= v)%N.

Lemma sel_step_quiet part n c o : quiet_op n o -> sel_step part n c o = c.
Proof.
  intros [->|(v & -> & Hv)]; cbn [sel_step]; [reflexivity|].
  rewrite set_shard_refused by exact Hv. reflexivity.
Qed.

Lemma sel_quiet part n quiet : Forall (quiet_op n) quiet -> forall c, sel_run part n c quiet = c.
Proof.
  unfold sel_run. induction 1 as [|o r Ho Hr IH]; intros c; cbn [fold_left]; [reflexivity|].
  rewrite sel_step_quiet by exact Ho. apply IH.
Qed.

(** The last event that is not quiet decides, whatever the history before it. *)
Lemma sel_run_last part n cur ops o quiet : Forall (quiet_op n) quiet ->
  sel_run part n cur (ops ++ o :: quiet) = sel_step part n (sel_run part n cur ops) o.
Proof.
  intros Hq. unfold sel_run. rewrite fold_left_app. cbn [fold_left]. apply (sel_quiet part n quiet Hq).
Qed.

(** A quiet event (e.g. a refused SET SHARD) is invisible in every history: removing it from the
    sequence of shard-selecting events changes nothing, now or later. *)
Lemma sel_quiet_invisible part n cur ops o rest : quiet_op n o ->
  sel_run part n cur (ops ++ o :: rest) = sel_run part n cur (ops ++ rest).
Proof.
  intros H. unfold sel_run. rewrite !fold_left_app. cbn [fold_left]. rewrite sel_step_quiet by exact H. reflexivity.
Qed.

(** The selection after any history is the initial one, the partition of a key that occurs in
    the history, or an in-range shard that occurs in it: never a number no event named (in
    particular never an out-of-range shard when all keys map in range). *)
Lemma sel_run_provenance part n ops : forall cur,
  sel_run part n cur ops = cur \/
  (exists k, In (SelKey k) ops /\ sel_run part n cur ops = Some (part k)) \/
  (exists v, In (SelShard v) ops /\ (v < n)%N /\ sel_run part n cur ops = Some v).
Proof.
  unfold sel_run. induction ops as [|o ops IH]; intros cur; cbn [fold_left]; [left; reflexivity|].
  destruct (IH (sel_step part n cur o)) as [E|[(k & Hin & E)|(v & Hin & Hv & E)]].
  - rewrite E. destruct o as [k|v|]; cbn [sel_step].
    + right; left. exists k. split; [left; reflexivity|reflexivity].
    + unfold set_shard. destruct (N.leb_spec n v); cbn [fst]; [left; reflexivity|].
      right; right. exists v. split; [left; reflexivity|]. split; [assumption|reflexivity].
    + left; reflexivity.
  - right; left. exists k. split; [right; exact Hin|exact E].
  - right; right. exists v. split; [right; exact Hin|]. split; assumption.
Qed.
