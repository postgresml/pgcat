(** C06 — non-canonical spellings of a key: what [parse_i64] does with leading zeros and an
    explicit plus sign in front of ANY digit string (not only [dec k]), and what a key delivered
    by a digit-only path says about the string.  Proofs only; the model is Paths.v. *)
From Coq Require Import ZArith NArith List Bool Lia.
From PV Require Import Common.RustInt Shard.Paths Shard.PathsProofs.
Import ListNotations.
Open Scope Z_scope.

Lemma digits_val_nonneg s : forall a v, 0 <= a -> digits_val a s = Some v -> a <= v.
Proof.
  induction s as [|c r IH]; intros a v Ha E; cbn [digits_val] in E.
  - inversion E; lia.
  - destruct (digit c) as [d|] eqn:D; [|discriminate].
    assert (0 <= d < 10).
    { unfold digit in D. destruct (N.leb_spec 48 c); destruct (N.leb_spec c 57); cbn [andb] in D; inversion D; lia. }
    apply IH in E; lia.
Qed.

Lemma all_digits_key_nonneg s k : all_digits s = true -> parse_i64 s = Some k -> 0 <= k.
Proof.
  intros Hall E. rewrite parse_digits in E by exact Hall.
  destruct (digits_val 0 s) as [v|] eqn:V; [|discriminate].
  apply digits_val_nonneg in V; [|lia]. apply checked_some in E. lia.
Qed.

Lemma digits_val_zeros m s : digits_val 0 (repeat 48%N m ++ s) = digits_val 0 s.
Proof. induction m as [|m IH]; [reflexivity|]. cbn [repeat app digits_val]. exact IH. Qed.

Lemma all_digits_zeros m s : all_digits s = true -> all_digits (repeat 48%N m ++ s) = true.
Proof. intros H. induction m as [|m IH]; [exact H|]. exact (all_digits_app [48%N] _ eq_refl IH). Qed.

Lemma parse_zeros m s : all_digits s = true -> parse_i64 (repeat 48%N m ++ s) = parse_i64 s.
Proof.
  intros H. rewrite !parse_digits, digits_val_zeros by (try apply all_digits_zeros; exact H). reflexivity.
Qed.

(* [43] is ['+']; no digit-only capture can hold it. *)
Lemma parse_plus s : all_digits s = true -> parse_i64 (43%N :: s) = parse_i64 s.
Proof.
  intros H. rewrite (parse_digits s H). destruct s; [discriminate|reflexivity].
Qed.

(** The converse of [text_paths_key]: a digit-only path delivers a key only for a digit string
    that parses to it. *)
Lemma digit_path_key s k : path_set_key s = Key k \/ path_comment s = Key k \/ path_literal s = Key k ->
  all_digits s = true /\ parse_i64 s = Some k.
Proof.
  unfold path_literal, path_set_key, path_comment.
  destruct (all_digits s), (parse_i64 s); intros [H|[H|H]]; inversion H; auto.
Qed.
