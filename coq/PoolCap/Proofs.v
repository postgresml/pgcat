(** C04.  [step] is read once as a set of rules ([Step], [step_cases]); the invariants [Inv] and [InvW]
    and [no_idle_hold] go through a run rule by rule ([run_from_ind]).  The lemmas about waiters and
    capacity speak of an arbitrary state and compute on it through the equations of the primitive
    operations ([notify_wakes], [try_get_idle], [step_retry], ...), never on a destructed state. *)
From Coq Require Import Arith Bool List Lia Permutation.
From PV Require Import PoolCap.Model.
Import ListNotations.

Lemma mem_In : forall x l, mem x l = true <-> In x l.
Proof.
  induction l as [|y r IH]; cbn; [split; [discriminate|tauto]|].
  destruct (Nat.eqb x y) eqn:E.
  - apply Nat.eqb_eq in E; subst; tauto.
  - apply Nat.eqb_neq in E. rewrite IH. split; [tauto|]. intros [H|H]; [congruence|assumption].
Qed.

Lemma mem_false : forall x l, mem x l = false <-> ~ In x l.
Proof.
  intros x l. rewrite <- mem_In. destruct (mem x l); split; intros; congruence.
Qed.

Lemma remove1_perm : forall x l, In x l -> Permutation l (x :: remove1 x l).
Proof.
  induction l as [|y r IH]; cbn; [tauto|]. intros H.
  destruct (Nat.eqb x y) eqn:E.
  - apply Nat.eqb_eq in E; subst; apply Permutation_refl.
  - apply Nat.eqb_neq in E. destruct H as [H|H]; [congruence|].
    eapply perm_trans; [apply perm_skip, IH, H|apply perm_swap].
Qed.

Lemma remove1_length : forall x l, In x l -> S (length (remove1 x l)) = length l.
Proof.
  intros x l H. apply remove1_perm, Permutation_length in H. cbn in H. lia.
Qed.

Lemma remove1_incl : forall x y l, In y (remove1 x l) -> In y l.
Proof.
  induction l as [|z r IH]; cbn; [tauto|]. destruct (Nat.eqb x z); cbn; tauto.
Qed.

Lemma remove1_NoDup : forall x l, NoDup l -> NoDup (remove1 x l) /\ ~ In x (remove1 x l).
Proof.
  induction l as [|y r IH]; cbn; intros N; [split; [exact N|tauto]|]. inversion N as [|? ? NI N']; subst.
  destruct (Nat.eqb x y) eqn:E; [apply Nat.eqb_eq in E; subst; split; assumption|].
  apply Nat.eqb_neq in E. destruct (IH N') as [A B]. split.
  - constructor; [intros I; apply NI, (remove1_incl _ _ _ I)|exact A].
  - intros [X|X]; [congruence|exact (B X)].
Qed.

Lemma remove1_nil_wake : forall x l, remove1 x l <> [] -> l <> [].
Proof. intros x [|y r]; cbn; congruence. Qed.

Lemma drop_guard_perm : forall c s l, In (s, c) l -> NoDup (map snd l) ->
  Permutation l ((s, c) :: drop_guard c l).
Proof.
  induction l as [|[s' d] r IH]; cbn; [tauto|]. intros H N.
  inversion N as [|? ? N1 N2]; subst.
  destruct (Nat.eqb d c) eqn:E.
  - apply Nat.eqb_eq in E; subst. destruct H as [H|H].
    + inversion H; subst; apply Permutation_refl.
    + exfalso; apply N1. change c with (snd (s, c)). apply in_map, H.
  - apply Nat.eqb_neq in E. destruct H as [H|H]; [inversion H; congruence|].
    eapply perm_trans; [apply perm_skip, IH; assumption|apply perm_swap].
Qed.

Lemma NoDup_app_swap : forall (A : Type) (a b : list A), NoDup (a ++ b) -> NoDup (b ++ a).
Proof. intros A a b H. eapply Permutation_NoDup; [apply Permutation_app_comm|exact H]. Qed.

Lemma NoDup_app_r : forall (A : Type) (a b : list A), NoDup (a ++ b) -> NoDup b.
Proof. induction a as [|x a IH]; cbn; intros b H; [exact H|]. inversion H; subst; apply IH; assumption. Qed.

Lemma NoDup_app_disjoint : forall (A : Type) (a b : list A) x, NoDup (a ++ b) -> In x a -> ~ In x b.
Proof.
  induction a as [|y a IH]; cbn; intros b x N I J; [contradiction|]. inversion N; subst.
  destruct I as [->|I]; [apply H1, in_or_app; right; exact J|exact (IH b x H2 I J)].
Qed.

Lemma NoDup_fst_fun : forall (A B : Type) (l : list (A * B)) a b1 b2,
  NoDup (map fst l) -> In (a, b1) l -> In (a, b2) l -> b1 = b2.
Proof.
  induction l as [|[a' b'] r IH]; cbn; intros a b1 b2 N I1 I2; [contradiction|].
  inversion N as [|? ? NI N']; subst. destruct I1 as [E1|I1], I2 as [E2|I2].
  - congruence.
  - inversion E1; subst. elim NI. apply (in_map fst _ _ I2).
  - inversion E2; subst. elim NI. apply (in_map fst _ _ I1).
  - exact (IH _ _ _ N' I1 I2).
Qed.

Lemma nil_no_In : forall (A : Type) (l : list A), (forall x, ~ In x l) -> l = [].
Proof. intros A [|x l] H; [reflexivity|elim (H x); left; reflexivity]. Qed.

Arguments approvals : simpl never.
Local Arguments Nat.ltb : simpl never.

Lemma upd_same : forall f c v, upd f c v c = v.
Proof. intros; unfold upd; rewrite Nat.eqb_refl; reflexivity. Qed.

Lemma upd_other : forall f c v d, d <> c -> upd f c v d = f d.
Proof. intros f c v d N; unfold upd; apply Nat.eqb_neq in N; rewrite N; reflexivity. Qed.

Lemma upd_cases : forall f c v d (P : cstate -> Prop),
  (d = c -> P v) -> (d <> c -> P (f d)) -> P (upd f c v d).
Proof.
  intros f c v d P A B. destruct (Nat.eq_dec d c) as [E|N];
    [rewrite E, upd_same; exact (A E)|rewrite upd_other by exact N; exact (B N)].
Qed.

Lemma notify_cases : forall st (P : state -> Prop),
  (waiters st = [] -> P (set_permit st true)) ->
  (forall w ws, waiters st = w :: ws -> P (set_woken (set_waiters st ws) (woken st ++ [w]))) ->
  P (notify_one st).
Proof. intros st P A B. unfold notify_one. destruct (waiters st) as [|w ws]; [apply A|apply (B w ws)]; reflexivity. Qed.

Lemma notify_wakes : forall st w ws, waiters st = w :: ws ->
  notify_one st = set_woken (set_waiters st ws) (woken st ++ [w]).
Proof. intros st w ws E; unfold notify_one; rewrite E; reflexivity. Qed.

Lemma put_idle_wakes : forall cfg st s w ws, idleq st = [] -> waiters st = w :: ws ->
  put_idle cfg st s = set_woken (set_waiters (set_idleq st [s]) ws) (woken st ++ [w]).
Proof.
  intros cfg st s w ws I W. unfold put_idle. rewrite I, (notify_wakes _ w ws) by exact W.
  destruct (strat cfg); reflexivity.
Qed.

Lemma try_get_idle : forall cfg st c n s rest, idleq st = s :: rest ->
  try_get cfg st c n =
  replenish cfg (set_client (set_held (set_idleq st rest) ((s, c) :: held st)) c (Holding s Fresh)).
Proof. intros cfg st c n s rest E; unfold try_get; rewrite E; reflexivity. Qed.

Lemma try_get_wait : forall cfg st c n, idleq st = [] ->
  try_get cfg st c n =
  let st1 := set_pending st (pending st + approvals cfg st (if pending st <? n then 1 else 0)) in
  set_client (if permit st then set_woken (set_permit st1 false) (woken st ++ [c])
              else set_waiters st1 (waiters st ++ [c])) c Waiting.
Proof. intros cfg st c n E; unfold try_get; rewrite E; cbn; destruct (permit st); reflexivity. Qed.

Lemma approvals_le : forall cfg st n, num_conns st + (pending st + approvals cfg st n) <= max_size cfg \/ approvals cfg st n = 0.
Proof. intros; unfold approvals; lia. Qed.

Lemma approvals_room : forall cfg st, num_conns st + pending st < max_size cfg -> approvals cfg st 1 = 1.
Proof. intros; unfold approvals; lia. Qed.

(** a getter that finds nothing idle leaves a connection on its way, unless the pool is full *)
Lemma approval_pending : forall cfg st n,
  (pending st = 0 -> num_conns st < max_size cfg) -> 0 < n ->
  0 < pending st + approvals cfg st (if pending st <? n then 1 else 0).
Proof.
  intros cfg st n R N. unfold approvals.
  destruct (pending st <? n) eqn:E; [apply Nat.ltb_lt in E|apply Nat.ltb_ge in E]; lia.
Qed.

Lemma step_checkout : forall cfg st c, clients st c = NoServer ->
  step cfg st (Checkout c) = try_get cfg st c (in_flight st + 1).
Proof. intros cfg st c HC; unfold step, enabled; rewrite HC; reflexivity. Qed.

Lemma step_retry : forall cfg st c, In c (woken st) ->
  step cfg st (Retry c) =
  let st1 := set_woken st (remove1 c (woken st)) in try_get cfg st1 c (in_flight st1 + 1).
Proof. intros cfg st c I; apply mem_In in I; unfold step, enabled; rewrite I; reflexivity. Qed.

Lemma step_established : forall cfg st, 0 < pending st ->
  step cfg st ConnEstablished =
  put_idle cfg (set_next (set_num (set_pending st (pending st - 1)) (num_conns st + 1)) (S (next_sid st)))
    (next_sid st).
Proof. intros cfg st P; apply Nat.ltb_lt in P; unfold step, enabled; rewrite P; reflexivity. Qed.

Lemma step_timeout : forall cfg st c fatal, In c (waiters st) ->
  step cfg st (WaitTimeout c fatal) =
  set_client (set_waiters st (remove1 c (waiters st))) c (if fatal then Gone else NoServer).
Proof. intros cfg st c fatal I; apply mem_In in I; unfold step, enabled; rewrite I; reflexivity. Qed.

Lemma step_release : forall cfg st c s ph o b, clients st c = Holding s ph ->
  (o = TxnEndRelease c b \/ exists how, o = ExitHolding c how b) ->
  exists next, step cfg st o = release cfg st c s b next.
Proof.
  intros cfg st c s ph o b HC [->|[how ->]]; eexists; unfold step, enabled; rewrite HC; reflexivity.
Qed.

Lemma retry_registers : forall cfg st c, In c (woken st) -> idleq st = [] -> permit st = false ->
  step cfg st (Retry c) =
  let st1 := set_woken st (remove1 c (woken st)) in
  set_client (set_waiters (set_pending st1 (pending st + approvals cfg st1 (if pending st <? in_flight st1 + 1 then 1 else 0)))
                (waiters st ++ [c])) c Waiting.
Proof.
  intros cfg st c K I PF. rewrite step_retry by exact K. cbn zeta. rewrite try_get_wait by exact I.
  cbn. rewrite PF. reflexivity.
Qed.

(** [step] by rules.  The three ops that only move a holder to another phase are one rule, the two
    that drop a guard are one rule. *)
Inductive Step (cfg : config) (st : state) : state -> Prop :=
| St_checkout c : clients st c = NoServer -> Step cfg st (try_get cfg st c (in_flight st + 1))
| St_retry c : In c (woken st) ->
    Step cfg st (let st1 := set_woken st (remove1 c (woken st)) in try_get cfg st1 c (in_flight st1 + 1))
| St_established : 0 < pending st ->
    Step cfg st (put_idle cfg (set_next (set_num (set_pending st (pending st - 1)) (num_conns st + 1))
                                 (S (next_sid st))) (next_sid st))
| St_failed : 0 < pending st -> Step cfg st (set_pending st (pending st - 1))
| St_timeout c v : In c (waiters st) -> v = NoServer \/ v = Gone ->
    Step cfg st (set_client (set_waiters st (remove1 c (waiters st))) c v)
| St_phase c s ph ph' : clients st c = Holding s ph ->
    (ph' = IdleHeld -> session_mode cfg = true \/ f14_mutant cfg = true) ->
    Step cfg st (set_client st c (Holding s ph'))
| St_release c s ph b v : clients st c = Holding s ph -> v = NoServer \/ v = Gone ->
    Step cfg st (release cfg st c s b v)
| St_disconnect c : clients st c = NoServer -> Step cfg st (set_client st c Gone)
| St_died s : Step cfg st (set_dead st (s :: dead st))
| St_reap s : In s (idleq st) ->
    Step cfg st (replenish cfg (set_dead (set_num (set_idleq st (remove1 s (idleq st))) (num_conns st - 1))
                                  (remove1 s (dead st)))).

Lemma step_cases : forall cfg st o, step cfg st o = st \/ Step cfg st (step cfg st o).
Proof.
  intros cfg st o. unfold step. destruct (enabled cfg st o) eqn:EN; [right|left; reflexivity].
  (* where [enabled] looks at the task's state exactly one case survives; elsewhere the [destruct] is undone *)
  destruct o as [c|c| | |c fatal|c|c b|c|c|c how b|c|s|s]; cbn in EN |- *;
    try (destruct (clients st c) as [| |s ph|] eqn:HC; try discriminate; [idtac]).
  - apply St_checkout, HC.
  - apply St_retry, mem_In, EN.
  - apply St_established, Nat.ltb_lt, EN.
  - apply St_failed, Nat.ltb_lt, EN.
  - apply St_timeout; [apply mem_In, EN|destruct fatal; auto].
  - eapply St_phase; [exact HC|discriminate].
  - eapply St_release; [exact HC|left; reflexivity].
  - eapply St_phase; [exact HC|intros _; left; exact EN].
  - eapply St_phase; [exact HC|intros _; right; destruct ph; (exact EN || discriminate)].
  - eapply St_release; [exact HC|right; reflexivity].
  - apply St_disconnect, HC.
  - apply St_died.
  - apply St_reap, mem_In, EN.
Qed.

Lemma run_from_ind : forall cfg (P : state -> Prop),
  (forall st o, P st -> P (step cfg st o)) -> forall ops st, P st -> P (run_from cfg st ops).
Proof. intros cfg P HS. induction ops as [|o r IH]; cbn; intros st H; [exact H|]. apply IH, HS, H. Qed.

Lemma run_app : forall cfg ops ops', run cfg (ops ++ ops') = run_from cfg (run cfg ops) ops'.
Proof. intros. apply fold_left_app. Qed.

Definition live (st : state) : list sid := idleq st ++ map fst (held st).
Definition getters (st : state) : list cid := waiters st ++ woken st.

(** [k]: connections counted in [num_conns] that are momentarily neither idle nor held (inside
    put_back / add_connection); [ex]: a task that is between two passes of the loop in get(). *)
Record InvP (cfg : config) (k : nat) (ex : option cid) (st : state) : Prop := {
  p_cap : num_conns st + pending st <= max_size cfg;
  p_cnt : num_conns st = length (idleq st) + length (held st) + k;
  p_live : NoDup (live st);
  p_one : NoDup (map snd (held st));
  p_own : forall s c, In (s, c) (held st) <-> exists ph, clients st c = Holding s ph;
  p_w1 : forall c, In c (getters st) -> clients st c = Waiting;
  p_w2 : forall c, Some c <> ex -> clients st c = Waiting -> In c (getters st);
  p_gnd : NoDup (getters st);
  p_fresh : forall s, In s (live st) -> s < next_sid st
}.

Definition Inv (cfg : config) (st : state) : Prop := InvP cfg 0 None st.

(** task [c] owns no guard and is not registered: it is outside get() or between two passes of its loop *)
Definition Out (cfg : config) (st : state) (c : cid) : Prop :=
  InvP cfg 0 (Some c) st /\ (forall s ph, clients st c <> Holding s ph) /\ ~ In c (getters st).

Lemma InvP_transfer : forall cfg k ex st st',
  num_conns st' = num_conns st -> pending st' = pending st -> idleq st' = idleq st ->
  held st' = held st -> (forall c, clients st' c = clients st c) -> next_sid st' = next_sid st ->
  Permutation (getters st) (getters st') ->
  InvP cfg k ex st -> InvP cfg k ex st'.
Proof.
  intros cfg k ex st st' E1 E2 E3 E4 E5 E6 P [H1 H2 H3 H4 H5 H6 H7 H8 H9].
  constructor; unfold live in *; rewrite ?E1, ?E2, ?E3, ?E4, ?E6; try assumption.
  - intros s c; rewrite E5; apply H5.
  - intros c I; rewrite E5; apply H6. eapply Permutation_in; [apply Permutation_sym, P|exact I].
  - intros c N W; rewrite E5 in W. eapply Permutation_in; [exact P|]. apply H7; assumption.
  - eapply Permutation_NoDup; eassumption.
Qed.

Lemma InvP_set_pending : forall cfg k ex st p,
  num_conns st + p <= max_size cfg -> InvP cfg k ex st -> InvP cfg k ex (set_pending st p).
Proof.
  intros cfg k ex st p L [H1 H2 H3 H4 H5 H6 H7 H8 H9]. constructor; cbn; assumption.
Qed.

Lemma InvP_approve : forall cfg k ex st n,
  InvP cfg k ex st -> InvP cfg k ex (set_pending st (pending st + approvals cfg st n)).
Proof.
  intros cfg k ex st n H. apply InvP_set_pending; [|exact H].
  pose proof (p_cap _ _ _ _ H). destruct (approvals_le cfg st n) as [L| ->]; lia.
Qed.

Lemma InvP_replenish : forall cfg k ex st, InvP cfg k ex st -> InvP cfg k ex (replenish cfg st).
Proof. intros cfg k ex st. apply InvP_approve. Qed.

Lemma getters_notify : forall st, Permutation (getters st) (getters (notify_one st)).
Proof.
  intros st. apply notify_cases; [reflexivity|]. intros w ws E. unfold getters; cbn; rewrite E.
  rewrite app_assoc. apply Permutation_cons_append.
Qed.

Lemma InvP_notify : forall cfg k ex st, InvP cfg k ex st -> InvP cfg k ex (notify_one st).
Proof.
  intros cfg k ex st H.
  apply (InvP_transfer cfg k ex st); [intros; apply notify_cases; reflexivity..|apply getters_notify|exact H].
Qed.

Lemma InvP_set_dead : forall cfg k ex st d, InvP cfg k ex st -> InvP cfg k ex (set_dead st d).
Proof. intros cfg k ex st d H. eapply InvP_transfer; try exact H; reflexivity. Qed.

Lemma InvP_put_idle : forall cfg ex st s,
  InvP cfg 1 ex st -> ~ In s (live st) -> s < next_sid st -> InvP cfg 0 ex (put_idle cfg st s).
Proof.
  intros cfg ex st s [H1 H2 H3 H4 H5 H6 H7 H8 H9] NI LT. unfold put_idle. apply InvP_notify.
  assert (P : Permutation (s :: idleq st) (match strat cfg with Fifo => idleq st ++ [s] | Lifo => s :: idleq st end))
    by (destruct (strat cfg); [apply Permutation_cons_append|reflexivity]).
  pose proof (Permutation_app_tail (map fst (held st)) P : Permutation (s :: live st) _) as PL.
  constructor; cbn; try assumption.
  - rewrite <- (Permutation_length P); cbn; lia.
  - exact (Permutation_NoDup PL (NoDup_cons _ NI H3)).
  - intros x I. apply (Permutation_in _ (Permutation_sym PL)) in I as [<-|I]; auto.
Qed.

Lemma InvP_dropnum : forall cfg ex st, InvP cfg 1 ex st -> InvP cfg 0 ex (set_num st (num_conns st - 1)).
Proof.
  intros cfg ex st [H1 H2 H3 H4 H5 H6 H7 H8 H9]. constructor; cbn; try assumption; lia.
Qed.

Lemma InvP_put_back : forall cfg ex st s b,
  InvP cfg 1 ex st -> ~ In s (live st) -> s < next_sid st -> InvP cfg 0 ex (put_back cfg st s b).
Proof.
  intros cfg ex st s b H NI LT. unfold put_back. destruct b.
  - apply InvP_notify, InvP_replenish, InvP_set_dead, InvP_dropnum, H.
  - apply InvP_put_idle; assumption.
Qed.

Lemma InvP_unguard : forall cfg st c s ph next,
  Inv cfg st -> clients st c = Holding s ph -> (next = NoServer \/ next = Gone) ->
  let st' := set_client (set_held st (drop_guard c (held st))) c next in
  InvP cfg 1 None st' /\ ~ In s (live st') /\ s < next_sid st'.
Proof.
  intros cfg st c s ph next [H1 H2 H3 H4 H5 H6 H7 H8 H9] HC NX st'.
  assert (I : In (s, c) (held st)) by (apply H5; eauto).
  pose proof (drop_guard_perm c s (held st) I H4) as P.
  pose proof (Permutation_NoDup (Permutation_map snd P) H4) as NDs.
  assert (PL : Permutation (live st) (s :: idleq st ++ map fst (drop_guard c (held st)))).
  { unfold live. rewrite (Permutation_map fst P). apply Permutation_sym, Permutation_middle. }
  pose proof (Permutation_NoDup PL H3) as NDl.
  inversion NDs as [|? ? Ns NDs']; inversion NDl as [|? ? Nl NDl']; subst.
  split; [|split; [exact Nl|apply H9, (Permutation_in _ (Permutation_sym PL)); left; reflexivity]].
  constructor; subst st'; unfold live; cbn; try assumption.
  - apply Permutation_length in P; cbn in P; lia.
  - intros s' c'. apply upd_cases; [intros ->|intros N; rewrite <- H5].
    + split; [intros I'; elim Ns; apply (in_map snd _ _ I')|intros [ph' X]; destruct NX; subst; discriminate].
    + split; [intros I'; apply (Permutation_in _ (Permutation_sym P)); right; exact I'|].
      intros I'. apply (Permutation_in _ P) in I' as [I'|I']; [congruence|exact I'].
  - intros c' I'. apply upd_cases; [intros ->; apply H6 in I'; congruence|intros _; apply H6, I'].
  - intros c' _. apply upd_cases; [intros _ W; destruct NX; subst; discriminate|intros _ W; apply H7; [discriminate|exact W]].
  - intros x I'. apply H9, (Permutation_in _ (Permutation_sym PL)). right; exact I'.
Qed.

Lemma Inv_release : forall cfg st c s ph b next,
  Inv cfg st -> clients st c = Holding s ph -> (next = NoServer \/ next = Gone) ->
  Inv cfg (release cfg st c s b next).
Proof.
  intros cfg st c s ph b next H HC NX. unfold release.
  destruct (InvP_unguard cfg st c s ph next H HC NX) as (A & B & C).
  apply InvP_put_back; assumption.
Qed.

Lemma InvP_weaken : forall cfg k ex st, InvP cfg k None st -> InvP cfg k ex st.
Proof.
  intros cfg k ex st [H1 H2 H3 H4 H5 H6 H7 H8 H9]. constructor; try assumption.
  intros c _ W; apply H7; [discriminate|exact W].
Qed.

Lemma Out_idle : forall cfg st c, Inv cfg st -> clients st c = NoServer -> Out cfg st c.
Proof.
  intros cfg st c H HC. split; [apply InvP_weaken, H|]. split; [congruence|].
  intros I. apply (p_w1 _ _ _ _ H) in I. congruence.
Qed.

Lemma Out_dequeue : forall cfg st c ws ks,
  Inv cfg st -> Permutation (getters st) (c :: ws ++ ks) -> Out cfg (set_woken (set_waiters st ws) ks) c.
Proof.
  intros cfg st c ws ks [H1 H2 H3 H4 H5 H6 H7 H8 H9] P.
  pose proof (Permutation_NoDup P H8) as ND. inversion ND as [|? ? NI ND']; subst.
  assert (W : clients st c = Waiting) by (apply H6, (Permutation_in _ (Permutation_sym P)); left; reflexivity).
  split; [|split; [cbn; congruence|exact NI]].
  constructor; cbn; try assumption.
  - intros c' I. apply H6, (Permutation_in _ (Permutation_sym P)). right; exact I.
  - intros c' N Wc. apply H7, (Permutation_in _ P) in Wc as [Wc|Wc]; [congruence|exact Wc|discriminate].
Qed.

Lemma Inv_enqueue : forall cfg st c ws ks,
  Out cfg st c -> Permutation (c :: getters st) (ws ++ ks) ->
  Inv cfg (set_client (set_woken (set_waiters st ws) ks) c Waiting).
Proof.
  intros cfg st c ws ks ([H1 H2 H3 H4 H5 H6 H7 H8 H9] & NH & NG) P. constructor; cbn; try assumption.
  - intros s' c'. apply upd_cases; [intros ->; rewrite H5|intros _; apply H5].
    split; intros [ph X]; [elim (NH _ _ X)|discriminate].
  - intros c' I. apply upd_cases; [reflexivity|intros N].
    apply H6. apply (Permutation_in _ (Permutation_sym P)) in I as [I|I]; [congruence|exact I].
  - intros c' _. apply upd_cases; intros N W; apply (Permutation_in _ P); [left; auto|right; apply H7; congruence].
  - exact (Permutation_NoDup P (NoDup_cons _ NG H8)).
Qed.

Lemma Inv_leave : forall cfg st c v,
  Out cfg st c -> (v = NoServer \/ v = Gone) -> Inv cfg (set_client st c v).
Proof.
  intros cfg st c v ([H1 H2 H3 H4 H5 H6 H7 H8 H9] & NH & NG) V. constructor; cbn; try assumption.
  - intros s' c'. apply upd_cases; [intros ->; rewrite H5|intros _; apply H5].
    split; intros [ph X]; [elim (NH _ _ X)|destruct V; subst; discriminate].
  - intros c' I. apply upd_cases; [intros ->; contradiction|intros _; apply H6, I].
  - intros c' _. apply upd_cases; [intros _ W; destruct V; subst; discriminate|intros N W; apply H7; congruence].
Qed.

Lemma Inv_grant : forall cfg st c s rest,
  Out cfg st c -> idleq st = s :: rest ->
  Inv cfg (set_client (set_held (set_idleq st rest) ((s, c) :: held st)) c (Holding s Fresh)).
Proof.
  intros cfg st c s rest ([H1 H2 H3 H4 H5 H6 H7 H8 H9] & NH & NG) EI. unfold live in *. rewrite EI in *.
  assert (NHeld : forall s', ~ In (s', c) (held st)) by (intros s' I; apply H5 in I as [ph X]; exact (NH _ _ X)).
  pose proof (Permutation_middle rest (map fst (held st)) s) as PL.
  constructor; unfold live; cbn; try assumption.
  - cbn in H2; lia.
  - exact (Permutation_NoDup PL H3).
  - constructor; [|exact H4]. intros I. apply in_map_iff in I as [[s' c'] [E I]]; cbn in E; subst c'.
    exact (NHeld _ I).
  - intros s' c'. apply upd_cases; [intros ->|intros N; rewrite <- H5].
    + split; [intros [I|I]; [inversion I; subst; eauto|elim (NHeld _ I)]|intros [ph X]; inversion X; left; reflexivity].
    + split; [intros [I|I]; [congruence|exact I]|intros I; right; exact I].
  - intros c' I. apply upd_cases; [intros ->; contradiction|intros _; apply H6, I].
  - intros c' _. apply upd_cases; [discriminate|intros N W; apply H7; congruence].
  - intros x I. apply H9, (Permutation_in _ (Permutation_sym PL) I).
Qed.

Lemma Inv_try_get : forall cfg st c n, Out cfg st c -> Inv cfg (try_get cfg st c n).
Proof.
  intros cfg st c n O. destruct (idleq st) as [|s rest] eqn:EI.
  - rewrite try_get_wait by exact EI. cbn zeta. set (st1 := set_pending st _).
    assert (O1 : Out cfg st1 c)
      by (destruct O as (H & NH & NG); split; [apply InvP_approve, H|split; assumption]).
    destruct (permit st).
    + apply (Inv_enqueue _ (set_permit st1 false) _ (waiters st)).
      * destruct O1 as (H & NH & NG). split; [|split; assumption].
        eapply InvP_transfer; try exact H; reflexivity.
      * unfold getters; cbn. rewrite app_assoc. apply Permutation_cons_append.
    + apply (Inv_enqueue _ st1 _ (waiters st ++ [c]) (woken st) O1).
      unfold getters; cbn. rewrite <- app_assoc. apply Permutation_middle.
  - rewrite (try_get_idle _ _ _ _ s rest) by exact EI. apply InvP_replenish, Inv_grant; assumption.
Qed.

Lemma Inv_rephase : forall cfg st c s ph ph',
  Inv cfg st -> clients st c = Holding s ph -> Inv cfg (set_client st c (Holding s ph')).
Proof.
  intros cfg st c s ph ph' [H1 H2 H3 H4 H5 H6 H7 H8 H9] HC. constructor; cbn; try assumption.
  - intros s' c'. apply upd_cases; [intros ->; rewrite H5, HC|intros _; apply H5].
    split; intros [p X]; inversion X; subst; eauto.
  - intros c' I. apply upd_cases; [intros ->; apply H6 in I; congruence|intros _; apply H6, I].
  - intros c' N. apply upd_cases; [discriminate|intros _; apply H7, N].
Qed.

Lemma Inv_init : forall cfg, Inv cfg init.
Proof.
  intros cfg. constructor; cbn; try constructor; try lia; try tauto.
  - intros [ph X]; discriminate.
  - intros; discriminate.
Qed.

Lemma step_inv : forall cfg st o, Inv cfg st -> Inv cfg (step cfg st o).
Proof.
  intros cfg st o H. destruct (step_cases cfg st o) as [->|S]; [exact H|].
  destruct S as [c HC|c K|PP|PP|c v W V|c s ph ph' HC _|c s ph b v HC V|c HC|s|s I].
  - apply Inv_try_get, Out_idle; assumption.
  - apply Inv_try_get, (Out_dequeue _ _ _ (waiters st)); [exact H|].
    eapply perm_trans; [apply Permutation_app_head, remove1_perm, K|apply Permutation_sym, Permutation_middle].
  - apply InvP_put_idle.
    + destruct H as [H1 H2 H3 H4 H5 H6 H7 H8 H9]. constructor; unfold live in *; cbn; try assumption; try lia.
      intros x I. apply H9 in I. lia.
    + unfold live; cbn. intros I. apply (p_fresh _ _ _ _ H) in I. lia.
    + cbn. lia.
  - apply InvP_set_pending; [|exact H]. pose proof (p_cap _ _ _ _ H). lia.
  - apply (Inv_leave _ (set_waiters st _)); [|exact V].
    apply (Out_dequeue _ _ _ _ (woken st) H), (Permutation_app_tail _ (remove1_perm _ _ W)).
  - eapply Inv_rephase; eassumption.
  - eapply Inv_release; eassumption.
  - apply Inv_leave; [apply Out_idle; assumption|auto].
  - apply InvP_set_dead, H.
  - apply InvP_replenish, InvP_set_dead.
    pose proof (remove1_perm s (idleq st) I) as P.
    destruct H as [H1 H2 H3 H4 H5 H6 H7 H8 H9]. unfold live in *.
    pose proof (Permutation_app_tail (map fst (held st)) P) as PL.
    pose proof (Permutation_NoDup PL H3) as ND. inversion ND; subst.
    constructor; unfold live; cbn; try assumption.
    + lia.
    + apply Permutation_length in P; cbn in P. unfold sid, cid in *. lia.
    + intros x I'. apply H9, (Permutation_in _ (Permutation_sym PL)). right; exact I'.
Qed.

Lemma run_from_inv : forall cfg ops st, Inv cfg st -> Inv cfg (run_from cfg st ops).
Proof. intros cfg. apply run_from_ind, step_inv. Qed.

Lemma run_inv : forall cfg ops, Inv cfg (run cfg ops).
Proof. intros; apply run_from_inv, Inv_init. Qed.

(** * no lost wake-up: while somebody is registered in the wait list, every idle connection has a
      notified getter on its way to it, and the Notify holds no stale permit *)

Record InvW (st : state) : Prop := {
  w_wake : waiters st <> [] -> length (idleq st) <= length (woken st);
  w_perm : waiters st <> [] -> permit st = false
}.

Lemma W_notify : forall st,
  (waiters st <> [] -> length (idleq st) <= length (woken st) + 1) ->
  (waiters st <> [] -> permit st = false) -> InvW (notify_one st).
Proof.
  intros st A B. apply notify_cases; [intros E|intros w ws E; rewrite E in A, B].
  - constructor; cbn; congruence.
  - constructor; cbn; intros _.
    + rewrite app_length. apply A; discriminate.
    + apply B; discriminate.
Qed.

Lemma W_replenish : forall cfg st, InvW st -> InvW (replenish cfg st).
Proof. intros cfg st [A B]; constructor; assumption. Qed.

Lemma W_put_idle : forall cfg st s, InvW st -> InvW (put_idle cfg st s).
Proof.
  intros cfg st s [A B]. unfold put_idle. apply W_notify; cbn; [|exact B].
  intros N. apply A in N. destruct (strat cfg); cbn; rewrite ?app_length; cbn; lia.
Qed.

Lemma W_put_back : forall cfg st s b, InvW st -> InvW (put_back cfg st s b).
Proof.
  intros cfg st s b H. unfold put_back. destruct b; [|apply W_put_idle, H].
  destruct H as [A B]. apply W_notify; cbn; [intros N; apply A in N; lia|exact B].
Qed.

Lemma W_try_get : forall cfg st c n,
  (waiters st <> [] -> length (idleq st) <= length (woken st) + 1) ->
  (waiters st <> [] -> permit st = false) -> InvW (try_get cfg st c n).
Proof.
  intros cfg st c n A B. unfold try_get. destruct (idleq st) as [|s rest] eqn:E.
  - cbn. destruct (permit st) eqn:P; constructor; cbn; rewrite ?E; cbn; intros; try lia; try reflexivity; assumption.
  - apply W_replenish. constructor; cbn; intros N; [apply A in N; cbn in N; lia|apply B, N].
Qed.

Lemma step_invW : forall cfg st o, InvW st -> InvW (step cfg st o).
Proof.
  intros cfg st o H. destruct (step_cases cfg st o) as [->|S]; [exact H|]. destruct H as [A B].
  destruct S as [c HC|c K|PP|PP|c v W V|c s ph ph' HC _|c s ph b v HC V|c HC|s|s I];
    try (constructor; assumption).
  - apply W_try_get; [intros N; apply A in N; lia|exact B].
  - pose proof (remove1_length c (woken st) K) as L.
    apply W_try_get; cbn; [intros N; apply A in N; unfold sid, cid in *; lia|exact B].
  - apply W_put_idle. constructor; assumption.
  - constructor; cbn; intros N; apply remove1_nil_wake in N; auto.
  - apply W_put_back. constructor; assumption.
  - pose proof (remove1_length s (idleq st) I) as L.
    apply W_replenish. constructor; cbn; [intros N; apply A in N; unfold sid, cid in *; lia|exact B].
Qed.

Lemma InvW_init : InvW init.
Proof. constructor; cbn; congruence. Qed.

Lemma run_from_invW : forall cfg ops st, InvW st -> InvW (run_from cfg st ops).
Proof. intros cfg. apply run_from_ind, step_invW. Qed.

Lemma run_invW : forall cfg ops, InvW (run cfg ops).
Proof. intros; apply run_from_invW, InvW_init. Qed.

Lemma quiescent_lemma : forall cfg st,
  Inv cfg st -> (forall c, clients st c = NoServer \/ clients st c = Gone) ->
  held st = [] /\ waiters st = [] /\ woken st = [] /\ num_conns st = length (idleq st).
Proof.
  intros cfg st H Q.
  assert (HE : held st = []).
  { apply nil_no_In. intros [s c] I. apply (p_own _ _ _ _ H) in I as [ph X]. destruct (Q c); congruence. }
  assert (GE : getters st = []).
  { apply nil_no_In. intros c I. apply (p_w1 _ _ _ _ H) in I. destruct (Q c); congruence. }
  apply app_eq_nil in GE as [G1 G2]. pose proof (p_cnt _ _ _ _ H) as C. rewrite HE in C. cbn in C.
  repeat split; try assumption. lia.
Qed.

(** * capacity: when nobody is inside get(), a task that asks gets a connection as long as fewer
       than max_size are held *)

Lemma acquire_is_run : forall cfg st c, acquire cfg st c = run_from cfg st (acquire_ops cfg st c).
Proof.
  intros cfg st c. unfold acquire, acquire_ops.
  destruct (clients (step cfg st (Checkout c)) c); cbn; try reflexivity;
    destruct (mem c (woken (step cfg st (Checkout c)))); cbn; reflexivity.
Qed.

Lemma first_waiter_served : forall cfg st w ws,
  idleq st = [] -> waiters st = w :: ws -> woken st = [] -> 0 < pending st ->
  let st1 := step cfg st ConnEstablished in
  let st2 := step cfg st1 (Retry w) in
  idleq st1 = [next_sid st] /\ woken st1 = [w] /\
  waiters st2 = ws /\ woken st2 = [] /\ idleq st2 = [] /\
  clients st2 = upd (clients st) w (Holding (next_sid st) Fresh) /\ held st2 = (next_sid st, w) :: held st.
Proof.
  intros cfg st w ws I W K P.
  rewrite step_established, (put_idle_wakes _ _ _ w ws) by assumption. cbn zeta.
  rewrite step_retry by (cbn; rewrite K; left; reflexivity).
  cbn. rewrite K. cbn. rewrite Nat.eqb_refl. repeat split.
Qed.

(** with nothing idle and nobody else inside get(), a checkout (and, if it consumed a stored permit,
    the retry that follows) leaves c registered in the wait list with a connection on its way *)
Lemma checkout_registers : forall cfg st c,
  idleq st = [] -> waiters st = [] -> woken st = [] -> clients st c = NoServer ->
  (pending st = 0 -> num_conns st < max_size cfg) ->
  let st1 := step cfg st (Checkout c) in
  let st2 := if mem c (woken st1) then step cfg st1 (Retry c) else st1 in
  clients st1 c = Waiting /\
  idleq st2 = [] /\ waiters st2 = [c] /\ woken st2 = [] /\ 0 < pending st2 /\
  held st2 = held st /\ forall d, d <> c -> clients st2 d = clients st d.
Proof.
  intros cfg st c I W K HC R st1 st2.
  pose proof (approval_pending cfg st (in_flight st + 1) R) as P.
  assert (E1 : st1 = try_get cfg st c (in_flight st + 1)) by apply step_checkout, HC.
  rewrite try_get_wait in E1 by exact I. cbn zeta in E1. subst st2.
  destruct (permit st) eqn:EP; rewrite E1; cbn; rewrite upd_same, ?K; cbn; rewrite ?Nat.eqb_refl.
  - rewrite retry_registers by (cbn; auto).
    cbn. rewrite W, Nat.eqb_refl. repeat split; [exact I|apply Nat.lt_lt_add_r, P; lia|].
    intros d N. rewrite !upd_other by exact N. reflexivity.
  - rewrite W. repeat split; [exact I|exact K|lia|]. intros d N. apply upd_other, N.
Qed.

Lemma acquire_spec : forall cfg st c,
  Inv cfg st -> getters st = [] -> clients st c = NoServer -> length (held st) < max_size cfg ->
  let st' := acquire cfg st c in
  getters st' = [] /\ (exists s, clients st' c = Holding s Fresh) /\
  (forall d, d <> c -> clients st' d = clients st d) /\ length (held st') = S (length (held st)).
Proof.
  intros cfg st c H G HC LT st'. apply app_eq_nil in G as [W K]. unfold getters.
  destruct (idleq st) as [|s rest] eqn:I.
  - pose proof (p_cnt _ _ _ _ H) as CNT. rewrite I in CNT.
    destruct (checkout_registers cfg st c I W K HC) as (E & I2 & W2 & K2 & P2 & H2 & C2); [cbn in CNT; lia|].
    destruct (first_waiter_served cfg _ c [] I2 W2 K2 P2) as (_ & _ & W4 & K4 & _ & C4 & H4).
    (* [acquire] is unfolded once, in an equation of its own, not in the four places [st'] stands *)
    eassert (ES : st' = _) by (subst st'; unfold acquire; rewrite E; reflexivity).
    rewrite <- ES in W4, K4, C4, H4. rewrite W4, K4, C4, H4, H2, upd_same. repeat split; [eauto|].
    intros d N. rewrite upd_other by exact N. apply C2, N.
  - eassert (ES : st' = _).
    { subst st'. unfold acquire. rewrite step_checkout, (try_get_idle _ _ _ _ s rest) by assumption.
      cbn. rewrite upd_same. reflexivity. }
    rewrite ES. cbn. rewrite upd_same, W, K. repeat split; [eauto|]. intros d N; apply upd_other, N.
Qed.

Lemma acquire_inv : forall cfg st c, Inv cfg st -> Inv cfg (acquire cfg st c).
Proof. intros. rewrite acquire_is_run. apply run_from_inv; assumption. Qed.

Lemma acquire_all_spec : forall cfg cs st,
  Inv cfg st -> getters st = [] -> NoDup cs -> (forall c, In c cs -> clients st c = NoServer) ->
  length (held st) + length cs <= max_size cfg ->
  let st' := acquire_all cfg st cs in
  Inv cfg st' /\ getters st' = [] /\ (forall c, In c cs -> exists s, clients st' c = Holding s Fresh) /\
  (forall d, ~ In d cs -> clients st' d = clients st d) /\ length (held st') = length (held st) + length cs.
Proof.
  induction cs as [|c r IH]; intros st H G ND NS LE; cbn.
  - split; [exact H|]. repeat split; [exact G|intros c []|unfold acquire_all; cbn; lia].
  - inversion ND as [|? ? N1 N2]; subst. cbn in LE.
    destruct (acquire_spec cfg st c H G (NS c (or_introl eq_refl))) as (A & B & C & D); [lia|].
    specialize (IH (acquire cfg st c) (acquire_inv cfg st c H) A N2).
    destruct IH as (I1 & I2 & I3 & I4 & I5).
    + intros d I. rewrite C; [apply NS; right; exact I|]. intros E; subst; contradiction.
    + rewrite D. lia.
    + unfold acquire_all in *. split; [exact I1|]. split; [exact I2|]. split; [|split].
      * intros d [E|I]; [subst d|apply I3, I]. rewrite I4 by exact N1. exact B.
      * intros d N. rewrite I4 by tauto. apply C. intros E; subst; apply N; left; reflexivity.
      * rewrite I5, D. lia.
Qed.

Lemma acquire_all_is_run : forall cfg cs st, exists ops,
  acquire_all cfg st cs = run_from cfg st ops /\
  (forall o, In o ops -> match o with Checkout _ | Retry _ | ConnEstablished => True | _ => False end).
Proof.
  induction cs as [|c r IH]; intros st; cbn.
  - exists []. split; [reflexivity|]. intros o [].
  - destruct (IH (acquire cfg st c)) as (ops & E & P).
    exists (acquire_ops cfg st c ++ ops). split.
    + unfold acquire_all in *. rewrite E, acquire_is_run. unfold run_from. rewrite fold_left_app. reflexivity.
    + apply Forall_forall, Forall_app; split; [|apply Forall_forall, P].
      unfold acquire_ops. destruct (clients _ c); try destruct (mem c _); repeat constructor.
Qed.

Lemma capacity_lemma : forall cfg st cs,
  Inv cfg st -> (forall c, clients st c = NoServer \/ clients st c = Gone) ->
  NoDup cs -> (forall c, In c cs -> clients st c = NoServer) -> length cs = max_size cfg ->
  let st' := acquire_all cfg st cs in
  (forall c, In c cs -> exists s, clients st' c = Holding s Fresh) /\
  length (held st') = max_size cfg /\ idleq st' = [] /\ num_conns st' = max_size cfg /\
  exists ops', st' = run_from cfg st ops' /\
     (forall o, In o ops' -> match o with Checkout _ | Retry _ | ConnEstablished => True | _ => False end).
Proof.
  intros cfg st cs H Q ND NS LEN st'.
  destruct (quiescent_lemma cfg st H Q) as (HE & WE & KE & _).
  destruct (acquire_all_spec cfg cs st H) as (I1 & _ & I3 & _ & I5); try assumption;
    [unfold getters; rewrite WE, KE; reflexivity|rewrite HE; cbn; lia|].
  fold st' in I1, I3, I5. rewrite HE in I5. cbn in I5.
  pose proof (p_cap _ _ _ _ I1) as CAP. pose proof (p_cnt _ _ _ _ I1) as CNT.
  assert (IE : idleq st' = []) by (destruct (idleq st'); [reflexivity|cbn in CNT; lia]).
  rewrite IE in CNT. cbn in CNT. repeat split; [exact I3|lia|exact IE|lia|apply acquire_all_is_run].
Qed.

Lemma served_on_release : forall cfg st c rest c' s ph o,
  waiters st = c :: rest -> woken st = [] -> idleq st = [] -> clients st c' = Holding s ph ->
  (o = TxnEndRelease c' false \/ exists how, o = ExitHolding c' how false) ->
  let st1 := step cfg st o in
  waiters st1 = rest /\ woken st1 = [c] /\ idleq st1 = [s] /\
  clients (step cfg st1 (Retry c)) c = Holding s Fresh /\ idleq (step cfg st1 (Retry c)) = [].
Proof.
  intros cfg st c rest c' s ph o W K I HC O.
  destruct (step_release cfg st c' s ph o false HC O) as [next ->].
  unfold release, put_back. rewrite (put_idle_wakes _ _ _ c rest) by assumption.
  cbn zeta. rewrite step_retry by (cbn; rewrite K; left; reflexivity).
  cbn. rewrite K, upd_same. repeat split.
Qed.

(** a waiter woken for nothing asks for a connection and registers again, at the back; the connection
    goes to the waiter then first in line *)
Lemma woken_in_vain : forall cfg st c rest,
  waiters st = c :: rest -> woken st = [] -> idleq st = [] -> permit st = false ->
  num_conns st < max_size cfg ->
  let st1 := notify_one st in
  let st2 := step cfg st1 (Retry c) in
  let st3 := step cfg st2 ConnEstablished in
  let w := hd c (rest ++ [c]) in
  woken st1 = [c] /\ waiters st2 = rest ++ [c] /\ 0 < pending st2 /\
  idleq st3 = [next_sid st] /\ woken st3 = [w] /\ In w (c :: rest) /\
  clients (step cfg st3 (Retry w)) w = Holding (next_sid st) Fresh.
Proof.
  intros cfg st c rest W K I PF N.
  assert (exists ws, rest ++ [c] = hd c (rest ++ [c]) :: ws /\ In (hd c (rest ++ [c])) (c :: rest))
    as (ws & EW & IW) by (destruct rest; cbn; eauto).
  rewrite (notify_wakes _ c rest) by exact W. cbn zeta.
  rewrite retry_registers by (cbn; rewrite ?K; cbn; auto).
  cbn. rewrite K. cbn. rewrite Nat.eqb_refl.
  assert (P : 0 < pending st + approvals cfg st (if pending st <? length rest + 0 + 1 then 1 else 0))
    by (apply approval_pending; lia).
  set (st2 := set_client _ c Waiting).
  destruct (first_waiter_served cfg st2 _ ws I EW eq_refl P) as (I3 & K3 & _ & _ & _ & C4 & _).
  rewrite I3, K3, C4, upd_same. repeat split; assumption.
Qed.

Lemma served_on_close : forall cfg st c rest c' s ph o,
  Inv cfg st -> InvW st ->
  waiters st = c :: rest -> woken st = [] -> idleq st = [] -> clients st c' = Holding s ph ->
  (o = TxnEndRelease c' true \/ exists how, o = ExitHolding c' how true) ->
  let st1 := step cfg st o in
  let st2 := step cfg st1 (Retry c) in
  let st3 := step cfg st2 ConnEstablished in
  let w := hd c (rest ++ [c]) in
  num_conns st1 = num_conns st - 1 /\ woken st1 = [c] /\
  waiters st2 = rest ++ [c] /\ 0 < pending st2 /\
  idleq st3 = [next_sid st] /\ woken st3 = [w] /\ In w (c :: rest) /\
  clients (step cfg st3 (Retry w)) w = Holding (next_sid st) Fresh.
Proof.
  intros cfg st c rest c' s ph o H HW W K I HC O.
  assert (N : 0 < num_conns st).
  { rewrite (p_cnt _ _ _ _ H). assert (X : In (s, c') (held st)) by (apply (p_own _ _ _ _ H); eauto).
    destruct (held st); [contradiction|cbn; lia]. }
  pose proof (p_cap _ _ _ _ H) as CAP.
  assert (PF : permit st = false) by (apply (w_perm _ HW); rewrite W; discriminate).
  destruct (step_release cfg st c' s ph o true HC O) as [next ->].
  unfold release, put_back. cbv zeta. split; [rewrite (notify_wakes _ c rest) by exact W; reflexivity|].
  refine (woken_in_vain cfg _ c rest _ _ _ _ _); try assumption. cbn. lia.
Qed.

Lemma timeout_lemma : forall cfg st c,
  Inv cfg st -> In c (waiters st) ->
  let st1 := step cfg st (WaitTimeout c false) in
  Inv cfg st1 /\ clients st1 c = NoServer /\ ~ In c (waiters st1) /\ ~ In c (woken st1) /\
  num_conns st1 = num_conns st /\ pending st1 = pending st /\ idleq st1 = idleq st /\ held st1 = held st /\
  enabled cfg st1 (Checkout c) = true.
Proof.
  intros cfg st c H I st1.
  assert (I1 : Inv cfg st1) by apply step_inv, H.
  assert (E : st1 = set_client (set_waiters st (remove1 c (waiters st))) c NoServer) by apply step_timeout, I.
  assert (C : clients st1 c = NoServer) by (rewrite E; apply upd_same).
  assert (NG : ~ In c (getters st1)) by (intros X; apply (p_w1 _ _ _ _ I1) in X; congruence).
  unfold getters in NG. rewrite in_app_iff in NG. unfold enabled. rewrite C.
  split; [exact I1|]. repeat split; try (rewrite E; reflexivity); tauto.
Qed.

(** * the only way to sit idle on a connection in transaction mode is the F14 class *)

Definition no_idle_hold (st : state) : Prop := forall c s, clients st c <> Holding s IdleHeld.

Lemma clients_put_idle : forall cfg st s, clients (put_idle cfg st s) = clients st.
Proof. intros. unfold put_idle. apply notify_cases; reflexivity. Qed.

Lemma clients_put_back : forall cfg st s b, clients (put_back cfg st s b) = clients st.
Proof. intros. unfold put_back. destruct b; [apply notify_cases; reflexivity|apply clients_put_idle]. Qed.

Lemma nih_set : forall st c v, no_idle_hold st -> (forall s, v <> Holding s IdleHeld) -> forall d s, upd (clients st) c v d <> Holding s IdleHeld.
Proof. intros st c v H V d s. apply upd_cases; intros _; [apply V|apply H]. Qed.

Lemma nih_try_get : forall cfg st c n, no_idle_hold st -> no_idle_hold (try_get cfg st c n).
Proof.
  intros cfg st c n H. unfold try_get. destruct (idleq st) as [|s rest]; [destruct (permit _)|];
    cbn; intros d s'; apply nih_set; (exact H || discriminate).
Qed.

Lemma step_no_idle_hold : forall cfg st o,
  session_mode cfg = false -> f14_mutant cfg = false -> no_idle_hold st -> no_idle_hold (step cfg st o).
Proof.
  intros cfg st o SM NI H. destruct (step_cases cfg st o) as [->|S]; [exact H|].
  destruct S as [c HC|c K|PP|PP|c v W V|c s ph ph' HC PH|c s ph b v HC V|c HC|s|s I]; try exact H;
    try (apply nih_try_get, H); intros d s'.
  - rewrite clients_put_idle. apply H.
  - apply nih_set; [exact H|destruct V; subst; discriminate].
  - (* the phase is [IdleHeld] only in session mode or in the mutant *)
    apply nih_set; [exact H|]. intros s0 E. inversion E; subst. destruct PH; congruence.
  - unfold release. rewrite clients_put_back. apply nih_set; [exact H|destruct V; subst; discriminate].
  - apply nih_set; [exact H|discriminate].
Qed.

Lemma no_idle_hold_lemma : forall cfg ops,
  session_mode cfg = false -> f14_mutant cfg = false -> no_idle_hold (run cfg ops).
Proof.
  intros cfg ops SM NM. apply (run_from_ind cfg no_idle_hold); [intros; apply step_no_idle_hold; assumption|].
  intros c s; discriminate.
Qed.

(** the F14 witness, for the MUTANT (the code before a7d476c): pool of one connection,
    transaction mode; client 0 sends an intercepted Parse/Bind/Execute/Sync, gets its fake reply
    and sits idle HOLDING connection 0; client 1's checkout waits and times out although nobody
    is in a transaction.  In the model of the code that exists the same ops leave client 0 at
    [Holding 0 Fresh] only because InterceptHold is not enabled there — the real client never
    checks out for such a batch at all. *)
Definition f14_cfg : config := mkConfig 1 0 Lifo false true.
Definition f14_ops : list op :=
  [Checkout 0; ConnEstablished; Retry 0; InterceptHold 0; Checkout 1; WaitTimeout 1 false].

