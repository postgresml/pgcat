(** C04 — server connections are bounded by pool_size, never leaked; waiters are served.
    Property theorems; the lemmas they rest on are in Proofs.v. *)
From Coq Require Import Arith Bool List Lia.
From PV Require Import PoolCap.Model PoolCap.Proofs.
Import ListNotations.

(** After ANY history (any number of clients, any pool size / mode / queue strategy, any
    interleaving of checkouts, wake-ups, releases, exits, timeouts, connection deaths): the
    connections the pool manages plus those being established never exceed max_size, and the
    pool's counter is exactly idle + held (nothing is counted that nobody has). *)
Theorem c04_bound : forall cfg ops,
  let st := run cfg ops in
  num_conns st + pending st <= max_size cfg /\
  num_conns st = length (idleq st) + length (held st) /\
  length (idleq st) + length (held st) + pending st <= max_size cfg.
Proof.
  intros cfg ops st. destruct (run_inv cfg ops) as [CAP CNT _ _ _ _ _ _ _]. fold st in CAP, CNT. lia.
Qed.
Print Assumptions c04_bound.

(** A connection has at most one holder, a task holds at most one connection, the guard list
    agrees with the tasks' own state, a held connection is not in the idle queue, and the idle
    queue has no duplicates. *)
Theorem c04_exclusive : forall cfg ops s c1 c2,
  let st := run cfg ops in
  (In (s, c1) (held st) -> In (s, c2) (held st) -> c1 = c2) /\
  (forall s2, In (s, c1) (held st) -> In (s2, c1) (held st) -> s = s2) /\
  (In (s, c1) (held st) <-> exists ph, clients st c1 = Holding s ph) /\
  (In (s, c1) (held st) -> ~ In s (idleq st)) /\
  NoDup (idleq st).
Proof.
  intros cfg ops s c1 c2 st. destruct (run_inv cfg ops) as [_ _ L _ O _ _ _ _]. fold st in L, O.
  (* [L : NoDup (idleq st ++ map fst (held st))] gives the first and the last two clauses *)
  pose proof (NoDup_app_swap _ _ _ L) as L'.
  repeat split; try apply O.
  - exact (NoDup_fst_fun _ _ _ s c1 c2 (NoDup_app_r _ _ _ L)).
  - intros s2 A B. apply O in A as [p A]. apply O in B as [q B]. congruence.
  - intros A. apply (NoDup_app_disjoint _ _ _ s L'), (in_map fst _ _ A).
  - exact (NoDup_app_r _ _ _ L').
Qed.
Print Assumptions c04_exclusive.

(** No leak: whenever every task is at the outer loop (or gone) no connection is in use, nobody
    is registered as a waiter, and every connection the pool counts is idle. *)
Theorem c04_no_leak : forall cfg ops,
  let st := run cfg ops in
  (forall c, clients st c = NoServer \/ clients st c = Gone) ->
  held st = [] /\ waiters st = [] /\ woken st = [] /\ num_conns st = length (idleq st).
Proof. intros cfg ops. exact (quiescent_lemma cfg (run cfg ops) (run_inv cfg ops)). Qed.
Print Assumptions c04_no_leak.

(** ... and the full capacity is obtainable again: max_size distinct clients that check out one
    after the other (the environment only completes the connection attempts the pool itself
    starts) all hold a connection at the same time. *)
Theorem c04_capacity_restored : forall cfg ops cs,
  let st := run cfg ops in
  (forall c, clients st c = NoServer \/ clients st c = Gone) ->
  NoDup cs -> (forall c, In c cs -> clients st c = NoServer) -> length cs = max_size cfg ->
  let st' := acquire_all cfg st cs in
  (forall c, In c cs -> exists s, clients st' c = Holding s Fresh) /\
  length (held st') = max_size cfg /\ idleq st' = [] /\ num_conns st' = max_size cfg /\
  exists ops', st' = run cfg (ops ++ ops') /\
     (forall o, In o ops' -> match o with Checkout _ | Retry _ | ConnEstablished => True | _ => False end).
Proof.
  intros cfg ops cs st Q ND NS LEN.
  destruct (capacity_lemma cfg st cs (run_inv cfg ops) Q ND NS LEN) as (A & B & C & D & ops' & E & P).
  repeat split; try assumption. exists ops'. rewrite run_app. split; assumption.
Qed.
Print Assumptions c04_capacity_restored.

(** Waiters are served, FIFO: if c registered first and a connection comes back in good state,
    c is the one that is woken and it gets exactly that connection. *)
Theorem c04_waiter_served_release : forall cfg ops c rest c' s ph o,
  let st := run cfg ops in
  waiters st = c :: rest -> woken st = [] -> idleq st = [] -> clients st c' = Holding s ph ->
  (o = TxnEndRelease c' false \/ exists how, o = ExitHolding c' how false) ->
  let st1 := step cfg st o in
  waiters st1 = rest /\ woken st1 = [c] /\ idleq st1 = [s] /\
  clients (step cfg st1 (Retry c)) c = Holding s Fresh /\ idleq (step cfg st1 (Retry c)) = [].
Proof. intros cfg ops c rest c' s ph o. exact (served_on_release cfg (run cfg ops) c rest c' s ph o). Qed.
Print Assumptions c04_waiter_served_release.

(** If the connection comes back broken it is closed (count decremented), the woken waiter asks
    for a replacement (one is being established) and re-registers at the back; the new
    connection goes to the waiter then first in line — a waiter is served, the freed capacity
    is not lost. *)
Theorem c04_waiter_served_close : forall cfg ops c rest c' s ph o,
  let st := run cfg ops in
  waiters st = c :: rest -> woken st = [] -> idleq st = [] -> clients st c' = Holding s ph ->
  (o = TxnEndRelease c' true \/ exists how, o = ExitHolding c' how true) ->
  let st1 := step cfg st o in
  let st2 := step cfg st1 (Retry c) in
  let st3 := step cfg st2 ConnEstablished in
  let w := hd c (rest ++ [c]) in
  num_conns st1 = num_conns st - 1 /\ woken st1 = [c] /\
  waiters st2 = rest ++ [c] /\ 0 < pending st2 /\
  idleq st3 = [next_sid st] /\ woken st3 = [w] /\ In w (c :: rest) /\
  clients (step cfg st3 (Retry w)) w = Holding (next_sid st) Fresh.
Proof.
  intros cfg ops c rest c' s ph o.
  exact (served_on_close cfg (run cfg ops) c rest c' s ph o (run_inv cfg ops) (run_invW cfg ops)).
Qed.
Print Assumptions c04_waiter_served_close.

(** No lost wake-up, under every interleaving (newcomers may overtake): while somebody is
    registered in the wait list, every idle connection has a notified getter on its way, and the
    Notify holds no stale permit. *)
Theorem c04_no_lost_wakeup : forall cfg ops,
  let st := run cfg ops in
  (waiters st <> [] -> length (idleq st) <= length (woken st)) /\
  (waiters st <> [] -> permit st = false).
Proof. intros cfg ops. destruct (run_invW cfg ops) as [A B]. split; assumption. Qed.
Print Assumptions c04_no_lost_wakeup.

(** A waiter that times out is back at the outer loop, holds nothing, is registered nowhere,
    the accounting is unchanged, and it may check out again ... *)
Theorem c04_timeout_usable : forall cfg ops c,
  let st := run cfg ops in
  In c (waiters st) ->
  let st1 := step cfg st (WaitTimeout c false) in
  Inv cfg st1 /\ clients st1 c = NoServer /\ ~ In c (waiters st1) /\ ~ In c (woken st1) /\
  num_conns st1 = num_conns st /\ pending st1 = pending st /\ idleq st1 = idleq st /\ held st1 = held st /\
  enabled cfg st1 (Checkout c) = true.
Proof. intros cfg ops c. exact (timeout_lemma cfg (run cfg ops) c (run_inv cfg ops)). Qed.
Print Assumptions c04_timeout_usable.

(** ... and a checkout by a task at the outer loop is granted at once when a connection is idle. *)
Theorem c04_checkout_grants_idle : forall cfg st c s rest,
  clients st c = NoServer -> idleq st = s :: rest ->
  clients (step cfg st (Checkout c)) c = Holding s Fresh /\ idleq (step cfg st (Checkout c)) = rest.
Proof.
  intros cfg st c s rest HC I. rewrite step_checkout, (try_get_idle _ _ _ _ s rest) by assumption.
  cbn. rewrite upd_same. split; reflexivity.
Qed.
Print Assumptions c04_checkout_grants_idle.

(** Transaction mode, the code that exists ([f14_mutant cfg = false], i.e. since a7d476c): no task
    ever sits at the client read holding a connection outside a transaction — for every history,
    no class excepted. *)
Theorem c04_no_idle_hold : forall cfg ops,
  session_mode cfg = false -> f14_mutant cfg = false ->
  forall c s, clients (run cfg ops) c <> Holding s IdleHeld.
Proof. exact no_idle_hold_lemma. Qed.
Print Assumptions c04_no_idle_hold.

(** The mutant = the code before a7d476c (finding F14, fixed): there the property fails. *)
Theorem c04_no_idle_hold_mutant_refuted :
  session_mode f14_cfg = false /\ f14_mutant f14_cfg = true /\
  clients (run f14_cfg f14_ops) 0 = Holding 0 IdleHeld /\
  clients (run f14_cfg f14_ops) 1 = NoServer /\ idleq (run f14_cfg f14_ops) = [] /\
  ~ no_idle_hold (run f14_cfg f14_ops).
Proof.
  assert (E : clients (run f14_cfg f14_ops) 0 = Holding 0 IdleHeld) by (vm_compute; reflexivity).
  repeat split; try exact E; try (vm_compute; reflexivity). intros H. exact (H 0 0 E).
Qed.
Print Assumptions c04_no_idle_hold_mutant_refuted.

(** * Non-vacuity: 3 clients, pool of 2 (transaction mode, LIFO) *)
Definition ex_cfg : config := mkConfig 2 0 Lifo false false.
Definition ex_ops1 : list op :=
  [Checkout 0; ConnEstablished; Retry 0; Exchange 0;      (* client 0: BEGIN on connection 0 *)
   Checkout 1; ConnEstablished; Retry 1; Exchange 1;      (* client 1: BEGIN on connection 1 *)
   Checkout 2].                                           (* client 2 has to wait; no third connection *)

Example ex_third_client_waits :
  view (run ex_cfg ex_ops1) [0; 1; 2] =
  (2, 0, [], ([2], []), [(0, Holding 0 InTxn); (1, Holding 1 InTxn); (2, Waiting)], []).
Proof. vm_compute. reflexivity. Qed.

Example ex_waiter_served_on_commit :
  view (run ex_cfg (ex_ops1 ++ [TxnEndRelease 0 false; Retry 2; Exchange 2])) [0; 1; 2] =
  (2, 0, [], ([], []), [(0, NoServer); (1, Holding 1 InTxn); (2, Holding 0 InTxn)], []).
Proof. vm_compute. reflexivity. Qed.

Example ex_waiter_times_out_and_returns :
  view (run ex_cfg (ex_ops1 ++ [WaitTimeout 2 false; TxnEndRelease 1 false; Checkout 2])) [0; 1; 2] =
  (2, 0, [], ([], []), [(0, Holding 0 InTxn); (1, NoServer); (2, Holding 1 Fresh)], []).
Proof. vm_compute. reflexivity. Qed.

(** a panic inside a transaction closes the connection; the waiter gets a NEW one (number 2) *)
Example ex_broken_connection_replaced :
  view (run ex_cfg (ex_ops1 ++ [ExitHolding 1 Panic true; Retry 2; ConnEstablished; Retry 2])) [0; 1; 2] =
  (2, 0, [], ([], []), [(0, Holding 0 InTxn); (1, Gone); (2, Holding 2 Fresh)], []).
Proof. vm_compute. reflexivity. Qed.

(** everybody leaves: nothing in use, both connections idle, and two newcomers get them at once *)
Example ex_all_leave_capacity_back :
  let st := run ex_cfg (ex_ops1 ++ [WaitTimeout 2 true; ExitHolding 0 XTerminate false; TxnEndRelease 1 false; Disconnect 1]) in
  view st [0; 1; 2] = (2, 0, [1; 0], ([], []), [(0, Gone); (1, Gone); (2, Gone)], [])
  /\ view (acquire_all ex_cfg st [7; 8]) [7; 8] = (2, 0, [], ([], []), [(7, Holding 1 Fresh); (8, Holding 0 Fresh)], []).
Proof. vm_compute. split; reflexivity. Qed.

(** bb8's wait list rotates on a closed connection: pool of 1, [1; 2] wait, the holder panics in
    its transaction: 2 is served before 1 (observed identically on the implementation). *)
Example ex_rotation_on_close :
  view (run (mkConfig 1 0 Lifo false false)
         [Checkout 0; ConnEstablished; Retry 0; Exchange 0; Checkout 1; Checkout 2;
          ExitHolding 0 Panic true; Retry 1; ConnEstablished; Retry 2]) [0; 1; 2] =
  (1, 0, [], ([1], []), [(0, Gone); (1, Waiting); (2, Holding 1 Fresh)], []).
Proof. vm_compute. reflexivity. Qed.

(** session mode keeps the connection between transactions — by definition, not a leak *)
Example ex_session_mode_keeps :
  view (run (mkConfig 1 0 Lifo true false) [Checkout 0; ConnEstablished; Retry 0; Exchange 0; SessionModeKeep 0]) [0] =
  (1, 0, [], ([], []), [(0, Holding 0 IdleHeld)], []).
Proof. vm_compute. reflexivity. Qed.
