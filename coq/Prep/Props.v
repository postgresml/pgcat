(** C08 — property theorems only.  Each is [exact <lemma>] or derived from the lemmas of
    CodecProofs.v / CacheProofs.v, and audited with [Print Assumptions]; [Example]s validate the specification and record refuted
    strengthenings (with their concrete witnesses). *)
From Coq Require Import ZArith NArith List Bool Lia.
From PV Require Import Prep.Codec Prep.CodecProofs Prep.Cache Prep.CacheProofs Prep.CacheObs.
Import ListNotations.
Open Scope Z_scope.

(** * Layer 1 — codec *)

(** A well-formed Parse frame [b], decoded, renamed to [m] (what [Parse::rewrite] does) and
    re-encoded (what [buffer_parse] sends on) is [b] with the name replaced and the length
    field adjusted — byte for byte, in builds with and without overflow checks — and its
    cache key is unchanged. *)
Theorem c08_parse_rename_only_name_and_len : forall chk b m,
  parse_canonical b = true -> has0 m = false -> blen m < 2147483648 ->
  exists p, decode_parse b = Ok p /\
            splice_name 0 0 b m = Some (match encode_parse chk (rename_parse p m) with Ok e => e | _ => [] end) /\
            (exists e, encode_parse chk (rename_parse p m) = Ok e) /\
            hkey (rename_parse p m) = hkey p.
Proof.
  intros chk b m Hc Hm Hlen. unfold parse_canonical in Hc.
  destruct b as [|code [|l1 [|l2 [|l3 [|l4 s2]]]]]; try discriminate.
  destruct (split0 s2) as [[nm s3]|] eqn:E2; try discriminate.
  destruct (split0 s3) as [[q s4]|] eqn:E3; try discriminate.
  destruct s4 as [|n1 [|n2 s5]]; try discriminate.
  apply split0_spec in E2 as [-> Hn0]. apply split0_spec in E3 as [-> Hq0].
  apply andb_prop in Hc as [[[[Hnp%Z.leb_le Hs5%Z.eqb_eq]%andb_prop Hl%Z.eqb_eq]%andb_prop Hb]%andb_prop Hcn%cleanb_eq].
  cbn [forallb] in Hb. repeat (rewrite forallb_app in Hb; cbn [forallb] in Hb).
  apply andb_prop in Hb as [_ [Hb1 [Hb2 [Hb3 [Hb4 [_ [_ [_ [_ [Hn1 [Hn2 Hb5
    ]%andb_prop]%andb_prop]%andb_prop]%andb_prop]%andb_prop]%andb_prop]%andb_prop]%andb_prop]%andb_prop]%andb_prop].
  (* the types: [s5] has the right length, so it is read to its end, and it consists of bytes, so
     what is read re-encodes to it *)
  destruct (get_n_i32_total (Z.to_nat (i16_of n1 n2)) s5) as [tys Ht]; [lia|].
  destruct (get_n_i32_dec _ _ _ _ Hb5 Ht) as [Hs5' _]. rewrite app_nil_r in Hs5'.
  eexists. split; [erewrite decode_parse_frame, Hcn by eassumption; reflexivity|].
  destruct (i32_of_spec l1 l2 l3 l4 Hb1 Hb2 Hb3 Hb4) as [Hlr _]. destruct (i16_of_spec n1 n2 Hn1 Hn2) as [Hnr _].
  autorewrite with blen in Hl. pose proof (blen_nonneg nm). pose proof (blen_nonneg q).
  rewrite encode_parse_ok; cbn [rename_parse p_code p_name p_query p_np p_types];
    [| assumption | assumption | assumption | unfold two64; lia].
  split; [|split; [eexists; reflexivity | reflexivity]].
  unfold splice_name. cbn [take_n skip_strings]. rewrite split0_app by assumption. cbn [app].
  rewrite be16_i16_of, <- Hs5' by assumption. cbn [app].
  replace (i32_of l1 l2 l3 l4 + blen m - blen nm) with (4 + (blen m + 1) + (blen q + 1) + 2 + 4 * i16_of n1 n2) by lia.
  reflexivity.
Qed.
Print Assumptions c08_parse_rename_only_name_and_len.

(** [Bind::rename] on a frame with a terminated portal and statement name: the result is the
    splice for EVERY tail (format codes, parameters, result formats are copied verbatim), and
    [Bind::get_name] reads the old name. *)
Theorem c08_bind_rename_only_name_and_len : forall chk code l1 l2 l3 l4 portal old tail m,
  has0 portal = false -> has0 old = false -> has0 m = false ->
  let len := i32_of l1 l2 l3 l4 in
  in_i32 (len + blen m) = true -> 0 <= len + blen m - blen old < 2147483648 ->
  let buf := code :: l1 :: l2 :: l3 :: l4 :: portal ++ 0%N :: old ++ 0%N :: tail in
  rename_bind chk buf m = Ok (code :: be32 (len + blen m - blen old) ++ portal ++ 0%N :: m ++ 0%N :: tail)
  /\ splice_name 0 1 buf m = Some (code :: be32 (len + blen m - blen old) ++ portal ++ 0%N :: m ++ 0%N :: tail)
  /\ bind_get_name buf = Ok (lossy old).
Proof.
  intros chk code l1 l2 l3 l4 portal old tail m Hp0 Ho0 Hm0 len H1 H2 buf.
  subst buf. repeat split.
  - unfold rename_bind. cbn [get_u8 get_i32 bind].
    (* [read_raw]: since 15e9536 portal and old name are copied as sent, whatever their bytes *)
    rewrite read_raw_term by assumption. cbn [bind].
    rewrite read_raw_term by assumption. cbn [bind]. fold len.
    rewrite ck32_in by assumption. cbn [bind].
    rewrite ck32_in by (apply in_i32_iff; lia). cbn [bind].
    rewrite (proj2 (Z.ltb_ge _ 0)) by lia. cbn [andb]. rewrite Hm0. reflexivity.
  - unfold splice_name. cbn [take_n skip_strings]. rewrite split0_app by assumption.
    cbn [skip_strings]. rewrite split0_app by assumption. fold len.
    cbn [app]. rewrite <- app_assoc. reflexivity.
  - unfold bind_get_name. cbn [advance5 bind].
    rewrite read_string_term by assumption. cbn [bind].
    rewrite read_string_term by assumption. reflexivity.
Qed.
Print Assumptions c08_bind_rename_only_name_and_len.

Theorem c08_describe_rename_only_name_and_len : forall b m,
  describe_canonical b = true -> has0 m = false ->
  exists p, decode_describe b = Ok p /\
            splice_name 1 0 b m = Some (match encode_describe (rename_describe p m) with Ok e => e | _ => [] end) /\
            (exists e, encode_describe (rename_describe p m) = Ok e).
Proof.
  intros b m Hc Hm. unfold describe_canonical in Hc.
  destruct b as [|code [|l1 [|l2 [|l3 [|l4 [|t s3]]]]]]; try discriminate.
  destruct (split0 s3) as [[nm [|? ?]]|] eqn:E; try discriminate.
  apply split0_spec in E as [-> Hn0]. apply andb_prop in Hc as [[Hl%Z.eqb_eq _]%andb_prop Hcn%cleanb_eq].
  eexists. split; [rewrite decode_describe_frame, Hcn by assumption; reflexivity|].
  unfold encode_describe, rename_describe. cbn [d_name d_code d_target]. rewrite Hm.
  split; [|eexists; reflexivity].
  unfold splice_name. cbn [take_n skip_strings]. rewrite split0_app by assumption. cbn [app].
  autorewrite with blen in Hl. change (blen []) with 0 in Hl.
  replace (i32_of l1 l2 l3 l4 + blen m - blen nm) with (4 + 1 + (blen m + 1)) by lia. reflexivity.
Qed.
Print Assumptions c08_describe_rename_only_name_and_len.

(** Round trips: a well-formed value encodes to a frame that decodes to itself (for Parse and
    Describe / Close a canonical one). *)
Theorem c08_roundtrip_parse : forall chk p, parse_wf p = true ->
  exists e, encode_parse chk p = Ok e /\ decode_parse e = Ok p /\ parse_canonical e = true.
Proof.
  intros chk p H. unfold parse_wf in H.
  apply andb_prop in H as [[[[[[[[[[[[Hc Hbn]%andb_prop Hbq]%andb_prop Hn0%negb_true_iff]%andb_prop
    Hq0%negb_true_iff]%andb_prop Hcn]%andb_prop _]%andb_prop Hnp0%Z.leb_le]%andb_prop Hnp1%Z.ltb_lt]%andb_prop
    Htl%Z.eqb_eq]%andb_prop Hti]%andb_prop Hl%Z.eqb_eq]%andb_prop Hli].
  destruct (count_ok _ _ Htl Hnp1) as [Hnp Enp].
  destruct (i32_of_be32 _ Hli) as (a & b & c & d & Eb & Hz & Ha & Hb & Hc' & Hd).
  destruct (i16_of_be16 _ Hnp) as (n1 & n2 & En & Hy & Hy1 & Hy2).
  pose proof (flat_be32_len (p_types p)) as Hfl. rewrite Htl in Hfl.
  eexists. split; [|split].
  - apply in_i32_iff in Hli. rewrite encode_parse_ok by (try assumption; unfold two64; lia).
    rewrite <- Hl, Eb, En. reflexivity.
  - cbn [app]. rewrite decode_parse_frame with (tys := p_types p) (r := []); try assumption.
    + rewrite Hz, Hy, (cleanb_eq _ Hcn). destruct p; reflexivity.
    + rewrite Hy, Enp, <- (app_nil_r (flat_map be32 _)). apply (get_n_enc _ _ _ get_i32_be32), Hti.
  - unfold parse_canonical. cbn [app]. rewrite !split0_app by assumption. rewrite Hy, Hz, Hfl, Hcn.
    cbn [forallb]. repeat (rewrite forallb_app; cbn [forallb]).
    rewrite Hc, Ha, Hb, Hc', Hd, Hbn, Hbq, Hy1, Hy2, flat_be32_bytes.
    autorewrite with blen. rewrite Hfl.
    repeat (apply andb_true_intro; split); try reflexivity; [apply Z.leb_le | apply Z.eqb_eq..]; lia.
Qed.
Print Assumptions c08_roundtrip_parse.

Theorem c08_roundtrip_bind : forall chk p, bind_wf p = true ->
  exists e, encode_bind chk p = Ok e /\ decode_bind e = Ok p.
Proof.
  intros chk p H. unfold bind_wf in H.
  apply andb_prop in H as [[[[[[[[[[[[[[[[[[[[_ _]%andb_prop _]%andb_prop
    Hp0%negb_true_iff]%andb_prop Hs0%negb_true_iff]%andb_prop Hcp%cleanb_eq]%andb_prop Hcs%cleanb_eq]%andb_prop
    Hf0%Z.leb_le]%andb_prop Hf1%Z.ltb_lt]%andb_prop Hfl%Z.eqb_eq]%andb_prop Hfi]%andb_prop
    _]%andb_prop Hv1%Z.ltb_lt]%andb_prop Hvl%Z.eqb_eq]%andb_prop Hvi]%andb_prop
    Hr0%Z.leb_le]%andb_prop Hr1%Z.ltb_lt]%andb_prop Hrl%Z.eqb_eq]%andb_prop Hri]%andb_prop
    Hl%Z.eqb_eq]%andb_prop Hli].
  destruct (count_ok _ _ Hfl Hf1) as [If Ef], (count_ok _ _ Hvl Hv1) as [Iv Ev], (count_ok _ _ Hrl Hr1) as [Ir Er].
  eexists. split.
  - rewrite encode_bind_ok, <- Hl; [reflexivity | try assumption..].
    apply in_i32_iff in Hli. unfold two64. lia.
  - unfold decode_bind, decode_bind_k. cbn [get_u8 bind].
    rewrite get_i32_be32 by assumption. cbn [bind].
    rewrite read_string_term by assumption. cbn [bind].
    rewrite read_string_term by assumption. cbn [bind].
    rewrite get_i16_be16 by assumption. cbn [bind].
    rewrite Ef, (get_n_enc _ _ _ get_i16_be16) by assumption. cbn [bind].
    rewrite get_i16_be16 by assumption. cbn [bind].
    rewrite Ev, (get_n_enc _ _ _ get_param_enc) by assumption. cbn [bind].
    rewrite get_i16_be16 by assumption. cbn [bind].
    rewrite Er, <- (app_nil_r (flat_map be16 _)), (get_n_enc _ _ _ get_i16_be16) by assumption. cbn [bind].
    rewrite Hcp, Hcs. destruct p; reflexivity.
Qed.
Print Assumptions c08_roundtrip_bind.

(* Describe and Close share the layout ([decode_close = decode_describe]) *)
Theorem c08_roundtrip_describe_close : forall p, desc_wf p = true ->
  exists e, encode_describe p = Ok e /\ decode_describe e = Ok p /\ describe_canonical e = true.
Proof.
  intros p H. unfold desc_wf in H.
  apply andb_prop in H as [[[[[[Hc Ht]%andb_prop Hbn]%andb_prop Hn0%negb_true_iff]%andb_prop Hcn]%andb_prop
    Hl%Z.eqb_eq]%andb_prop Hli].
  destruct (i32_of_be32 _ Hli) as (a & b & c & d & Eb & Hz & Ha & Hb & Hc' & Hd).
  unfold encode_describe. rewrite Hn0, <- Hl, Eb. eexists. split; [reflexivity|]. cbn [app]. split.
  - rewrite decode_describe_frame, Hz, (cleanb_eq _ Hcn) by assumption. destruct p; reflexivity.
  - unfold describe_canonical. rewrite split0_app by assumption. rewrite Hz, Hcn.
    cbn [forallb]. rewrite forallb_app. cbn [forallb]. rewrite Hc, Ha, Hb, Hc', Hd, Ht, Hbn.
    autorewrite with blen. change (blen []) with 0.
    repeat (apply andb_true_intro; split); try reflexivity. apply Z.eqb_eq. lia.
Qed.
Print Assumptions c08_roundtrip_describe_close.

(** The cache key after the repair (f0b6d0f) determines the statement: as a triple, and as
    the byte stream SipHash consumes. *)
Theorem c08_hkey_injective : forall a b : parse,
  hkey a = hkey b -> p_query a = p_query b /\ p_np a = p_np b /\ p_types a = p_types b.
Proof. unfold hkey. intros a b H. inversion H. auto. Qed.
Print Assumptions c08_hkey_injective.

Theorem c08_hstream_injective : forall q1 n1 t1 q2 n2 t2,
  Z.of_nat (length q1) < two64 -> Z.of_nat (length q2) < two64 -> in_i16 n1 = true -> in_i16 n2 = true ->
  forallb in_i32 t1 = true -> forallb in_i32 t2 = true ->
  Z.of_nat (length t1) < two64 -> Z.of_nat (length t2) < two64 ->
  hstream (q1, n1, t1) = hstream (q2, n2, t2) -> (q1, n1, t1) = (q2, n2, t2).
Proof.
  intros q1 n1 t1 q2 n2 t2 Hq1 Hq2 Hn1%in_i16_iff Hn2%in_i16_iff Ht1 Ht2 Hl1 Hl2 H. unfold hstream in H.
  (* the query text is length-prefixed (Vec<u8>::hash): no condition on its bytes *)
  apply (le_bytes_inj 8 0) in H as [Hq%Nat2Z.inj H]; [|split; [lia | assumption]..].
  apply app_inj_len in H as [-> H]; [|exact Hq].
  apply (le_bytes_inj 2 (-32768)) in H as [-> H]; [|assumption..].
  apply (le_bytes_inj 8 0) in H as [_ H]; [|split; [lia | assumption]..].
  rewrite (flat_le4_inj t1 t2) by assumption. reflexivity.
Qed.
Print Assumptions c08_hstream_injective.

(** Every decoder / name reader answers [Ok] or [Panic] on every byte string — never [Err],
    never stuck. *)
Theorem c08_decoders_total : forall b,
  ((exists p, decode_parse b = Ok p) \/ decode_parse b = Panic) /\
  ((exists p, decode_bind b = Ok p) \/ decode_bind b = Panic) /\
  ((exists p, decode_describe b = Ok p) \/ decode_describe b = Panic) /\
  ((exists p, decode_close b = Ok p) \/ decode_close b = Panic) /\
  ((exists n, parse_get_name b = Ok n) \/ parse_get_name b = Panic) /\
  ((exists n, bind_get_name b = Ok n) \/ bind_get_name b = Panic).
Proof.
  intros b. repeat split; apply noerr_cases;
    [apply decode_parse_noerr | apply decode_bind_noerr | apply decode_describe_noerr | apply decode_describe_noerr
    | apply parse_get_name_noerr | apply bind_get_name_noerr].
Qed.
Print Assumptions c08_decoders_total.

(* a decoder can only panic by running off the end: a frame shorter than its fixed part *)
Theorem c08_describe_close_panic_iff_short : forall b,
  (exists p, decode_describe b = Ok p) <-> (7 <= length b)%nat.
Proof.
  intros b. unfold decode_describe, decode_describe_k. split.
  - intros [p H]. destruct b as [|c [|l1 [|l2 [|l3 [|l4 [|t [|x s]]]]]]]; cbn in H; try discriminate. cbn. lia.
  - intros H. destruct b as [|c [|l1 [|l2 [|l3 [|l4 [|t [|x s]]]]]]]; cbn in H; try lia.
    cbn [get_u8 get_i32 bind]. unfold read_string.
    destruct (split0 (x :: s)) as [[? ?]|]; cbn [bind]; eauto.
Qed.
Print Assumptions c08_describe_close_panic_iff_short.

(** ** Specification validation, regressions and refuted strengthenings *)

(* "SELECT $1::int AS c" *)
Definition q_c : bytes := [83;69;76;69;67;84;32;36;49;58;58;105;110;116;32;65;83;32;99]%N.

(** Regression F4: the key hashed before f0b6d0f was NOT injective —
    ("SELECT $1::int AS c1", []) and ("SELECT $1::int AS c", [0]) had the same key. *)
Example c08_old_hkey_not_injective :
  old_hkey (q_c ++ [49%N], 0, []) = old_hkey (q_c, 1, [0]) /\
  hstream (q_c ++ [49%N], 0, []) <> hstream (q_c, 1, [0]).
Proof. split; [vm_compute; reflexivity | vm_compute; discriminate]. Qed.

(** The guards of the rename theorems are needed (each is a deviation from "only the name
    and the length change", with the concrete bytes):
    F8a — a Parse with bytes after the parameter types is silently trimmed;
    (F8 query text rewritten and F8b Bind::rename length: repaired by a7561f2 / 15e9536, see the
    regressions below; statement names are still keyed by their lossy rendering.) *)
Definition parse_a_sel1 (extra : bytes) : bytes :=   (* P, len, "a\0", "SELECT 1\0", 0 types, extra *)
  [80]%N ++ be32 (4 + 2 + 9 + 2 + blen extra) ++ [97;0; 83;69;76;69;67;84;32;49;0; 0;0]%N ++ extra.

Ltac vc := vm_compute; reflexivity.

Example c08_parse_trailing_bytes_dropped :
  let b := parse_a_sel1 [1;2;3]%N in
  exists p e sp, decode_parse b = Ok p /\ encode_parse true (rename_parse p [120%N]) = Ok e /\
              splice_name 0 0 b [120%N] = Some sp /\ beq_bytes sp e = false /\ blen sp = blen e + 3 /\ parse_canonical b = false.
Proof. cbv zeta. do 3 eexists. split; [vc|]. split; [vc|]. split; [vc|]. split; [vc|]. split; vc. Qed.

(* regression (a7561f2): query text that is not UTF-8 ("SELECT 'é'" in LATIN1) is kept byte for byte *)
Example c08_fixed_parse_non_utf8_query_kept :
  let b := [80]%N ++ be32 18 ++ [0; 83;69;76;69;67;84;32;39;233;39;0; 0;0]%N in
  exists p e, decode_parse b = Ok p /\ p_query p = [83;69;76;69;67;84;32;39;233;39]%N /\ parse_canonical b = true /\
              encode_parse true (rename_parse p [120%N]) = Ok e /\ splice_name 0 0 b [120%N] = Some e.
Proof. cbv zeta. do 2 eexists. split; [vc|]. split; [vc|]. split; [vc|]. split; vc. Qed.

(* regression (15e9536): Bind::rename with a non-UTF-8 statement name (FF) and portal (FE) is the splice *)
Example c08_fixed_bind_rename_non_utf8 :
  let b := [66]%N ++ be32 14 ++ [254;0; 255;0; 0;0;0;0;0;0]%N in
  let m := [80;71;67;65;84;95;49]%N in
  exists out, rename_bind true b m = Ok out /\ splice_name 0 1 b m = Some out /\ firstn 4 (skipn 1 out) = be32 20 /\ blen out - 1 = 20.
Proof. cbv zeta. eexists. split; [vc|]. split; [vc|]. split; vc. Qed.

(* residual (known F8-lossy-utf8): statement NAMES are still keyed by their lossy rendering — two
   different names of one client can read as the same name *)
Example c08_names_still_lossy :
  parse_get_name ([80]%N ++ be32 8 ++ [233;0; 0; 0;0]%N) = parse_get_name ([80]%N ++ be32 8 ++ [232;0; 0; 0;0]%N).
Proof. vm_compute. reflexivity. Qed.

(** Latent (the Bind encoder is not on pgcat's runtime path; the Parse encoder is):
    [as usize] of NULL's -1 or of a negative count overflows — a panic with overflow checks,
    a length field that is too small without. *)
Example c08_bind_null_param_encode :
  let b := [66]%N ++ be32 16 ++ [0; 0; 0;0; 0;1; 255;255;255;255; 0;0]%N in
  exists p e, decode_bind b = Ok p /\ encode_bind true p = Panic /\
              encode_bind false p = Ok e /\ firstn 4 (skipn 1 e) = be32 15 /\ blen e - 1 = 16.
Proof. cbv zeta. do 2 eexists. split; [vc|]. split; [vc|]. split; [vc|]. split; vc. Qed.

Example c08_parse_negative_count_encode :   (* num_params = -1 *)
  let b := [80]%N ++ be32 17 ++ [97;0; 83;69;76;69;67;84;32;49;0; 255;255]%N in
  exists p e, decode_parse b = Ok p /\ p_np p = -1 /\ encode_parse true p = Panic /\
              encode_parse false p = Ok e /\ firstn 4 (skipn 1 e) = be32 13 /\ blen e - 1 = 17.
Proof. cbv zeta. do 2 eexists. split; [vc|]. split; [vc|]. split; [vc|]. split; [vc|]. split; vc. Qed.

(** Non-vacuity: a canonical frame and a well-formed value exist and reach the theorems. *)
Example c08_canonical_nonempty : parse_canonical (parse_a_sel1 []) = true /\
  describe_canonical ([68]%N ++ be32 7 ++ [83; 97; 0]%N) = true /\
  parse_wf (mkParse 80%N 17 [97%N] [83;69;76;69;67;84;32;49]%N 0 []) = true.
Proof. vm_compute. repeat split; reflexivity. Qed.

(** * Layer 2 — the cache against a direct connection *)
Close Scope Z_scope.

(** For ALL histories (no guard, no hypothesis on the hash): a server-side name PGCAT_g denotes
    one statement on every backend, in every client map — different statements never share a
    server-side statement, and what a client calls its statements never matters server-side. *)
Theorem c08_names_determine_statement : forall K ops w, w = fst (run K world0 ops) ->
  (forall s1 s2 g st1 st2, In (g, st1) (btab (servers w s1)) -> In (g, st2) (btab (servers w s2)) -> st1 = st2) /\
  (forall c s n g st1 st2, In (n, (g, st1)) (cmap (clients w c)) -> In (g, st2) (btab (servers w s)) -> st1 = st2) /\
  (forall c1 c2 n1 n2 g st1 st2, In (n1, (g, st1)) (cmap (clients w c1)) -> In (n2, (g, st2)) (cmap (clients w c2)) -> st1 = st2).
Proof. exact names_determine_statement. Qed.
Print Assumptions c08_names_determine_statement.

(** For every multi-client program, every cache size >= 1, every assignment of transactions to
    server connections: if no two statements of the program collide under the hash and the
    program passes the (computable, specification-only) guard of Cache.v (good statements;
    Bind/Describe of existing names, Execute after Bind, Close of named statements; at most [cs]
    server-side statements needed per batch), then each client
    receives, Sync by Sync, what a direct connection would have sent: the same statement run by
    every Execute, described by every Describe, no error, the same acknowledgements. *)
Theorem c08_refines_direct : forall K ops,
  hash_collision_free K ops -> guard K ops = true -> model_obs K ops = spec_obs K ops.
Proof. exact refines_direct. Qed.
Print Assumptions c08_refines_direct.

Theorem c08_clients_independent : forall K ops c,
  hash_collision_free K ops -> guard K ops = true -> guard K (proj c ops) = true ->
  filter (fun o => obs_client o =? c) (model_obs K ops) = model_obs K (proj c ops).
Proof. exact clients_independent. Qed.
Print Assumptions c08_clients_independent.

(** Evicted statements are closed on the backend and re-prepared on demand: after a guarded
    program every server connection's cache is exactly the set of names its backend holds (at
    most [cs] of them, each with the statement the name stands for); re-preparation is the
    absence of errors in [c08_refines_direct]. *)
Theorem c08_evicted_closed_and_reprepared : forall K ops w,
  hash_collision_free K ops -> guard K ops = true -> w = fst (run K world0 ops) ->
  forall s, NoDup (lru (servers w s)) /\ length (lru (servers w s)) <= cs K /\
            (forall g, In g (lru (servers w s)) <-> alookup g (btab (servers w s)) <> None) /\
            (forall g st, In (g, st) (btab (servers w s)) -> nth_error (gdef w) g = Some st).
Proof. exact evicted_closed. Qed.
Print Assumptions c08_evicted_closed_and_reprepared.

(** Portals and statements are two name spaces (all states, no guard): a Close of a PORTAL —
    when it is buffered, in the 'S' arm, on the backend and in the specification — leaves the
    client map, the pool, every server cache and every statement table as they are (pgcat only
    forwards it); a Close of a STATEMENT leaves the backend's portals alone. *)
Theorem c08_portal_close_inert : forall K w c p a b,
  (forall c', cmap (clients (fst (step K w (CloseP c p))) c') = cmap (clients w c')) /\
  servers (fst (step K w (CloseP c p))) = servers w /\
  plru (fst (step K w (CloseP c p))) = plru w /\
  a_map (sitem K a (IClosePortal p)) = a_map a /\
  a_sv (sitem K a (IClosePortal p)) = a_sv a /\
  a_fwd (sitem K a (IClosePortal p)) = a_fwd a ++ [BCloseP p] /\
  a_syn (sitem K a (IClosePortal p)) = a_syn a /\
  b_tab (fst (bstep K b (BCloseP p))) = b_tab b /\
  b_portal (fst (bstep K b (BClose p))) = b_portal b /\
  d_tab (fst (dstep K (mkD (b_tab b) (b_portal b) (b_skip b)) (CloseP c p))) = b_tab b.
Proof. exact portal_close_inert. Qed.
Print Assumptions c08_portal_close_inert.

(** Named portals inside the guard of [c08_refines_direct]: portal and statement with the SAME
    name, Close('P') then use of the statement, Close('S') then Execute of the still-open portal,
    Describe('P'), several portals in one batch. *)
Example c08_portals_nonvacuous :
  agree (Kid 4) [Parse 0 1 10; Bind 0 1 1; Execute 0 1; CloseP 0 1; Bind 0 0 1; Execute 0 0; Sync 0 0; Bind 0 1 1; DescribeP 0 1; Execute 0 1; Sync 0 0] = (true, true) /\
  agree (Kid 4) [Parse 0 1 10; Parse 0 2 11; Bind 0 2 1; Bind 0 1 2; Close 0 1; Execute 0 2; Execute 0 1; CloseP 0 2; Sync 0 0; Bind 0 0 2; Execute 0 0; Sync 0 1] = (true, true) /\
  model_obs (Kid 4) [Parse 0 1 10; Bind 0 1 1; CloseP 0 1; Sync 0 0; Bind 0 0 1; Execute 0 0; Sync 0 0]
    = [NReplies 0 ([], (1, 1, 1, 1)); NReplies 0 ([RRow 10], (0, 1, 0, 1))] /\
  (* an Execute of a closed portal is an error on both sides (outside the guard) *)
  agree (Kid 4) [Parse 0 1 10; Bind 0 1 1; CloseP 0 1; Execute 0 1; Sync 0 0; Bind 0 0 1; Execute 0 0; Sync 0 0] = (false, true).
Proof. vm_compute. repeat split; reflexivity. Qed.

(** ** Non-vacuity: guarded programs with evictions, shared and shadowed names, several servers,
    names closed and re-prepared inside one batch, one statement bound many times with cache size 1 *)
Example c08_guard_nonvacuous :
  agree (Kid 1) [Parse 0 1 10; Sync 0 0; Parse 1 1 11; Sync 1 0; Parse 1 2 10; Bind 1 0 2; Execute 1 0; Sync 1 0; Bind 0 0 1; Execute 0 0; Sync 0 0] = (true, true) /\
  agree (Kid 4) [Parse 0 1 10; Parse 1 1 11; Sync 0 0; Sync 1 0; Bind 0 0 1; Execute 0 0; Sync 0 1; Bind 1 0 1; Execute 1 0; Sync 1 1] = (true, true) /\
  agree (Kid 2) [Parse 0 1 10; Parse 0 2 11; Sync 0 0; Bind 0 0 1; Execute 0 0; Bind 0 0 2; Execute 0 0; Sync 0 1; Close 0 1; Sync 0 1; Parse 0 1 12; Bind 0 0 1; Execute 0 0; Sync 0 0] = (true, true) /\
  agree (Kid 1) [Parse 0 1 10; Sync 0 0; Bind 0 0 1; Execute 0 0; Bind 0 0 1; Execute 0 0; Bind 0 0 1; Execute 0 0; Describe 0 1; Sync 0 0] = (true, true) /\
  model_obs (Kid 1) [Parse 0 1 10; Bind 0 0 1; Execute 0 0; Sync 0 0; Parse 0 2 11; Bind 0 0 2; Execute 0 0; Sync 0 0; Bind 0 0 1; Execute 0 0; Sync 0 0]
    = [NReplies 0 ([RRow 10], (1, 1, 0, 1)); NReplies 0 ([RRow 11], (1, 1, 0, 1)); NReplies 0 ([RRow 10], (0, 1, 0, 1))].
Proof. vm_compute. repeat split; reflexivity. Qed.

(** ** Regressions: the message sequences of the repaired defects F11a, F11b, F11c, F11d, F11f and
    the repaired half of F11g now behave like a direct connection ([agree K ops = (guard, equal)]). *)
Example c08_fixed_F11bcd_now_inside_the_guard :
  agree (Kid 8) [Parse 0 1 10; Sync 0 0; Close 0 1; Parse 0 1 11; Sync 0 0; Bind 0 0 1; Execute 0 0; Sync 0 0] = (true, true) /\
  agree (Kid 8) [Parse 0 1 10; Sync 0 0; Close 0 1; Parse 0 1 11; Bind 0 0 1; Execute 0 0; Sync 0 0; Parse 1 5 11; Bind 1 0 5; Execute 1 0; Sync 1 0] = (true, true) /\
  agree (Kid 8) [Parse 0 1 10; Sync 0 0; Bind 0 0 1; Execute 0 0; Close 0 1; Parse 0 1 11; Sync 0 1] = (true, true) /\
  agree (Kid 2) [Parse 0 0 10; Bind 0 0 0; Execute 0 0; Parse 0 0 11; Bind 0 0 0; Execute 0 0; Sync 0 0] = (true, true).
Proof. vm_compute. repeat split; reflexivity. Qed.
Example c08_fixed_F11a_F11f_F11g_agree_outside_the_guard :
  agree (Kid 8) [Parse 0 1 90; Parse 0 2 10; Sync 0 0; Parse 0 2 10; Sync 0 0; Bind 0 0 2; Execute 0 0; Sync 0 0] = (false, true) /\
  agree (Kid 8) [Parse 0 1 90; Parse 0 2 10; Sync 0 0; Parse 1 7 10; Bind 1 0 7; Execute 1 0; Sync 1 0] = (false, true) /\
  agree (Kid 4) [Parse 0 1 10; Sync 0 0; Parse 1 1 99; Bind 1 0 1; Execute 1 0; Sync 1 0; Bind 0 0 1; Execute 0 0; Sync 0 0] = (false, true) /\
  agree (Kid 2) [Parse 1 1 10; Sync 1 0; Parse 1 2 11; Sync 1 0; Parse 0 1 90; Sync 0 1; Bind 0 0 1; Execute 0 0; Sync 0 0;
                 Bind 1 0 1; Execute 1 0; Sync 1 0; Bind 1 0 1; Execute 1 0; Sync 1 0] = (false, true).
Proof. vm_compute. repeat split; reflexivity. Qed.

(** ** The hypothesis and every clause of the guard are needed: refuted strengthenings, each
    confirmed on the wire (props/c08.py WITNESSES; pgcat = this model, both differ from a direct
    connection). *)

(* without hash_collision_free: two statements with one hash share a server-side statement *)
Example c08_hash_collision_refuted :
  agree (Kcollide 4) [Parse 0 1 10; Sync 0 0; Parse 1 1 11; Bind 1 0 1; Execute 1 0; Sync 1 0] = (true, false).
Proof. vm_compute. reflexivity. Qed.

(* G4 (known F11e): a batch that needs more server-side statements than the cache holds *)
Example c08_gap_batch_larger_than_cache :
  agree (Kid 1) [Parse 0 1 10; Parse 0 2 11; Bind 0 0 1; Execute 0 0; Sync 0 0] = (false, false) /\
  agree (Kid 2) [Parse 0 1 10; Parse 0 2 11; Parse 0 3 12; Sync 0 0; Bind 0 0 1; Execute 0 0; Sync 0 0; Bind 0 0 1; Execute 0 0; Sync 0 0] = (false, false) /\
  (* the second program leaves a statement on the backend that the cache does not know *)
  (let w := fst (run (Kid 2) world0 [Parse 0 1 10; Parse 0 2 11; Parse 0 3 12; Sync 0 0]) in
   (lru (servers w 0), btab (servers w 0)) = ([2; 1], [(2, 12); (1, 11); (0, 10)])).
Proof. vm_compute. repeat split; reflexivity. Qed.

(* G1/G3 (known F11h): after an error PostgreSQL skips the rest of the batch; pgcat still applies
   it to the client map and acknowledges it.  [Close s1] after a failing Execute forgets s1 *)
Example c08_gap_rest_of_batch_not_skipped_after_error :
  agree (Kid 4) [Parse 0 1 10; Sync 0 0; Parse 0 2 95; Bind 0 0 2; Execute 0 0; Close 0 1; Sync 0 0; Bind 0 0 1; Execute 0 0; Sync 0 0] = (false, false) /\
  agree (Kid 4) [Parse 0 1 10; Sync 0 0; Parse 0 2 95; Bind 0 0 2; Execute 0 0; Parse 0 3 10; Sync 0 0; Bind 0 0 3; Execute 0 0; Sync 0 0] = (false, false).
Proof. vm_compute. split; reflexivity. Qed.

(* repaired by d9d0e8b / fc66d7a: an out-of-band error only answers for its own statement;
   statements prepared after a DEALLOCATE ALL in the same batch stay cached *)
Example c08_fixed_F11g_F11f3 :
  agree (Kid 4) [Parse 0 9 90; Sync 0 1; Parse 0 1 10; Bind 0 0 9; Execute 0 0; Sync 0 0; Parse 1 1 10; Bind 1 0 1; Execute 1 0; Sync 1 0] = (false, true) /\
  agree (Kid 4) [Parse 0 1 99; Bind 0 0 1; Execute 0 0; Parse 0 2 10; Sync 0 0; Parse 1 1 10; Bind 1 0 1; Execute 1 0; Sync 1 0] = (false, true).
Proof. vm_compute. split; reflexivity. Qed.

(* G3 and deliberate leniency: Bind of a name that does not exist answers E+Z and disconnects
   the client (a direct connection answers 26000 and carries on); Close of the unnamed statement
   is forwarded but the client map keeps it; re-Parse of a named statement without Close is
   accepted (PostgreSQL: 42P05) *)
Example c08_gap_unknown_name_disconnects :
  model_obs (Kid 4) [Bind 0 0 1; Execute 0 0; Sync 0 0; Parse 0 1 10; Sync 0 0] = [NKilled 0] /\
  spec_obs (Kid 4) [Bind 0 0 1; Execute 0 0; Sync 0 0; Parse 0 1 10; Sync 0 0] = [NReplies 0 ([RErr], (0, 0, 0, 1)); NReplies 0 ([], (1, 0, 0, 1))] /\
  agree (Kid 4) [Parse 0 1 90; Sync 0 0; Bind 0 0 1; Execute 0 0; Sync 0 0; Bind 0 0 1; Execute 0 0; Sync 0 0] = (false, false).
Proof. vm_compute. repeat split; reflexivity. Qed.
Example c08_gap_close_unnamed_kept :
  agree (Kid 4) [Parse 0 0 10; Sync 0 0; Close 0 0; Sync 0 0; Bind 0 0 0; Execute 0 0; Sync 0 0] = (false, false).
Proof. vm_compute. reflexivity. Qed.
Example c08_reparse_without_close_is_lenient :
  agree (Kid 4) [Parse 0 1 10; Sync 0 0; Parse 0 1 11; Sync 0 0; Bind 0 0 1; Execute 0 0; Sync 0 0] = (true, true).
Proof. vm_compute. reflexivity. Qed.

(** ** Investigated and fine (behave like a direct connection): (ii) pool eviction while a client
    still holds the evicted entry, (iii) one statement under two client names, (iv) a server
    whose cache was cleared by DEALLOCATE ALL at checkin, (v) cache size 1 with Parse+Bind+Execute
    in one batch. *)
Example c08_investigated_fine :
  agree (Kid 1) [Parse 0 1 10; Sync 0 0; Parse 1 1 11; Sync 1 0; Parse 1 2 10; Bind 1 0 2; Execute 1 0; Sync 1 0; Bind 0 0 1; Execute 0 0; Sync 0 0] = (true, true) /\
  agree (Kid 4) [Parse 0 1 10; Parse 0 2 10; Sync 0 0; Close 0 1; Sync 0 0; Bind 0 0 2; Execute 0 0; Sync 0 1] = (true, true) /\
  agree (Kid 4) [Parse 0 1 10; Sync 0 0; Cleanup 0; Bind 0 0 1; Execute 0 0; Sync 0 0] = (true, true) /\
  agree (Kid 1) [Parse 0 1 10; Bind 0 0 1; Execute 0 0; Sync 0 0; Parse 0 2 11; Bind 0 0 2; Execute 0 0; Sync 0 0; Bind 0 0 1; Execute 0 0; Sync 0 0] = (true, true).
Proof. vm_compute. repeat split; reflexivity. Qed.
