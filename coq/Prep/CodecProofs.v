(** C08, layer 1 — lemmas about the codec model (Codec.v), field by field: a getter inverts its
    encoder on the values the wire can carry (a signed integer is the representative of its class
    mod 2^16 / 2^32 in a window, [mod_inj_window]); what a decoder computes on a frame whose strings
    are terminated, and an encoder when no length reaches 2^64; no decoder answers [Err]; a
    fixed-width little-endian item of the hash stream delimits itself. *)
From Coq Require Import ZArith NArith List Bool Lia.
From PV Require Import Prep.Codec.
Import ListNotations.
Open Scope Z_scope.

Lemma byteb_lt b : byteb b = true -> (0 <= Z.of_N b < 256).
Proof. unfold byteb. rewrite N.ltb_lt. lia. Qed.

Lemma in_i16_iff z : in_i16 z = true <-> -32768 <= z < 32768.
Proof. unfold in_i16. lia. Qed.

Lemma in_i32_iff z : in_i32 z = true <-> -2147483648 <= z < 2147483648.
Proof. unfold in_i32. lia. Qed.

(* M consecutive integers hold one representative of each class mod M.  Every injectivity fact
   below (signed big-endian fields, little-endian hash items) is this one. *)
Lemma mod_inj_window M lo z1 z2 :
  lo <= z1 < lo + M -> lo <= z2 < lo + M -> z1 mod M = z2 mod M -> z1 = z2.
Proof.
  intros H1 H2 E. apply (Z.sub_cancel_r _ _ lo).
  rewrite <- (Z.mod_small (z1 - lo) M), <- (Z.mod_small (z2 - lo) M) by lia.
  rewrite (Zminus_mod z1), (Zminus_mod z2), E. reflexivity.
Qed.

(* two's complement: the signed reading of [u] is its representative in [-h, h) *)
Lemma wrap_spec M h u : M = 2 * h -> 0 <= u < M ->
  -h <= (if u <? h then u else u - M) < h /\ (if u <? h then u else u - M) mod M = u.
Proof.
  intros -> Hu. destruct (Z.ltb_spec u h); (split; [lia|]).
  - apply Z.mod_small. lia.
  - replace (u - 2 * h) with (u + (-1) * (2 * h)) by lia. rewrite Z.mod_add by lia. apply Z.mod_small. lia.
Qed.

Lemma i16_of_spec a b : byteb a = true -> byteb b = true ->
  -32768 <= i16_of a b < 32768 /\ i16_of a b mod 65536 = Z.of_N a * 256 + Z.of_N b.
Proof. intros Ha%byteb_lt Hb%byteb_lt. apply (wrap_spec 65536 32768); [reflexivity | lia]. Qed.

Lemma i32_of_spec a b c d : byteb a = true -> byteb b = true -> byteb c = true -> byteb d = true ->
  -2147483648 <= i32_of a b c d < 2147483648 /\
  i32_of a b c d mod 4294967296 = ((Z.of_N a * 256 + Z.of_N b) * 256 + Z.of_N c) * 256 + Z.of_N d.
Proof.
  intros Ha%byteb_lt Hb%byteb_lt Hc%byteb_lt Hd%byteb_lt.
  apply (wrap_spec 4294967296 2147483648); [reflexivity | lia].
Qed.

(* the last base-256 digit of [u] and what is left of it; the only digit of a [u] below 256 *)
Lemma byte_digit u M : 0 <= u < 256 * M ->
  byteb (Z.to_N (u mod 256)) = true /\ u / 256 * 256 + Z.of_N (Z.to_N (u mod 256)) = u /\ 0 <= u / 256 < M.
Proof. intros Hu. unfold byteb. rewrite N.ltb_lt. Z.div_mod_to_equations. lia. Qed.

Lemma byte_top u : 0 <= u < 256 -> byteb (Z.to_N u) = true /\ Z.of_N (Z.to_N u) = u.
Proof. intros Hu. unfold byteb. rewrite N.ltb_lt. lia. Qed.

Lemma be16_digits z : exists a b, be16 z = [a; b] /\ byteb a = true /\ byteb b = true /\
  Z.of_N a * 256 + Z.of_N b = z mod 65536.
Proof.
  unfold be16. cbv zeta. generalize (Z.mod_pos_bound z 65536 eq_refl). generalize (z mod 65536). intros u Hu.
  destruct (byte_digit u 256 Hu) as (Hb & Eb & H1). destruct (byte_top _ H1) as [Ha Ea].
  do 2 eexists. split; [reflexivity|]. rewrite Ea, Eb. auto.
Qed.

Lemma be32_digits z : exists a b c d, be32 z = [a; b; c; d] /\
  byteb a = true /\ byteb b = true /\ byteb c = true /\ byteb d = true /\
  ((Z.of_N a * 256 + Z.of_N b) * 256 + Z.of_N c) * 256 + Z.of_N d = z mod 4294967296.
Proof.
  unfold be32. cbv zeta. generalize (Z.mod_pos_bound z 4294967296 eq_refl). generalize (z mod 4294967296). intros u Hu.
  (* one division by 256 per digit: the four digits in one [lia] cost ten times as much to check *)
  change 16777216 with (256 * (256 * 256)). change 65536 with (256 * 256). rewrite <- !Z.div_div by lia.
  destruct (byte_digit u (256 * (256 * 256)) Hu) as (Hd & Ed & H1).
  destruct (byte_digit _ _ H1) as (Hc & Ec & H2). destruct (byte_digit _ _ H2) as (Hb & Eb & H3).
  destruct (byte_top _ H3) as [Ha Ea].
  do 4 eexists. split; [reflexivity|]. rewrite Ea, Eb, Ec, Ed. auto.
Qed.

Lemma be16_i16_of a b : byteb a = true -> byteb b = true -> be16 (i16_of a b) = [a; b].
Proof.
  intros Ha Hb. destruct (be16_digits (i16_of a b)) as (a' & b' & -> & Ha' & Hb' & E).
  rewrite (proj2 (i16_of_spec a b Ha Hb)) in E. apply byteb_lt in Ha, Hb, Ha', Hb'.
  repeat f_equal; apply N2Z.inj; lia.
Qed.

Lemma be32_i32_of a b c d : byteb a = true -> byteb b = true -> byteb c = true -> byteb d = true ->
  be32 (i32_of a b c d) = [a; b; c; d].
Proof.
  intros Ha Hb Hc Hd. destruct (be32_digits (i32_of a b c d)) as (a' & b' & c' & d' & -> & Ha' & Hb' & Hc' & Hd' & E).
  rewrite (proj2 (i32_of_spec a b c d Ha Hb Hc Hd)) in E. apply byteb_lt in Ha, Hb, Hc, Hd, Ha', Hb', Hc', Hd'.
  repeat f_equal; apply N2Z.inj; lia.
Qed.

Lemma i16_of_be16 z : in_i16 z = true ->
  exists a b, be16 z = [a; b] /\ i16_of a b = z /\ byteb a = true /\ byteb b = true.
Proof.
  intros Hz%in_i16_iff. destruct (be16_digits z) as (a & b & E & Ha & Hb & Hu). exists a, b.
  destruct (i16_of_spec a b Ha Hb) as [Hw Hm]. repeat split; try assumption.
  apply (mod_inj_window 65536 (-32768)); [exact Hw | exact Hz | congruence].
Qed.

Lemma i32_of_be32 z : in_i32 z = true ->
  exists a b c d, be32 z = [a; b; c; d] /\ i32_of a b c d = z /\
                  byteb a = true /\ byteb b = true /\ byteb c = true /\ byteb d = true.
Proof.
  intros Hz%in_i32_iff. destruct (be32_digits z) as (a & b & c & d & E & Ha & Hb & Hc & Hd & Hu). exists a, b, c, d.
  destruct (i32_of_spec a b c d Ha Hb Hc Hd) as [Hw Hm]. repeat split; try assumption.
  apply (mod_inj_window 4294967296 (-2147483648)); [exact Hw | exact Hz | congruence].
Qed.

Lemma be32_length z : length (be32 z) = 4%nat.
Proof. reflexivity. Qed.
Lemma be16_length z : length (be16 z) = 2%nat.
Proof. reflexivity. Qed.

Lemma get_i32_be32 z r : in_i32 z = true -> get_i32 (be32 z ++ r) = Ok (z, r).
Proof. intros H. destruct (i32_of_be32 z H) as (a & b & c & d & -> & <- & _). reflexivity. Qed.

Lemma get_i16_be16 z r : in_i16 z = true -> get_i16 (be16 z ++ r) = Ok (z, r).
Proof. intros H. destruct (i16_of_be16 z H) as (a & b & -> & <- & _). reflexivity. Qed.

Lemma beq_bytes_eq a b : beq_bytes a b = true -> a = b.
Proof.
  unfold beq_bytes. revert b. induction a as [|x a IH]; intros [|y b] H; cbn in *; try discriminate; auto.
  apply andb_prop in H as [H1 H2]. apply andb_prop in H2 as [H2 H3].
  apply N.eqb_eq in H2. subst. f_equal. apply IH. rewrite H1, H3. reflexivity.
Qed.

Lemma beq_bytes_refl a : beq_bytes a a = true.
Proof.
  unfold beq_bytes. induction a as [|x a IH]; cbn; auto.
  apply andb_prop in IH as [H1 H2]. rewrite H1, H2, N.eqb_refl. reflexivity.
Qed.

Lemma cleanb_eq s : cleanb s = true -> lossy s = s.
Proof. apply beq_bytes_eq. Qed.

Lemma lossy_ascii s : asciib s = true -> lossy s = s.
Proof.
  induction s as [|b r IH]; cbn; auto. intros H. apply andb_prop in H as [H1 H2].
  rewrite H1. f_equal. auto.
Qed.

Lemma ascii_clean s : asciib s = true -> cleanb s = true.
Proof. intros H. unfold cleanb. rewrite lossy_ascii by assumption. apply beq_bytes_refl. Qed.

Lemma split0_spec s p r : split0 s = Some (p, r) -> s = p ++ 0%N :: r /\ has0 p = false.
Proof.
  revert p r. induction s as [|c s IH]; cbn; intros p r H; try discriminate.
  destruct (c =? 0)%N eqn:E.
  - inversion H; subst. apply N.eqb_eq in E. subst. auto.
  - destruct (split0 s) as [[p' q']|]; try discriminate. inversion H; subst.
    destruct (IH _ _ eq_refl) as [-> H0]. split; auto.
    unfold has0 in *. cbn [existsb]. rewrite N.eqb_sym, E. exact H0.
Qed.

Lemma split0_app p r : has0 p = false -> split0 (p ++ 0%N :: r) = Some (p, r).
Proof.
  induction p as [|c p IH]; [reflexivity|]. unfold has0 in *. cbn [existsb app split0].
  intros H. apply orb_false_elim in H as [H1 H2].
  rewrite N.eqb_sym, H1, IH by assumption. reflexivity.
Qed.

Lemma read_string_term p r : has0 p = false -> read_string (p ++ 0%N :: r) = Ok (lossy p, r).
Proof. intros H. unfold read_string. rewrite split0_app by assumption. reflexivity. Qed.

Lemma read_raw_term p r : has0 p = false -> read_raw (p ++ 0%N :: r) = Ok (p, r).
Proof. intros H. unfold read_raw. rewrite split0_app by assumption. reflexivity. Qed.

Lemma has0_app a b : has0 (a ++ b) = has0 a || has0 b.
Proof. apply existsb_app. Qed.

Lemma blen_app a b : blen (a ++ b) = blen a + blen b.
Proof. unfold blen. rewrite app_length. lia. Qed.
Lemma blen_cons a b : blen (a :: b) = 1 + blen b.
Proof. unfold blen. cbn [length]. lia. Qed.
Lemma blen_nonneg a : 0 <= blen a.
Proof. unfold blen. lia. Qed.
Global Hint Rewrite blen_cons blen_app : blen.

Lemma get_n_enc {A} (g : bytes -> res (A * bytes)) (e : A -> bytes) (ok : A -> bool) :
  (forall a r, ok a = true -> g (e a ++ r) = Ok (a, r)) ->
  forall l r, forallb ok l = true -> get_n g (length l) (flat_map e l ++ r) = Ok (l, r).
Proof.
  intros Hg l r. induction l as [|a l IH]; cbn [length get_n flat_map forallb]; auto.
  intros H. apply andb_prop in H as [H1 H2].
  rewrite <- app_assoc, Hg by assumption. cbn [bind]. rewrite IH by assumption. reflexivity.
Qed.

Lemma count_ok {A} (l : list A) n : Z.of_nat (length l) = n -> n < 32768 ->
  in_i16 n = true /\ Z.to_nat n = length l.
Proof. intros <- H. split; [apply in_i16_iff|]; lia. Qed.

Lemma get_n_i32_dec n s l r : forallb byteb s = true ->
  get_n get_i32 n s = Ok (l, r) -> s = flat_map be32 l ++ r /\ length l = n.
Proof.
  revert s l r. induction n as [|n IH]; cbn [get_n]; intros s l r Hb H.
  - inversion H; subst. auto.
  - destruct s as [|a [|b [|c [|d s]]]]; cbn in H; try discriminate.
    cbn [forallb] in Hb. rewrite !andb_true_iff in Hb. destruct Hb as (Ha & Hb' & Hc & Hd & Hs).
    destruct (get_n get_i32 n s) as [[l' r']| |] eqn:E; cbn in H; try discriminate.
    inversion H; subst. destruct (IH _ _ _ Hs E) as [-> <-].
    cbn [flat_map length]. rewrite be32_i32_of by assumption. split; reflexivity.
Qed.

Lemma get_n_exact_len n s l r : get_n get_i32 n s = Ok (l, r) -> blen s = 4 * Z.of_nat n + blen r.
Proof.
  revert s l r. induction n as [|n IH]; cbn [get_n]; intros s l r H.
  - inversion H; subst. lia.
  - destruct s as [|a [|b [|c [|d s]]]]; cbn in H; try discriminate.
    destruct (get_n get_i32 n s) as [[l' r']| |] eqn:E; cbn in H; try discriminate.
    inversion H; subst. apply IH in E. rewrite !blen_cons. lia.
Qed.

Lemma get_n_i32_total n s : blen s = 4 * Z.of_nat n -> exists l, get_n get_i32 n s = Ok (l, []).
Proof.
  revert s. induction n as [|n IH]; intros s H.
  - destruct s; [|rewrite blen_cons in H; pose proof (blen_nonneg s); lia]. exists []. reflexivity.
  - destruct s as [|a [|b [|c [|d s]]]]; rewrite ?blen_cons in H; try (unfold blen in H; cbn in H; lia).
    destruct (IH s) as [l Hl]; [lia|]. exists (i32_of a b c d :: l). cbn. rewrite Hl. reflexivity.
Qed.

Lemma flat_be32_len tys : blen (flat_map be32 tys) = 4 * Z.of_nat (length tys).
Proof.
  induction tys as [|z l IH]; [reflexivity|].
  cbn [flat_map]. rewrite blen_app. unfold blen at 1. rewrite be32_length. cbn [length]. lia.
Qed.

Lemma flat_be32_bytes tys : forallb byteb (flat_map be32 tys) = true.
Proof.
  induction tys as [|z l IH]; [reflexivity|]. cbn [flat_map]. rewrite forallb_app, IH.
  destruct (be32_digits z) as (a & b & c & d & -> & Ha & Hb & Hc & Hd & _).
  cbn [forallb]. rewrite Ha, Hb, Hc, Hd. reflexivity.
Qed.

Lemma ck64_small chk v : 0 <= v < two64 -> ck64 chk v = Ok v.
Proof. intros H. unfold ck64. destruct (Z.ltb_spec v two64); [reflexivity | lia]. Qed.

Lemma ck32_in chk v : in_i32 v = true -> ck32 chk v = Ok v.
Proof. intros H. unfold ck32. rewrite H. reflexivity. Qed.

Lemma as_usize_nonneg z : 0 <= z < two64 -> as_usize z = z.
Proof. apply Z.mod_small. Qed.

(* the encoder succeeds, in either build, when no length computation reaches 2^64 *)
Lemma encode_parse_ok chk p :
  has0 (p_name p) = false -> has0 (p_query p) = false -> 0 <= p_np p ->
  4 + (blen (p_name p) + 1) + (blen (p_query p) + 1) + 2 + 4 * p_np p < two64 ->
  encode_parse chk p =
  Ok (p_code p :: be32 (4 + (blen (p_name p) + 1) + (blen (p_query p) + 1) + 2 + 4 * p_np p)
        ++ p_name p ++ 0%N :: p_query p ++ 0%N :: be16 (p_np p) ++ flat_map be32 (p_types p)).
Proof.
  intros Hn Hq Hnp Hl. pose proof (blen_nonneg (p_name p)). pose proof (blen_nonneg (p_query p)).
  unfold encode_parse. rewrite Hn, Hq, as_usize_nonneg by lia.
  rewrite ck64_small by lia. cbn [bind]. rewrite ck64_small by lia. reflexivity.
Qed.

Lemma decode_parse_frame code l1 l2 l3 l4 nm q n1 n2 s tys r :
  has0 nm = false -> has0 q = false -> get_n get_i32 (Z.to_nat (i16_of n1 n2)) s = Ok (tys, r) ->
  decode_parse (code :: l1 :: l2 :: l3 :: l4 :: nm ++ 0%N :: q ++ 0%N :: n1 :: n2 :: s)
  = Ok (mkParse code (i32_of l1 l2 l3 l4) (lossy nm) q (i16_of n1 n2) tys).
Proof.
  intros Hn Hq Ht. unfold decode_parse, decode_parse_k, read_query. cbn [get_u8 get_i32 bind].
  rewrite read_string_term by assumption. cbn [bind]. rewrite split0_app by assumption.
  cbn [get_i16 bind]. rewrite Ht. reflexivity.
Qed.

Lemma decode_describe_frame code l1 l2 l3 l4 t nm r : has0 nm = false ->
  decode_describe (code :: l1 :: l2 :: l3 :: l4 :: t :: nm ++ 0%N :: r) = Ok (mkDesc code (i32_of l1 l2 l3 l4) t (lossy nm)).
Proof.
  intros Hn. unfold decode_describe, decode_describe_k. cbn [get_u8 get_i32 bind].
  rewrite read_string_term by assumption. reflexivity.
Qed.

Lemma take_n_app v r : take_n (length v) (v ++ r) = Some (v, r).
Proof. induction v as [|c v IH]; cbn; auto. rewrite IH. reflexivity. Qed.

Lemma param_wf_spec pv : param_wf pv = true ->
  0 <= fst pv /\ in_i32 (fst pv) = true /\ blen (snd pv) = fst pv /\ forallb byteb (snd pv) = true.
Proof. unfold param_wf. rewrite !andb_true_iff, Z.leb_le, Z.eqb_eq. tauto. Qed.

Lemma get_param_enc pv r : param_wf pv = true -> get_param ((be32 (fst pv) ++ snd pv) ++ r) = Ok (pv, r).
Proof.
  intros (H0 & Hi & Hl & _)%param_wf_spec. destruct pv as [pl v]. cbn [fst snd] in *.
  unfold get_param. rewrite <- app_assoc, get_i32_be32 by assumption. cbn [bind].
  destruct (Z.ltb_spec 0 pl).
  - rewrite (proj2 (Z.ltb_ge _ _)) by (rewrite blen_app; pose proof (blen_nonneg r); lia).
    replace (Z.to_nat pl) with (length v) by (unfold blen in Hl; lia). rewrite take_n_app. reflexivity.
  - destruct v; [reflexivity|]. rewrite blen_cons in Hl. pose proof (blen_nonneg v). lia.
Qed.

Lemma param_lens_nonneg l : forallb param_wf l = true -> 0 <= fold_right (fun pv a => 4 + fst pv + a) 0 l.
Proof.
  induction l as [|pv l IH]; cbn [fold_right forallb]; [lia|].
  intros [(H0 & _)%param_wf_spec H2%IH]%andb_prop. lia.
Qed.

Lemma add_param_lens_ok chk l acc : forallb param_wf l = true -> 0 <= acc ->
  acc + fold_right (fun pv a => 4 + fst pv + a) 0 l < two64 ->
  add_param_lens chk acc l = Ok (acc + fold_right (fun pv a => 4 + fst pv + a) 0 l).
Proof.
  revert acc. induction l as [|[pl v] l IH]; intros acc H Ha Hs; cbn [add_param_lens fold_right fst forallb] in *.
  - f_equal. lia.
  - apply andb_prop in H as [(H0 & _)%param_wf_spec H2]. cbn [fst] in H0. pose proof (param_lens_nonneg l H2).
    rewrite as_usize_nonneg by lia. rewrite ck64_small by lia. cbn [bind]. rewrite ck64_small by lia. cbn [bind].
    rewrite IH by (assumption || lia). f_equal. lia.
Qed.

Lemma encode_bind_ok chk p :
  has0 (b_portal p) = false -> has0 (b_stmt p) = false -> 0 <= b_nfc p -> 0 <= b_nrc p ->
  forallb param_wf (b_pvs p) = true -> bind_len p < two64 ->
  encode_bind chk p =
  Ok (b_code p :: be32 (bind_len p) ++ b_portal p ++ 0%N :: b_stmt p ++ 0%N :: be16 (b_nfc p) ++ flat_map be16 (b_fcs p)
        ++ be16 (b_npv p) ++ flat_map (fun pv => be32 (fst pv) ++ snd pv) (b_pvs p)
        ++ be16 (b_nrc p) ++ flat_map be16 (b_rcs p)).
Proof.
  intros Hp Hs Hf Hr Hv Hl. unfold bind_len in *.
  pose proof (blen_nonneg (b_portal p)). pose proof (blen_nonneg (b_stmt p)). pose proof (param_lens_nonneg _ Hv).
  unfold encode_bind. rewrite Hp, Hs, !as_usize_nonneg by lia.
  do 3 (rewrite ck64_small by lia; cbn [bind]).
  rewrite add_param_lens_ok by (assumption || lia). cbn [bind].
  do 3 (rewrite ck64_small by lia; cbn [bind]). reflexivity.
Qed.

(** * Totality / classification: the four decoders and the two name readers never return
    [Err]; they answer [Ok] or [Panic] on every byte string. *)
Definition noerr {A} (r : res A) : Prop := r <> Err.

Lemma noerr_cases {A} (r : res A) : noerr r -> (exists a, r = Ok a) \/ r = Panic.
Proof. destruct r; intros H; eauto. contradiction H. reflexivity. Qed.

Lemma noerr_bind {A B} (r : res A) (f : A -> res B) : noerr r -> (forall a, noerr (f a)) -> noerr (bind r f).
Proof. unfold noerr. intros H1 H2. destruct r; cbn [bind]; [apply H2 | exfalso; apply H1; reflexivity | discriminate]. Qed.

Lemma noerr_get_u8 s : noerr (get_u8 s).            Proof. destruct s; discriminate. Qed.
Lemma noerr_get_i16 s : noerr (get_i16 s).          Proof. destruct s as [|? [|? ?]]; discriminate. Qed.
Lemma noerr_get_i32 s : noerr (get_i32 s).          Proof. destruct s as [|? [|? [|? [|? ?]]]]; discriminate. Qed.
Lemma noerr_read_string s : noerr (read_string s).
Proof. unfold read_string. destruct (split0 s) as [[? ?]|]; [discriminate|]. destruct s; discriminate. Qed.
Lemma noerr_advance5 s : noerr (advance5 s).
Proof. destruct s as [|? [|? [|? [|? [|? ?]]]]]; discriminate. Qed.
Lemma noerr_get_n {A} (g : bytes -> res (A * bytes)) n : (forall s, noerr (g s)) -> forall s, noerr (get_n g n s).
Proof.
  intros Hg. induction n as [|n IH]; intros s; cbn [get_n]; [discriminate|].
  apply noerr_bind; [apply Hg|]. intros [a r]. apply noerr_bind; [apply IH|]. intros [l r']. discriminate.
Qed.
Lemma noerr_get_param s : noerr (get_param s).
Proof.
  unfold get_param. apply noerr_bind; [apply noerr_get_i32|]. intros [pl r].
  destruct (0 <? pl); [|discriminate]. destruct (blen r <? pl); [discriminate|].
  destruct (take_n (Z.to_nat pl) r) as [[? ?]|]; discriminate.
Qed.

(* A decoder is a chain of [bind]s over these getters ending in [Ok]: peel the binds, each getter by its
   lemma, the final [Ok] by [discriminate]. *)
Local Hint Resolve noerr_get_u8 noerr_get_i16 noerr_get_i32 noerr_read_string noerr_get_n noerr_get_param : noerr.

Lemma decode_parse_noerr b : noerr (decode_parse b).
Proof.
  unfold decode_parse, decode_parse_k. apply noerr_bind; [|intros [? ?]; discriminate].
  do 3 (apply noerr_bind; [auto with noerr | intros [? ?]]).
  destruct (read_query _) as [? ?]. repeat (apply noerr_bind; [auto with noerr | intros [? ?]]). discriminate.
Qed.
Lemma decode_bind_noerr b : noerr (decode_bind b).
Proof. unfold decode_bind, decode_bind_k. repeat (apply noerr_bind; [auto with noerr | intros [? ?]]); discriminate. Qed.
Lemma decode_describe_noerr b : noerr (decode_describe b).
Proof. unfold decode_describe, decode_describe_k. repeat (apply noerr_bind; [auto with noerr | intros [? ?]]); discriminate. Qed.
Lemma parse_get_name_noerr b : noerr (parse_get_name b).
Proof.
  unfold parse_get_name. apply noerr_bind; [apply noerr_advance5 | intros s].
  apply noerr_bind; [auto with noerr | intros [? ?]; discriminate].
Qed.
Lemma bind_get_name_noerr b : noerr (bind_get_name b).
Proof.
  unfold bind_get_name. apply noerr_bind; [apply noerr_advance5 | intros s].
  repeat (apply noerr_bind; [auto with noerr | intros [? ?]]). discriminate.
Qed.

Theorem decoders_total : forall b,
  (exists p, decode_parse b = Ok p) \/ decode_parse b = Panic.
Proof. intros b. apply noerr_cases, decode_parse_noerr. Qed.

Lemma le_go_inj k : forall u1 u2, 0 <= u1 < 256 ^ Z.of_nat k -> 0 <= u2 < 256 ^ Z.of_nat k ->
  le_go k u1 = le_go k u2 -> u1 = u2.
Proof.
  induction k as [|k IH]; intros u1 u2 [L1 H1] [L2 H2] H.
  - change (256 ^ Z.of_nat 0) with 1 in *. lia.
  - cbn [le_go] in H. injection H as Hh Ht.
    rewrite Nat2Z.inj_succ, Z.pow_succ_r in H1, H2 by apply Nat2Z.is_nonneg.
    rewrite (Z.div_mod u1 256), (Z.div_mod u2 256) by discriminate. f_equal; [f_equal|].
    + apply IH; [| | exact Ht]; (split; [apply Z.div_pos | apply Z.div_lt_upper_bound]; (assumption || reflexivity)).
    + apply Z2N.inj in Hh; [exact Hh | apply Z.mod_pos_bound; reflexivity..].
Qed.

Lemma le_go_length k u : length (le_go k u) = k.
Proof. revert u. induction k; intros; cbn; auto. Qed.

Lemma app_inj_len {A} (a1 a2 b1 b2 : list A) : length a1 = length a2 -> a1 ++ b1 = a2 ++ b2 -> a1 = a2 /\ b1 = b2.
Proof.
  revert a2. induction a1 as [|x a1 IH]; intros [|y a2] Hl H; cbn in *; try discriminate; auto.
  inversion H; subst. destruct (IH a2) as [-> ->]; auto.
Qed.

(* [str::hash] writes the text and then 0xFF, a byte no UTF-8 text contains: how the query, a [String]
   before a7561f2, was delimited in the stream *)
Lemma split_at_ff q1 q2 r1 r2 : ~ In 255%N q1 -> ~ In 255%N q2 ->
  q1 ++ 255%N :: r1 = q2 ++ 255%N :: r2 -> q1 = q2 /\ r1 = r2.
Proof.
  revert q2. induction q1 as [|x q1 IH]; intros [|y q2] H1 H2 H; cbn in *.
  - inversion H. auto.
  - inversion H; subst. exfalso. apply H2. auto.
  - inversion H; subst. exfalso. apply H1. auto.
  - inversion H; subst. destruct (IH q2) as [-> ->]; auto.
Qed.

(* a fixed-width little-endian item is self-delimiting, and injective on any window of 2^(8n)
   values: the unsigned lengths as well as the signed i16 / i32 items *)
Lemma le_bytes_inj n lo z1 z2 r1 r2 :
  lo <= z1 < lo + 2 ^ (8 * Z.of_nat n) -> lo <= z2 < lo + 2 ^ (8 * Z.of_nat n) ->
  le_bytes n z1 ++ r1 = le_bytes n z2 ++ r2 -> z1 = z2 /\ r1 = r2.
Proof.
  intros H1 H2 H. unfold le_bytes in H. apply app_inj_len in H as [H ->]; [|rewrite !le_go_length; reflexivity].
  split; [|reflexivity]. apply (mod_inj_window _ lo _ _ H1 H2).
  apply le_go_inj in H; [exact H | |]; rewrite <- (Z.pow_mul_r 2 8) by lia; apply Z.mod_pos_bound; lia.
Qed.

Lemma flat_le4_inj t1 t2 : forallb in_i32 t1 = true -> forallb in_i32 t2 = true ->
  flat_map (le_bytes 4) t1 = flat_map (le_bytes 4) t2 -> t1 = t2.
Proof.
  revert t2. induction t1 as [|x t1 IH]; intros [|y t2] H1 H2 H; try discriminate; [reflexivity|].
  cbn [flat_map forallb] in *. apply andb_prop in H1 as [Hx%in_i32_iff H1], H2 as [Hy%in_i32_iff H2].
  apply (le_bytes_inj 4 (-2147483648)) in H as [-> H]; [|assumption..].
  f_equal. apply IH; auto.
Qed.

