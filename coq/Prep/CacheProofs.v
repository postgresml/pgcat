(** C08, layer 2 — proofs about the cache model (Cache.v).
    Part A: every server-side name PGCAT_g denotes ONE statement, for all histories.
    Part B: under the computable guard of Cache.v and hash-collision-freeness, the model refines a
    direct connection (invariant: server cache = backend statement table, client map = the
    specification's table, nothing a batch needs is evicted before the batch is sent).
    Last: clients do not observe one another (from Part B), and a Close of a portal changes
    nothing about statements (every state, no guard). *)
From Coq Require Import Arith List Bool Lia.
From PV Require Import Prep.Cache.
Import ListNotations.

Ltac csplits := repeat match goal with |- _ /\ _ => split end.

Lemma mem_In x l : mem x l = true <-> In x l.
Proof.
  unfold mem. rewrite existsb_exists. split.
  - intros [y [H1 H2]]. apply Nat.eqb_eq in H2. subst. exact H1.
  - intros H. exists x. split; [exact H | apply Nat.eqb_refl].
Qed.

Lemma mem_false x l : mem x l = false <-> ~ In x l.
Proof. rewrite <- mem_In. destruct (mem x l); split; intros; try discriminate; auto. exfalso; auto. Qed.

Lemma remove_nat_In x y l : In y (remove_nat x l) <-> In y l /\ y <> x.
Proof.
  induction l as [|z l IH]; cbn; [tauto|].
  destruct (Nat.eqb_spec x z) as [->|E]; cbn; rewrite IH.
  - split; [intros [H Hn]; auto | intros [[H|H] Hn]; [congruence | auto]].
  - split; [intros [<-|[H Hn]]; (split; [auto | congruence]) | intros [[H|H] Hn]; auto].
Qed.

Lemma remove_nat_notin x l : ~ In x l -> remove_nat x l = l.
Proof.
  induction l as [|z l IH]; cbn; auto. intros H.
  destruct (x =? z) eqn:E; [apply Nat.eqb_eq in E; subst; exfalso; apply H; auto|].
  f_equal. apply IH. tauto.
Qed.

Lemma remove_nat_app x a b : remove_nat x (a ++ b) = remove_nat x a ++ remove_nat x b.
Proof. induction a as [|z a IH]; cbn; auto. destruct (x =? z); cbn; rewrite IH; reflexivity. Qed.

Lemma remove_nat_NoDup x l : NoDup l -> NoDup (remove_nat x l).
Proof.
  induction 1 as [|z l Hn Hd IH]; cbn; [constructor|].
  destruct (x =? z); auto. constructor; auto. rewrite remove_nat_In. tauto.
Qed.

Lemma remove_nat_length x l : length (remove_nat x l) <= length l.
Proof. induction l as [|z l IH]; cbn; auto. destruct (x =? z); cbn; lia. Qed.

Lemma alookup_ainsert_eq {B} k (v : B) l : alookup k (ainsert k v l) = Some v.
Proof. unfold ainsert. cbn. rewrite Nat.eqb_refl. reflexivity. Qed.

Lemma alookup_aremove_eq {B} k (l : list (nat * B)) : alookup k (aremove k l) = None.
Proof. induction l as [|[k' v] l IH]; cbn; auto. destruct (k =? k') eqn:E; auto. cbn. rewrite E. exact IH. Qed.

Lemma alookup_aremove_neq {B} k k' (l : list (nat * B)) : k <> k' -> alookup k (aremove k' l) = alookup k l.
Proof.
  intros Hn. induction l as [|[k2 v] l IH]; cbn; auto.
  destruct (k' =? k2) eqn:E.
  - apply Nat.eqb_eq in E. subst. destruct (k =? k2) eqn:E2; [apply Nat.eqb_eq in E2; congruence | exact IH].
  - cbn. destruct (k =? k2); auto.
Qed.

Lemma alookup_aremove_none {B} k k' (l : list (nat * B)) : alookup k l = None -> alookup k (aremove k' l) = None.
Proof.
  intros H. destruct (Nat.eq_dec k k') as [->|Hne]; [apply alookup_aremove_eq | rewrite alookup_aremove_neq; assumption].
Qed.

Lemma alookup_ainsert_neq {B} k k' (v : B) l : k <> k' -> alookup k (ainsert k' v l) = alookup k l.
Proof.
  intros Hn. unfold ainsert. cbn. destruct (k =? k') eqn:E; [apply Nat.eqb_eq in E; congruence|].
  apply alookup_aremove_neq. exact Hn.
Qed.

Lemma alookup_cons_neq {B} k k' (v : B) l : k <> k' -> alookup k ((k', v) :: l) = alookup k l.
Proof. intros H. cbn. destruct (k =? k') eqn:E; auto. apply Nat.eqb_eq in E. congruence. Qed.

(* the statement table after a Parse that may or may not have been sent *)
Lemma alookup_sent {B} (snd_ : bool) x g (v : B) t : x <> g -> alookup x ((if snd_ then [(g, v)] else []) ++ t) = alookup x t.
Proof. intros Hx. destruct snd_; cbn [app]; auto using alookup_cons_neq. Qed.

Lemma alookup_In {B} k (v : B) l : alookup k l = Some v -> In (k, v) l.
Proof.
  induction l as [|[k' v'] l IH]; cbn; [discriminate|].
  destruct (k =? k') eqn:E; [apply Nat.eqb_eq in E; intros H; inversion H; subst; auto | auto].
Qed.

Lemma aremove_In {B} k k' (v : B) l : In (k, v) (aremove k' l) -> In (k, v) l.
Proof.
  induction l as [|[k2 v2] l IH]; cbn; auto. destruct (k' =? k2); cbn; intros H; [auto | destruct H; auto].
Qed.

Lemma ainsert_In {B} k k' (v v' : B) l : In (k, v) (ainsert k' v' l) -> (k = k' /\ v = v') \/ In (k, v) l.
Proof. unfold ainsert. cbn. intros [H|H]; [inversion H; auto | right; eapply aremove_In; eauto]. Qed.

Lemma andb3 a b c : a && b && c = true -> a = true /\ b = true /\ c = true.
Proof. rewrite !andb_true_iff. tauto. Qed.

Lemma NoDup_app_disj {A} (a b : list A) x : NoDup (a ++ b) -> In x a -> ~ In x b.
Proof.
  induction a as [|y a IH]; cbn; [tauto|]. intros Hnd [H|H] Hb; inversion Hnd; subst.
  - apply H2. apply in_app_iff. right. exact Hb.
  - eapply IH; eauto.
Qed.

Lemma NoDup_app_l {A} (a b : list A) : NoDup (a ++ b) -> NoDup a.
Proof.
  induction a as [|x a IH]; cbn; [constructor|]. intros H. inversion H; subst. constructor; [|auto].
  intros X. apply H2. apply in_app_iff. auto.
Qed.

Lemma removelast_incl {A} (l : list A) : incl (removelast l) l.
Proof.
  induction l as [|x [|y l] IH]; [easy | easy |]. intros z [<-|H]; [left; reflexivity | right; apply IH, H].
Qed.

(** * Part A — every name PGCAT_g denotes ONE statement, for all histories (no guard) *)

Definition gd_ok (gd : list nat) (g st : nat) : Prop := nth_error gd g = Some st.
Definition map_ok (gd : list nat) (m : list (nat * (nat * nat))) : Prop := forall n g st, In (n, (g, st)) m -> gd_ok gd g st.
Definition item_ok (gd : list nat) (it : item) : Prop :=
  match it with IParse g st | IBind g st _ _ | IDesc g st _ => gd_ok gd g st | _ => True end.
Definition tab_ok (gd : list nat) (t : list (nat * nat)) : Prop := forall g st, In (g, st) t -> gd_ok gd g st.
Definition pool_ok (K : cfg) (gd : list nat) (pl : list (nat * (nat * nat))) : Prop :=
  forall h g st, In (h, (g, st)) pl -> gd_ok gd g st /\ h = hash K st.
Definition msg_ok (gd : list nat) (m : bmsg) : Prop := match m with BParse g st => gd_ok gd g st | _ => True end.

Definition WInv (K : cfg) (w : world) : Prop :=
  pool_ok K (gdef w) (plru w) /\
  (forall c, map_ok (gdef w) (cmap (clients w c)) /\ Forall (item_ok (gdef w)) (cbuf (clients w c))) /\
  (forall s, tab_ok (gdef w) (btab (servers w s))).

Lemma nth_error_app_mono {A} (l x : list A) g v : nth_error l g = Some v -> nth_error (l ++ x) g = Some v.
Proof. intros H. rewrite nth_error_app1; auto. apply nth_error_Some. congruence. Qed.

Lemma gd_ok_ext gd x g st : gd_ok gd g st -> gd_ok (gd ++ [x]) g st.
Proof. apply nth_error_app_mono. Qed.

Lemma gd_ok_new gd st : gd_ok (gd ++ [st]) (length gd) st.
Proof. unfold gd_ok. rewrite nth_error_app2 by lia. rewrite Nat.sub_diag. reflexivity. Qed.

Lemma bstep_tab_ok K gd b m : tab_ok gd (b_tab b) -> msg_ok gd m -> tab_ok gd (b_tab (fst (bstep K b m))).
Proof.
  intros Ht Hm. unfold bstep.
  destruct m; try exact Ht; destruct (b_skip b); try exact Ht.
  - destruct (kind K st); try exact Ht; (destruct (alookup g (b_tab b)); [exact Ht|]); intros g' st' [[= <- <-]|H]; auto.
  - destruct (alookup g (b_tab b)); exact Ht.
  - destruct (alookup g (b_tab b)); exact Ht.
  - destruct (alookup p (b_portal b)); exact Ht.
  - destruct (alookup p (b_portal b)) as [st|]; [|exact Ht]. destruct (kind K st); try exact Ht. intros ? ? [].
  - intros g' st' H. apply aremove_In in H. auto.
Qed.

Lemma brun_tab_ok K gd ms : forall b, tab_ok gd (b_tab b) -> Forall (msg_ok gd) ms -> tab_ok gd (b_tab (fst (brun K b ms))).
Proof.
  induction ms as [|m r IH]; intros b Ht Hm; cbn; auto.
  inversion Hm; subst.
  pose proof (bstep_tab_ok K gd b m Ht H1) as H.
  destruct (bstep K b m) as [b1 o1]. cbn in H. specialize (IH b1 H H2).
  destruct (brun K b1 r) as [b2 o2]. exact IH.
Qed.

Lemma exchange_tab_ok K gd sv ms : tab_ok gd (btab sv) -> Forall (msg_ok gd) ms -> tab_ok gd (btab (fst (exchange K sv ms))).
Proof.
  intros Ht Hm. unfold exchange.
  pose proof (brun_tab_ok K gd (ms ++ [BSync]) (mkB (btab sv) [] false) Ht) as H.
  assert (Hf : Forall (msg_ok gd) (ms ++ [BSync])) by (apply Forall_app; split; auto; repeat constructor).
  specialize (H Hf). destruct (brun K (mkB (btab sv) [] false) (ms ++ [BSync])) as [b rs].
  destruct (recv K (lru sv) (queue sv) rs) as [l q]. exact H.
Qed.

Lemma register_tab_ok K gd sv g st snd_ : tab_ok gd (btab sv) -> gd_ok gd g st -> tab_ok gd (btab (fst (register K sv g st snd_))).
Proof.
  intros Ht Hg. unfold register. destruct (mem g (lru sv)); cbn; auto.
  destruct (push (cs K) (lru sv) g) as [l ev].
  set (ms := match ev with Some e => [BClose e] | None => [] end ++ (if snd_ then [BParse g st] else [])).
  assert (Hm : Forall (msg_ok gd) ms).
  { subst ms. apply Forall_app. split; [destruct ev; repeat constructor | destruct snd_; repeat constructor; exact Hg]. }
  destruct ms as [|m0 ms0] eqn:E; cbn; auto.
  apply (exchange_tab_ok K gd (mkServer l (if snd_ then [g] else []) (btab sv) (slog sv)) (m0 :: ms0)); auto.
Qed.

Definition acc_ok (K : cfg) (gd : list nat) (a : sacc) : Prop :=
  map_ok gd (a_map a) /\ tab_ok gd (btab (a_sv a)) /\ pool_ok K gd (a_pl a) /\ Forall (msg_ok gd) (a_fwd a).

Lemma premove_aremove h l : premove h l = aremove h l.
Proof. induction l as [|[h' v] l IH]; cbn; [|rewrite IH]; reflexivity. Qed.

Lemma ppromote_ok K gd pl h : pool_ok K gd pl -> pool_ok K gd (ppromote pl h).
Proof.
  intros Hp. unfold ppromote. destruct (alookup h pl) as [v|] eqn:E; auto.
  intros h' g st [H|H].
  - inversion H; subst. apply alookup_In in E. apply Hp in E. exact E.
  - rewrite premove_aremove in H. apply aremove_In in H. auto.
Qed.

Lemma map_ok_aremove gd n m : map_ok gd m -> map_ok gd (aremove n m).
Proof. intros H n' g st Hi. apply aremove_In in Hi. eauto. Qed.

Lemma acc_ok_fwd K gd a m s : acc_ok K gd a -> msg_ok gd m -> acc_ok K gd (mkAcc (a_map a) (a_sv a) (a_pl a) (a_fwd a ++ [m]) s).
Proof. intros (Hm & Ht & Hp & Hf) Hk. split; [|split; [|split]]; auto. apply Forall_app. auto. Qed.

Lemma ensure_ok K gd a n g st : acc_ok K gd a -> gd_ok gd g st -> acc_ok K gd (ensure K a n g st).
Proof.
  intros (Hm & Ht & Hp & Hf) Hg. unfold ensure.
  pose proof (register_tab_ok K gd (a_sv a) g st true Ht Hg) as Hr.
  destruct (register K (a_sv a) g st true) as [sv ok].
  split; [|split; [|split]]; cbn [a_map a_sv a_pl a_fwd fst] in *; auto using ppromote_ok.
  destruct ok; auto. destruct (alookup n (a_map a)) as [[g' st']|]; auto. destruct (g' =? g); auto using map_ok_aremove.
Qed.

Lemma sitem_ok K gd a it : acc_ok K gd a -> item_ok gd it -> acc_ok K gd (sitem K a it).
Proof.
  intros Ha Hi. destruct it as [g st|g st n p|g st n|p|p|n|p]; cbn [sitem];
    try (apply acc_ok_fwd; [auto using ensure_ok | exact I]).
  - destruct (mem g (lru (a_sv a))); [exact Ha|].
    destruct Ha as (Hm & Ht & Hp & Hf). pose proof (register_tab_ok K gd (a_sv a) g st false Ht Hi) as Hr.
    destruct (register K (a_sv a) g st false) as [sv ok].
    split; [|split; [|split]]; cbn [a_map a_sv a_pl a_fwd fst] in *; auto using ppromote_ok. apply Forall_app. auto.
  - destruct (n =? 0); [apply acc_ok_fwd; [exact Ha | exact I] | exact Ha].
Qed.

Lemma sitems_ok K gd its : forall a, acc_ok K gd a -> Forall (item_ok gd) its -> acc_ok K gd (sitems K a its).
Proof.
  unfold sitems. induction its as [|it r IH]; intros a Ha Hi; cbn; auto.
  inversion Hi; subst. apply IH; auto using sitem_ok.
Qed.

Lemma map_ok_mono gd gd' m : (forall g st, gd_ok gd g st -> gd_ok gd' g st) -> map_ok gd m -> map_ok gd' m.
Proof. intros H Hm n g st Hi. eauto. Qed.
Lemma tab_ok_mono gd gd' t : (forall g st, gd_ok gd g st -> gd_ok gd' g st) -> tab_ok gd t -> tab_ok gd' t.
Proof. intros H Hm g st Hi. eauto. Qed.
Lemma items_ok_mono gd gd' its : (forall g st, gd_ok gd g st -> gd_ok gd' g st) -> Forall (item_ok gd) its -> Forall (item_ok gd') its.
Proof. intros H. apply Forall_impl. intros [] Hi; cbn in *; auto. Qed.

Lemma pool_get_or_insert_ok K w st w' g st' : WInv K w -> pool_get_or_insert K w st = (w', (g, st')) ->
  WInv K w' /\ clients w' = clients w /\ servers w' = servers w /\ gd_ok (gdef w') g st' /\ hash K st' = hash K st /\
  exists x, gdef w' = gdef w ++ x /\ (x = [] /\ gd_ok (gdef w) g st' \/ x = [st] /\ st' = st).
Proof.
  intros (Hp & Hc & Hs) H. unfold pool_get_or_insert in H.
  destruct (alookup (hash K st) (plru w)) as [[g0 st0]|] eqn:E; injection H as <- <- <-; unfold WInv; cbn [plru gdef clients servers].
  - apply alookup_In in E. destruct (Hp _ _ _ E) as [Hg Hh].
    csplits; auto using ppromote_ok. exists []. rewrite app_nil_r. auto.
  - pose proof (gd_ok_ext (gdef w)) as Hm.
    csplits; auto using gd_ok_new; [| | |eauto].
    + intros h g0 st0 [[= <- <- <-]|Hi]; [split; [apply gd_ok_new | reflexivity]|].
      assert (Hin : In (h, (g0, st0)) (plru w)) by (destruct (_ <? _) in Hi; [|apply removelast_incl in Hi]; exact Hi).
      destruct (Hp _ _ _ Hin). auto.
    + intros c. split; [apply (map_ok_mono (gdef w)) | apply (items_ok_mono (gdef w))]; auto; apply Hc.
    + intros s. apply (tab_ok_mono (gdef w)); auto.
Qed.

Lemma winv0 K : WInv K world0.
Proof.
  unfold WInv. cbn. csplits.
  - intros ? ? ? [].
  - intros c. split; [intros ? ? ? [] | constructor].
  - intros s ? ? [].
Qed.

Lemma upd_same {A} (f : nat -> A) k v : upd f k v k = v.
Proof. unfold upd. rewrite Nat.eqb_refl. reflexivity. Qed.
Lemma upd_other {A} (f : nat -> A) k v x : x <> k -> upd f k v x = f x.
Proof. unfold upd. intros H. destruct (x =? k) eqn:E; auto. apply Nat.eqb_eq in E. congruence. Qed.

Lemma winv_client K w c cl : WInv K w -> map_ok (gdef w) (cmap cl) -> Forall (item_ok (gdef w)) (cbuf cl) -> WInv K (set_client w c cl).
Proof.
  intros (Hp & Hc & Hs) Hm Hi. unfold WInv, set_client. cbn. csplits; auto.
  intros c0. unfold upd. destruct (c0 =? c); auto.
Qed.

Lemma winv_buffer K w c cm it : WInv K w -> map_ok (gdef w) cm -> item_ok (gdef w) it ->
  WInv K (set_client w c (mkClient cm (cbuf (clients w c) ++ [it]) true)).
Proof.
  intros HW Hm Hi. apply winv_client; cbn; auto.
  apply Forall_app. split; [apply HW | repeat constructor; exact Hi].
Qed.

Lemma winv_step K w o : WInv K w -> WInv K (fst (step K w o)).
Proof.
  intros HW. pose proof HW as (Hp & Hc & Hs).
  assert (Hkill : forall c, WInv K (set_client w c (mkClient (cmap (clients w c)) [] false)))
    by (intros c; apply winv_client; cbn; [exact HW | apply Hc | constructor]).
  destruct o as [c n st|c p n|c n|c p|c p|c n|c p|c s|s]; cbn [step];
    try (destruct (alive (clients w c)); cbn [negb fst]; [|exact HW]).
  - destruct (pool_get_or_insert K w st) as [w1 [g st']] eqn:E.
    destruct (pool_get_or_insert_ok K w st w1 g st' HW E) as (HW1 & Hc1 & _ & Hg & _).
    cbn [fst]. rewrite <- Hc1. apply winv_buffer; [exact HW1 | | exact Hg].
    intros n0 g0 st0 Hi. apply ainsert_In in Hi as [[_ [= <- <-]]|Hi]; [exact Hg | exact (proj1 (proj1 (proj2 HW1) c) _ _ _ Hi)].
  - destruct (alookup n (cmap (clients w c))) as [[g st]|] eqn:El; [|apply Hkill].
    apply winv_buffer; [exact HW | apply Hc | eapply (proj1 (Hc c)), alookup_In, El].
  - destruct (alookup n (cmap (clients w c))) as [[g st]|] eqn:El; [|apply Hkill].
    apply winv_buffer; [exact HW | apply Hc | eapply (proj1 (Hc c)), alookup_In, El].
  - apply winv_buffer; [exact HW | apply Hc | exact I].
  - apply winv_buffer; [exact HW | apply Hc | exact I].
  - apply winv_buffer; [exact HW | | exact I]. destruct (n =? 0); [apply Hc | apply map_ok_aremove; apply Hc].
  - apply winv_buffer; [exact HW | apply Hc | exact I].
  - assert (Ha0 : acc_ok K (gdef w) (mkAcc (cmap (clients w c)) (servers w s) (plru w) [] []))
      by (unfold acc_ok; cbn; csplits; auto; apply Hc).
    pose proof (sitems_ok K (gdef w) (cbuf (clients w c)) _ Ha0 (proj2 (Hc c))) as (Hm & Ht & Hpl & Hf).
    set (a := sitems K (mkAcc (cmap (clients w c)) (servers w s) (plru w) [] []) (cbuf (clients w c))) in *.
    assert (Hgen : forall sv, tab_ok (gdef w) (btab sv) ->
              WInv K (mkWorld (upd (clients w) c (mkClient (a_map a) [] true)) (upd (servers w) s sv) (a_pl a) (gdef w))).
    { intros sv Hsv. unfold WInv. cbn. csplits; auto.
      - intros c0. unfold upd. destruct (c0 =? c); cbn; auto; split; try exact Hm; try constructor.
      - intros s0. unfold upd. destruct (s0 =? s); auto. }
    destruct (a_fwd a) as [|m0 f0] eqn:Ef; [apply Hgen; exact Ht|].
    pose proof (exchange_tab_ok K (gdef w) (a_sv a) (m0 :: f0) Ht Hf) as Hx.
    destruct (exchange K (a_sv a) (m0 :: f0)) as [sv rs]. apply Hgen. exact Hx.
  - unfold WInv. cbn. csplits; auto. intros s0. unfold upd. destruct (s0 =? s); cbn; auto. intros ? ? [].
Qed.

Lemma winv_run K ops : forall w, WInv K w -> WInv K (fst (run K w ops)).
Proof.
  induction ops as [|o r IH]; intros w H; cbn; auto.
  pose proof (winv_step K w o H) as H1. destruct (step K w o) as [w1 o1]. cbn in H1.
  specialize (IH w1 H1). destruct (run K w1 r) as [w2 o2]. exact IH.
Qed.

Theorem names_determine_statement : forall K ops w, w = fst (run K world0 ops) ->
  (forall s1 s2 g st1 st2, In (g, st1) (btab (servers w s1)) -> In (g, st2) (btab (servers w s2)) -> st1 = st2) /\
  (forall c s n g st1 st2, In (n, (g, st1)) (cmap (clients w c)) -> In (g, st2) (btab (servers w s)) -> st1 = st2) /\
  (forall c1 c2 n1 n2 g st1 st2, In (n1, (g, st1)) (cmap (clients w c1)) -> In (n2, (g, st2)) (cmap (clients w c2)) -> st1 = st2).
Proof.
  intros K ops w ->. pose proof (winv_run K ops world0 (winv0 K)) as (Hp & Hc & Hs).
  csplits.
  - intros s1 s2 g st1 st2 H1 H2. apply Hs in H1. apply Hs in H2. unfold gd_ok in *. congruence.
  - intros c s n g st1 st2 H1 H2. apply (proj1 (Hc c)) in H1. apply Hs in H2. unfold gd_ok in *. congruence.
  - intros c1 c2 n1 n2 g st1 st2 H1 H2. apply (proj1 (Hc c1)) in H1. apply (proj1 (Hc c2)) in H2. unfold gd_ok in *. congruence.
Qed.


(** * Part B1 — LRU lists as [touched ++ rest] *)

Lemma touch_In l g x : In x (touch l g) <-> In x l.
Proof.
  unfold touch. destruct (mem g l) eqn:E; [|tauto]. apply mem_In in E. cbn. rewrite remove_nat_In.
  split; [intros [H|[H _]]; subst; auto | intros H; destruct (Nat.eq_dec x g); [left; auto | right; auto]].
Qed.

Lemma touch_in l g : In g l -> touch l g = g :: remove_nat g l.
Proof. intros H. unfold touch. apply mem_In in H. rewrite H. reflexivity. Qed.

Lemma touch_notin l g : ~ In g l -> touch l g = l.
Proof. intros H. unfold touch. apply mem_false in H. rewrite H. reflexivity. Qed.

Lemma NoDup_touched l g : NoDup l -> NoDup (g :: remove_nat g l).
Proof. intros H. constructor; [rewrite remove_nat_In; tauto | apply remove_nat_NoDup; exact H]. Qed.

Lemma length_touched l g : NoDup l -> In g l -> length (g :: remove_nat g l) = length l.
Proof.
  induction l as [|z l IH]; cbn; [tauto|]. intros Hnd [H|H].
  - subst. rewrite Nat.eqb_refl. inversion Hnd; subst. rewrite remove_nat_notin by assumption. reflexivity.
  - inversion Hnd; subst. destruct (g =? z) eqn:E; [apply Nat.eqb_eq in E; subst; contradiction|].
    cbn [length]. cbn [length] in IH. rewrite IH by assumption. reflexivity.
Qed.

Lemma touch_head g l : NoDup (g :: l) -> touch (g :: l) g = g :: l.
Proof.
  intros H. inversion H; subst. unfold touch. cbn. rewrite Nat.eqb_refl. cbn. rewrite remove_nat_notin by assumption. reflexivity.
Qed.

Lemma touched_incl g l x : In x l -> In x (g :: remove_nat g l).
Proof. intros H. destruct (Nat.eq_dec x g); [left; auto | right; apply remove_nat_In; auto]. Qed.

Definition evicted (ev : option nat) : list nat := match ev with Some e => [e] | None => [] end.

Lemma push_decomp cap tl rest g l ev : length (tl ++ rest) <= cap -> length tl < cap ->
  push cap (tl ++ rest) g = (l, ev) ->
  exists rest', l = g :: tl ++ rest' /\ rest = rest' ++ evicted ev /\ length l <= cap.
Proof.
  intros Hlen Htl. unfold push. destruct (length (tl ++ rest) <? cap) eqn:E; intros [= <- <-].
  - apply Nat.ltb_lt in E. exists rest. rewrite app_nil_r. cbn. auto.
  - apply Nat.ltb_ge in E. assert (Hr : rest <> []) by (intros ->; rewrite app_nil_r in *; lia).
    destruct (exists_last Hr) as (rest' & e & ->). exists rest'.
    rewrite app_assoc, removelast_last, last_last. cbn. rewrite !app_length in *. cbn in *. repeat split. lia.
Qed.

(** * Part B2 — the backend on a well-formed batch *)

Definition pname (m : bmsg) : list nat := match m with BParse g _ => [g] | _ => [] end.
Definition pnames (ms : list bmsg) : list nat := flat_map pname ms.
Definition mref (m : bmsg) : list nat := match m with BParse g _ | BBind g _ | BDesc g | BClose g => [g] | _ => [] end.
Definition refs (ms : list bmsg) : list nat := flat_map mref ms.

Lemma pnames_app a b : pnames (a ++ b) = pnames a ++ pnames b.
Proof. unfold pnames. apply flat_map_app. Qed.
Lemma refs_app a b : refs (a ++ b) = refs a ++ refs b.
Proof. unfold refs. apply flat_map_app. Qed.

(* [D]: names the backend knows before the batch; accumulates the batch's own Parses.  Portal
   messages (Describe/Execute/Close of a portal) say nothing about statement names. *)
Fixpoint fwd_good (K : cfg) (gd : list nat) (D : nat -> Prop) (ms : list bmsg) : Prop :=
  match ms with
  | [] => True
  | BParse g st :: r => ~ D g /\ kind K st = Good /\ nth_error gd g = Some st /\ fwd_good K gd (fun x => x = g \/ D x) r
  | BBind g _ :: r => D g /\ fwd_good K gd D r
  | BDesc g :: r => D g /\ fwd_good K gd D r
  | BDescP _ :: r => fwd_good K gd D r
  | BExec _ :: r => fwd_good K gd D r
  | BCloseUnnamed :: r => fwd_good K gd D r
  | BCloseP _ :: r => fwd_good K gd D r
  | BClose _ :: _ => False
  | BSync :: _ => False
  end.

Lemma fwd_good_ext K gd ms : forall D D', (forall g, In g (refs ms) -> (D g <-> D' g)) -> fwd_good K gd D ms -> fwd_good K gd D' ms.
Proof.
  induction ms as [|m r IH]; intros D D' He H; cbn in *; auto.
  destruct m; cbn in *; try tauto; try (eapply IH; eauto; fail).
  - destruct H as (H1 & H2 & H3 & H4). repeat split; auto.
    + rewrite <- He; auto.
    + eapply IH; [|exact H4]. intros x Hx. cbn. rewrite He; [tauto | auto].
  - destruct H as [H1 H2]. split; [rewrite <- He; auto | eapply IH; eauto].
  - destruct H as [H1 H2]. split; [rewrite <- He; auto | eapply IH; eauto].
Qed.

Lemma fwd_good_snoc K gd ms : forall D m, fwd_good K gd D ms ->
  match m with
  | BParse g st => ~ D g /\ ~ In g (pnames ms) /\ kind K st = Good /\ nth_error gd g = Some st
  | BBind g _ | BDesc g => D g \/ In g (pnames ms)
  | BExec _ | BDescP _ | BCloseP _ | BCloseUnnamed => True
  | _ => False
  end -> fwd_good K gd D (ms ++ [m]).
Proof.
  induction ms as [|m0 r IH]; intros D m H Hm; cbn in *.
  - destruct m; cbn; tauto.
  - destruct m0; cbn in *; try tauto; try (apply IH; auto; fail).
    + destruct H as (H1 & H2 & H3 & H4). repeat split; auto. apply IH; auto.
      destruct m; auto; try (unfold pnames in *; destruct Hm as [X|[X|X]]; auto; fail).
      destruct Hm as (A & B & C & E). repeat split; auto. intros [X|X]; [subst; apply B; auto | tauto].
    + destruct H as [H1 H2]. split; auto.
    + destruct H as [H1 H2]. split; auto.
Qed.

(* replies the backend gives to a good batch; [pt] = the open portals (name -> statement) *)
Definition ptabT := list (nat * nat).
Definition prep (mk : nat -> reply) (o : option nat) : reply := match o with Some st => mk st | None => RErr end.
Fixpoint fexp (gd : list nat) (pt : ptabT) (ms : list bmsg) : list reply :=
  match ms with
  | [] => []
  | BParse _ _ :: r => R1 :: fexp gd pt r
  | BBind g p :: r => R2 :: fexp gd (ainsert p (nth g gd 0) pt) r
  | BDesc g :: r => RDescr (nth g gd 0) :: fexp gd pt r
  | BDescP p :: r => prep RDescrP (alookup p pt) :: fexp gd pt r
  | BExec p :: r => prep RRow (alookup p pt) :: fexp gd pt r
  | BCloseUnnamed :: r => R3 :: fexp gd pt r
  | BCloseP p :: r => R3 :: fexp gd (aremove p pt) r
  | _ :: r => fexp gd pt r
  end.
Fixpoint fportal (gd : list nat) (pt : ptabT) (ms : list bmsg) : ptabT :=
  match ms with
  | [] => pt
  | BBind g p :: r => fportal gd (ainsert p (nth g gd 0) pt) r
  | BCloseP p :: r => fportal gd (aremove p pt) r
  | _ :: r => fportal gd pt r
  end.
(* every Execute / Describe('P') of the batch names an open portal *)
Fixpoint fexec_ok (gd : list nat) (pt : ptabT) (ms : list bmsg) : Prop :=
  match ms with
  | [] => True
  | BBind g p :: r => fexec_ok gd (ainsert p (nth g gd 0) pt) r
  | BCloseP p :: r => fexec_ok gd (aremove p pt) r
  | BExec p :: r => alookup p pt <> None /\ fexec_ok gd pt r
  | BDescP p :: r => alookup p pt <> None /\ fexec_ok gd pt r
  | _ :: r => fexec_ok gd pt r
  end.

Definition pt_good (K : cfg) (pt : ptabT) : Prop := forall p st, alookup p pt = Some st -> kind K st = Good.

Lemma pt_good_insert K pt p st : pt_good K pt -> kind K st = Good -> pt_good K (ainsert p st pt).
Proof.
  intros H Hk p' st' Hl. destruct (Nat.eq_dec p' p) as [->|Hne].
  - rewrite alookup_ainsert_eq in Hl. inversion Hl; subst. exact Hk.
  - rewrite alookup_ainsert_neq in Hl by assumption. eauto.
Qed.
Lemma pt_good_remove K pt p : pt_good K pt -> pt_good K (aremove p pt).
Proof.
  intros H p' st' Hl. destruct (Nat.eq_dec p' p) as [->|Hne].
  - rewrite alookup_aremove_eq in Hl. discriminate.
  - rewrite alookup_aremove_neq in Hl by assumption. eauto.
Qed.

Definition gd_good (K : cfg) (univ : list nat) (gd : list nat) : Prop := Forall (fun st => kind K st = Good /\ In st univ) gd.

Lemma gd_good_kind K univ gd g st : gd_good K univ gd -> nth_error gd g = Some st -> kind K st = Good.
Proof. intros H Hn. apply nth_error_In in Hn. unfold gd_good in H. rewrite Forall_forall in H. apply H. exact Hn. Qed.

Lemma fexp_app gd a : forall pt b, fexp gd pt (a ++ b) = fexp gd pt a ++ fexp gd (fportal gd pt a) b.
Proof. induction a as [|m r IH]; intros pt b; [reflexivity|]. destruct m; cbn [app fexp fportal]; rewrite ?IH; reflexivity. Qed.

Lemma fportal_app gd a : forall pt b, fportal gd pt (a ++ b) = fportal gd (fportal gd pt a) b.
Proof. induction a as [|m r IH]; intros pt b; [reflexivity|]. destruct m; cbn [app fportal]; rewrite ?IH; reflexivity. Qed.

(* one message of a good batch: the reply is the expected one, and what the rest of the batch needs holds again *)
Lemma bstep_good K gd univ t pt m r :
  gd_good K univ gd -> tab_ok gd t -> pt_good K pt ->
  fwd_good K gd (fun g => alookup g t <> None) (m :: r) -> fexec_ok gd pt (m :: r) ->
  exists t1, bstep K (mkB t pt false) m = (mkB t1 (fportal gd pt [m]) false, fexp gd pt [m]) /\
    tab_ok gd t1 /\ pt_good K (fportal gd pt [m]) /\
    (forall g, alookup g t1 <> None <-> alookup g t <> None \/ In g (pname m)) /\
    fwd_good K gd (fun g => alookup g t1 <> None) r /\ fexec_ok gd (fportal gd pt [m]) r /\
    (forall st, In (RRow st) (fexp gd pt [m]) -> kind K st = Good).
Proof.
  intros HG Ht Hp Hf He.
  destruct m; cbn [fwd_good fexec_ok fportal fexp pname In bstep b_skip b_tab b_portal] in *; try contradiction.
  - destruct Hf as (Hn & Hk & Hgd & Hf). exists ((g, st) :: t). rewrite Hk.
    destruct (alookup g t) eqn:El; [destruct Hn; congruence|].
    assert (Hd : forall x, alookup x ((g, st) :: t) <> None <-> x = g \/ alookup x t <> None).
    { intros x. cbn. destruct (Nat.eqb_spec x g) as [->|E]; [split; [auto | discriminate] | tauto]. }
    split; [reflexivity|]. split; [intros g' st' [[= <- <-]|H]; auto|]. split; [exact Hp|].
    split; [intros x; rewrite Hd; intuition congruence|].
    split; [eapply fwd_good_ext; [|exact Hf]; intros x _; symmetry; apply Hd|].
    split; [exact He | intros st0 [X|[]]; discriminate].
  - destruct Hf as [Hdg Hf]. destruct (alookup g t) as [st|] eqn:El; [|contradiction].
    pose proof (Ht _ _ (alookup_In _ _ _ El)) as Hgd. rewrite (nth_error_nth _ _ 0 Hgd) in *.
    pose proof (pt_good_insert K pt p st Hp (gd_good_kind _ _ _ _ _ HG Hgd)). exists t. split; [reflexivity|].
    repeat (split; [assumption || tauto|]). intros st0 [X|[]]; discriminate.
  - destruct Hf as [Hdg Hf]. destruct (alookup g t) as [st|] eqn:El; [|contradiction].
    rewrite (nth_error_nth _ _ 0 (Ht _ _ (alookup_In _ _ _ El))). exists t. split; [reflexivity|].
    repeat (split; [assumption || tauto|]). intros st0 [X|[]]; discriminate.
  - destruct He as [Hpt He]. destruct (alookup p pt) as [st|] eqn:Ep; [|congruence]. exists t. split; [reflexivity|].
    repeat (split; [assumption || tauto|]). intros st0 [X|[]]; discriminate.
  - destruct He as [Hpt He]. destruct (alookup p pt) as [st|] eqn:Ep; [|congruence]. rewrite (Hp p st Ep). exists t.
    split; [reflexivity|]. repeat (split; [assumption || tauto|]). intros st0 [[= <-]|[]]; eauto.
  - exists t. split; [reflexivity|]. repeat (split; [assumption || tauto|]). intros st0 [X|[]]; discriminate.
  - pose proof (pt_good_remove K pt p Hp). exists t. split; [reflexivity|].
    repeat (split; [assumption || tauto|]). intros st0 [X|[]]; discriminate.
Qed.

Lemma brun_good K gd univ ms : gd_good K univ gd -> forall t pt,
  tab_ok gd t -> pt_good K pt ->
  fwd_good K gd (fun g => alookup g t <> None) ms -> fexec_ok gd pt ms ->
  exists t', brun K (mkB t pt false) ms = (mkB t' (fportal gd pt ms) false, fexp gd pt ms) /\
             (forall g, alookup g t' <> None <-> (alookup g t <> None \/ In g (pnames ms))) /\
             (forall st, In (RRow st) (fexp gd pt ms) -> kind K st = Good).
Proof.
  intros HG. induction ms as [|m r IH]; intros t pt Ht Hp Hf He.
  - exists t. split; [reflexivity|]. split; [cbn; tauto | intros st []].
  - destruct (bstep_good K gd univ t pt m r HG Ht Hp Hf He) as (t1 & Hs & Ht1 & Hp1 & Hd1 & Hf1 & He1 & Hr1).
    destruct (IH t1 _ Ht1 Hp1 Hf1 He1) as (t' & Hr & Hd & Hrows).
    exists t'. cbn [brun]. rewrite Hs, Hr. change (m :: r) with ([m] ++ r). rewrite fexp_app, fportal_app, pnames_app.
    split; [reflexivity|]. split.
    + intros g. rewrite Hd, Hd1, in_app_iff. cbn [pnames flat_map]. rewrite app_nil_r. tauto.
    + intros st X. apply in_app_iff in X as [X|X]; auto.
Qed.

Definition quiet (K : cfg) (rs : list reply) : Prop :=
  ~ In RErr rs /\ (forall st, In (RRow st) rs -> kind K st = Good).

Lemma recv_noerr K l q rs : quiet K rs -> fst (recv K l q rs) = l.
Proof.
  revert l q. induction rs as [|r rs IH]; intros l q [H1 H2]; cbn; auto.
  assert (Hq : quiet K rs) by (split; [intros X; apply H1; right; exact X | intros st X; apply H2; right; exact X]).
  destruct r; try (apply IH; exact Hq).
  - rewrite (H2 st (or_introl eq_refl)). apply IH. exact Hq.
  - exfalso. apply H1. left. reflexivity.
Qed.

Lemma fexp_noerr gd ms : forall pt, fexec_ok gd pt ms -> ~ In RErr (fexp gd pt ms).
Proof.
  induction ms as [|m r IH]; intros pt He X; [destruct X|].
  destruct m; cbn [fexp fexec_ok] in *;
    try (destruct He as [Hp He]; destruct (alookup p pt); [|congruence]);
    try (destruct X as [X|X]; [discriminate|]); eapply IH; eauto.
Qed.


(** * Part B3 — names: the client map against the specification's table *)

Definition cmapT := list (nat * (nat * nat)).
Definition mapx (M : cmapT) (n : nat) : option nat := option_map snd (alookup n M).

(* what the buffered items say about the buffered ops, from the front; [M] = the client map when
   the first op was buffered, [Mf] = the client map now.  Since the repairs the map follows the
   messages in order: Parse inserts, Close removes, Bind/Describe are resolved on arrival. *)
Fixpoint brel (gd : list nat) (M : cmapT) (os : list op) (its : list item) (Mf : cmapT) : Prop :=
  match os, its with
  | [], [] => Mf = M
  | Parse _ n st :: os', IParse g st' :: its' => st' = st /\ nth_error gd g = Some st /\ brel gd (ainsert n (g, st) M) os' its' Mf
  | Bind _ p n :: os', IBind g st n' p' :: its' => (n' = n /\ p' = p) /\ alookup n M = Some (g, st) /\ nth_error gd g = Some st /\ brel gd M os' its' Mf
  | Describe _ n :: os', IDesc g st n' :: its' => n' = n /\ alookup n M = Some (g, st) /\ nth_error gd g = Some st /\ brel gd M os' its' Mf
  | DescribeP _ p :: os', IDescP p' :: its' => p' = p /\ brel gd M os' its' Mf
  | Execute _ p :: os', IExec p' :: its' => p' = p /\ brel gd M os' its' Mf
  | Close _ n :: os', IClose n' :: its' => n' = n /\ brel gd (if n =? 0 then M else aremove n M) os' its' Mf
  | CloseP _ p :: os', IClosePortal p' :: its' => p' = p /\ brel gd M os' its' Mf   (* the map is not touched *)
  | _, _ => False
  end.

Lemma brel_mono gd gd' : (forall g st, nth_error gd g = Some st -> nth_error gd' g = Some st) ->
  forall os M its Mf, brel gd M os its Mf -> brel gd' M os its Mf.
Proof.
  intros Hm. induction os as [|o os IH]; intros M its Mf H; destruct its as [|it its]; try exact H.
  destruct o, it; try exact H; cbn in *; intuition auto.
Qed.

Lemma brel_app gd os2 its2 Mf' : forall os M its Mf,
  brel gd M os its Mf -> brel gd Mf os2 its2 Mf' -> brel gd M (os ++ os2) (its ++ its2) Mf'.
Proof.
  induction os as [|o os IH]; intros M its Mf H Hs; destruct its as [|it its]; cbn in H; try contradiction; try (destruct o; contradiction).
  - subst. exact Hs.
  - destruct o, it; cbn in *; try contradiction; intuition eauto.
Qed.

(** the buffer-time map [M] and the specification's table [tab] agree name by name *)
Definition NJ (M : cmapT) (tab : list (nat * nat)) : Prop := forall n, mapx M n = alookup n tab.

Lemma NJ_parse M tab n g st : NJ M tab -> NJ (ainsert n (g, st) M) (ainsert n st tab).
Proof.
  intros H n0. unfold mapx. destruct (Nat.eq_dec n0 n) as [->|Hne].
  - rewrite !alookup_ainsert_eq. reflexivity.
  - rewrite !alookup_ainsert_neq by assumption. apply H.
Qed.

Lemma NJ_close M tab n : NJ M tab -> NJ (aremove n M) (aremove n tab).
Proof.
  intros H n0. unfold mapx. destruct (Nat.eq_dec n0 n) as [->|Hne].
  - rewrite !alookup_aremove_eq. reflexivity.
  - rewrite !alookup_aremove_neq by assumption. apply H.
Qed.

Lemma NJ_lookup M tab n g st : NJ M tab -> alookup n M = Some (g, st) -> alookup n tab = Some st.
Proof. intros H HM. rewrite <- H. unfold mapx. rewrite HM. reflexivity. Qed.

Lemma walk K gd : forall os M its Mf tab known pt b tail,
  brel gd M os its Mf -> NJ M tab -> batch_ok K tab known pt b (os ++ tail) = true ->
  exists tab' known' pt' b', NJ Mf tab' /\ batch_ok K tab' known' pt' b' tail = true.
Proof.
  induction os as [|o os IH]; intros M its Mf tab known pt b tail H HJ Hb; destruct its as [|it its]; cbn in H; try contradiction; try (destruct o; contradiction).
  - subst. cbn in Hb. eauto 10.
  - destruct o, it; cbn in H; try contradiction; cbn [app batch_ok] in Hb;
      try (destruct (alookup n tab); [|discriminate]); try apply andb_prop in Hb as [Hb0 Hb].
    1: { destruct H as (-> & _ & C). eapply IH; [exact C | apply NJ_parse; exact HJ | exact Hb]. }
    5: { destruct H as (-> & C). apply negb_true_iff in Hb0. rewrite Hb0 in C.
         eapply IH; [exact C | apply NJ_close; exact HJ | exact Hb]. }
    all: eapply IH; [apply H | exact HJ | exact Hb].
Qed.

(* consequence used when a Bind/Describe is buffered: the name is in the client map *)
Lemma buffered_lookup K gd os M0 its Mf tab b n (o : op) :
  brel gd M0 os its Mf -> NJ M0 tab ->
  batch_ok K tab [] [] b (os ++ [o]) = true ->
  match o with Bind _ _ n' | Describe _ n' => n' = n | _ => False end ->
  exists g st, alookup n Mf = Some (g, st).
Proof.
  intros H H0 Hb Ho.
  destruct (walk K gd os M0 its Mf tab [] [] b [o] H H0 Hb) as (tab' & known' & pt' & b' & J & Hb').
  assert (Hl : alookup n tab' <> None).
  { destruct o; try contradiction; subst; cbn in Hb'; destruct (alookup n tab'); discriminate. }
  specialize (J n). unfold mapx in J. destruct (alookup n Mf) as [[g st]|]; [eauto|]. cbn in J. congruence.
Qed.

(* and when a Parse or a Close is buffered *)
Lemma last_op_facts K gd M0 os its Mf tab b o :
  brel gd M0 os its Mf -> NJ M0 tab ->
  batch_ok K tab [] [] b (os ++ [o]) = true ->
  match o with Parse _ _ st => kind K st = Good | Close _ n => n <> 0 | _ => True end.
Proof.
  intros H H0 Hb.
  destruct (walk K gd os M0 its Mf tab [] [] b [o] H H0 Hb) as (tab' & known' & pf' & b' & _ & Hb').
  destruct o; auto; cbn [batch_ok] in Hb'.
  2:{ rewrite !andb_true_iff in Hb'. destruct Hb' as (Hn & _). apply negb_true_iff in Hn. apply Nat.eqb_neq in Hn. exact Hn. }
  apply andb3 in Hb' as (Hk & _).
  destruct (kind K st); congruence.
Qed.


(** * Part B4 — one server connection during the 'S' arm *)

(* lru = touched names (most recent first) ++ the rest; [pend] = names whose Parse is in the
   batch that has not been sent yet *)
Record SInv (K : cfg) (gd : list nat) (sv : server) (tl rest pend : list nat) : Prop := {
  si_lru : lru sv = tl ++ rest;
  si_nd : NoDup (tl ++ rest);
  si_len : length (tl ++ rest) <= cs K;
  si_dom : forall g, In g (tl ++ rest) <-> (alookup g (btab sv) <> None \/ In g pend);
  si_pend : forall g, In g pend -> alookup g (btab sv) = None;
  si_ptl : forall g, In g pend -> In g tl;
  si_tab : tab_ok gd (btab sv) }.

Lemma touch_good K gd sv tl rest pend g : SInv K gd sv tl rest pend -> In g (tl ++ rest) ->
  SInv K gd (mkServer (touch (lru sv) g) (queue sv) (btab sv) (slog sv)) (g :: remove_nat g tl) (remove_nat g rest) pend.
Proof.
  intros [H1 H2 H3 H4 H5 H6 H7] Hin.
  constructor; cbn [lru btab app]; rewrite <- ?remove_nat_app; auto.
  - rewrite H1. apply touch_in. exact Hin.
  - apply NoDup_touched. exact H2.
  - rewrite length_touched by assumption. exact H3.
  - intros x. rewrite <- H4. split; [intros [->|H]; [exact Hin | apply remove_nat_In in H; tauto] | apply touched_incl].
  - intros x Hx. apply touched_incl. auto.
Qed.

(* the least recently used name leaves the cache and is closed on the backend *)
Lemma evict_good K gd sv tl rest e pend q log : SInv K gd sv tl (rest ++ [e]) pend ->
  SInv K gd (mkServer (tl ++ rest) q (aremove e (btab sv)) log) tl rest pend.
Proof.
  intros [H1 H2 H3 H4 H5 H6 H7]. rewrite app_assoc in *.
  assert (He : ~ In e (tl ++ rest)) by (intros X; exact (NoDup_app_disj _ _ e H2 X (or_introl eq_refl))).
  assert (Hlk : forall x, In x (tl ++ rest) -> alookup x (aremove e (btab sv)) = alookup x (btab sv))
    by (intros x Hx; apply alookup_aremove_neq; intros ->; auto).
  constructor; cbn [lru btab]; auto.
  - eapply NoDup_app_l; exact H2.
  - rewrite app_length in H3. lia.
  - intros x. split.
    + intros Hx. rewrite Hlk by assumption. apply H4. apply in_app_iff. auto.
    + intros Hx. assert (Hxe : x <> e).
      { intros ->. destruct Hx as [Hx|Hx]; [rewrite alookup_aremove_eq in Hx; auto | apply He, in_app_iff; auto]. }
      rewrite alookup_aremove_neq in Hx by assumption. apply H4, in_app_iff in Hx as [Hx|[Hx|[]]]; congruence.
  - intros x Hx. rewrite Hlk; [auto | apply in_app_iff; auto].
  - intros x st Hi. apply aremove_In in Hi. auto.
Qed.

(* a name the cache does not hold enters at the front; its Parse is sent now or waits in the batch *)
Lemma insert_good K gd sv tl rest pend g st (snd_ : bool) q log :
  SInv K gd sv tl rest pend -> ~ In g (tl ++ rest) -> length (tl ++ rest) < cs K -> nth_error gd g = Some st ->
  SInv K gd (mkServer (g :: tl ++ rest) q ((if snd_ then [(g, st)] else []) ++ btab sv) log)
       (g :: tl) rest (if snd_ then pend else pend ++ [g]).
Proof.
  intros [H1 H2 H3 H4 H5 H6 H7] Hg Hlen Hgd.
  assert (Hgb : alookup g (btab sv) = None).
  { destruct (alookup g (btab sv)) eqn:E; auto. destruct Hg. apply H4. left. congruence. }
  constructor; cbn [lru btab app]; auto.
  - constructor; assumption.
  - intros x. destruct (Nat.eq_dec x g) as [->|Hx].
    + split; [intros _ | left; reflexivity].
      destruct snd_; [left; cbn; rewrite Nat.eqb_refl; discriminate | right; apply in_app_iff; cbn; auto].
    + rewrite alookup_sent by assumption. cbn [In]. rewrite H4.
      destruct snd_; [|rewrite in_app_iff; cbn [In]]; intuition congruence.
  - intros x Hx. destruct (Nat.eq_dec x g) as [->|Hxg].
    + destruct snd_; [destruct Hg; apply in_app_iff; auto | exact Hgb].
    + rewrite alookup_sent by assumption. apply H5. destruct snd_; [exact Hx | apply in_app_iff in Hx as [Hx|[Hx|[]]]; congruence].
  - intros x Hx. destruct snd_; [right; auto | apply in_app_iff in Hx as [Hx|[<-|[]]]; [right; auto | left; reflexivity]].
  - destruct snd_; [|exact H7]. intros g' st' [[= <- <-]|Hi]; auto.
Qed.

(* Server::register_prepared_statement on a cache miss, for a statement that is fine and that the
   backend does not hold: the evicted name is closed, the Parse (if it is sent now) succeeds, and
   the replies leave the cache as [push] made it *)
Lemma register_miss K sv g st snd_ l ev :
  mem g (lru sv) = false -> push (cs K) (lru sv) g = (l, ev) -> kind K st = Good -> alookup g (btab sv) = None ->
  exists q log, register K sv g st snd_ =
    (mkServer (touch l g) q ((if snd_ then [(g, st)] else []) ++ fold_right aremove (btab sv) (evicted ev)) log, mem g l).
Proof.
  intros Hm Hp Hk Hg. unfold register. rewrite Hm, Hp.
  assert (Hg' : alookup g (fold_right aremove (btab sv) (evicted ev)) = None)
    by (destruct ev; cbn; auto using alookup_aremove_none).
  destruct snd_, ev as [e|]; cbn in Hg' |- *; unfold exchange; cbn; rewrite ?Hk, ?Hg'; cbn; eauto.
Qed.

(* Server::register_prepared_statement on a statement that is fine: it ends up in the cache, at
   most one name of [rest] is evicted (and closed on the backend), nothing touched is lost *)
Lemma register_good K gd univ sv tl rest pend g st snd_ :
  gd_good K univ gd -> SInv K gd sv tl rest pend -> (In g (tl ++ rest) \/ length tl < cs K) ->
  nth_error gd g = Some st -> (snd_ = false -> ~ In g (tl ++ rest)) ->
  exists sv' rest',
    register K sv g st snd_ = (sv', true) /\
    SInv K gd sv' (g :: remove_nat g tl) rest' (if snd_ then pend else pend ++ [g]) /\
    (forall x, In x tl -> alookup x (btab sv') = alookup x (btab sv)).
Proof.
  intros Hgood HS Hroom Hgd Hfalse. pose proof HS as [H1 H2 H3 H4 _ _ _].
  destruct (mem g (lru sv)) eqn:Em.
  - unfold register. rewrite Em. apply mem_In in Em. rewrite H1 in Em.
    destruct snd_; [|destruct (Hfalse eq_refl Em)].
    do 2 eexists. split; [reflexivity|]. split; [eapply touch_good; eassumption | reflexivity].
  - pose proof Em as Eg. apply mem_false in Eg. rewrite H1 in Eg.
    destruct (push (cs K) (lru sv) g) as [l ev] eqn:Ep. pose proof Ep as Ep'. rewrite H1 in Ep'.
    destruct (push_decomp _ _ _ _ _ _ H3 ltac:(tauto) Ep') as (rest' & -> & -> & Hlen).
    assert (Hgb : alookup g (btab sv) = None).
    { destruct (alookup g (btab sv)) eqn:E; auto. destruct Eg. apply H4. left. congruence. }
    destruct (register_miss K sv g st snd_ _ ev Em Ep (gd_good_kind _ _ _ _ _ Hgood Hgd) Hgb) as (q & log & ->).
    rewrite app_assoc in Eg, H2.
    assert (Eg' : ~ In g (tl ++ rest')) by (intros X; apply Eg, in_app_iff; auto).
    assert (Egt : ~ In g tl) by (intros X; apply Eg', in_app_iff; auto).
    rewrite touch_head by (constructor; [exact Eg' | eapply NoDup_app_l; exact H2]).
    cbn [mem existsb]. rewrite Nat.eqb_refl, remove_nat_notin by exact Egt.
    eexists; exists rest'. split; [reflexivity|]. cbn [btab].
    (* evict (if the cache was full), then insert *)
    destruct ev as [e|]; cbn [evicted fold_right] in *.
    + split; [apply (insert_good K gd (mkServer (tl ++ rest') [] (aremove e (btab sv)) [])); auto; apply evict_good; exact HS|].
      intros x Hx. rewrite alookup_sent, alookup_aremove_neq; [reflexivity | | ]; intros ->; [|exact (Egt Hx)].
      apply (NoDup_app_disj _ _ e H2); [apply in_app_iff|left]; auto.
    + rewrite app_nil_r in *. split; [apply insert_good; auto|].
      intros x Hx. apply alookup_sent. intros ->. exact (Egt Hx).
Qed.


(** * Part B5 — the 'S' arm against the specification's batch run *)

(** ** replies up to the position of the acknowledgements *)
Lemma count_r_app f x y : count_r f (x ++ y) = count_r f x + count_r f y.
Proof. unfold count_r. rewrite filter_app. apply app_length. Qed.

Lemma norm_app_congr x y z : norm x = norm y -> norm (x ++ z) = norm (y ++ z).
Proof.
  unfold norm. intros [= H0 H1 H2 H3 H4].
  f_equal; [rewrite !filter_app, H0; reflexivity|]. f_equal; [f_equal; [f_equal|]|]; rewrite !count_r_app; congruence.
Qed.

Lemma count_r_move f x y r : count_r f (x ++ r :: y) = count_r f ((x ++ y) ++ [r]).
Proof. change (r :: y) with ([r] ++ y). rewrite !count_r_app. lia. Qed.

(* an acknowledgement may move to the end *)
Lemma norm_move x y r : is_data r = false -> norm (x ++ r :: y) = norm ((x ++ y) ++ [r]).
Proof.
  intros Hr. unfold norm. rewrite !(count_r_move _ x y r). f_equal.
  rewrite !filter_app. cbn [filter]. rewrite Hr, app_nil_r. reflexivity.
Qed.

Lemma fexec_ok_app gd a : forall pt b, fexec_ok gd pt a -> fexec_ok gd (fportal gd pt a) b -> fexec_ok gd pt (a ++ b).
Proof.
  induction a as [|m r IH]; intros pt b H Hb; [exact Hb|].
  destruct m; cbn [app fexec_ok fportal] in *; try (apply IH; assumption); (split; [apply H | apply IH; [apply H | exact Hb]]).
Qed.

Lemma pnames_refs ms g : In g (pnames ms) -> In g (refs ms).
Proof.
  unfold pnames, refs. rewrite !in_flat_map. intros [m [H1 H2]]. exists m. split; auto. destruct m; cbn in *; auto.
Qed.

(** ** the loop invariant *)
(* names: the buffered ops against the items, the client map [m] against the specification's table *)
Record LN (K : cfg) (gd : list nat) (Mf m M : cmapT) (d : dstate) (os : list op) (its : list item)
          (known : list nat) (b : nat) : Prop := {
  ln_brel : brel gd M os its Mf;
  ln_ok : batch_ok K (d_tab d) known (d_portal d) b os = true;
  ln_skip : d_skip d = false;
  ln_nj : NJ M (d_tab d);
  ln_map : m = Mf }.

(* server: the cache, the server-side names the batch has touched, the room that is left *)
Record LS (K : cfg) (gd : list nat) (sv : server) (fwd : list bmsg) (M : cmapT) (known : list nat) (b : nat)
          (tl rest : list nat) : Prop := {
  ls_srv : SInv K gd sv tl rest (pnames fwd);
  ls_budget : length tl + b <= cs K;
  ls_touch : forall n, In n known -> exists g st, alookup n M = Some (g, st) /\ In g tl;
  ls_refs : forall g, In g (refs fwd) -> In g tl;
  ls_fwd : fwd_good K gd (fun g => alookup g (btab sv) <> None) fwd }.

(* replies: what the backend will answer to the forwarded messages and what was synthesised,
   against the specification's replies so far; [pt] = the specification's open portals *)
Record LR (K : cfg) (gd : list nat) (fwd : list bmsg) (syn : list reply) (pt : ptabT) (drs : list reply) : Prop := {
  lr_exec : fexec_ok gd [] fwd;
  lr_portal : fportal gd [] fwd = pt;
  lr_pgood : pt_good K pt;
  lr_norm : norm (syn ++ fexp gd [] fwd) = norm drs }.

Definition LI (K : cfg) (gd : list nat) (Mf : cmapT) (a : sacc) (M : cmapT) (d : dstate) (os : list op) (its : list item)
           (known : list nat) (b : nat) (tl rest : list nat) (drs : list reply) : Prop :=
  LN K gd Mf (a_map a) M d os its known b /\ LS K gd (a_sv a) (a_fwd a) M known b tl rest /\
  LR K gd (a_fwd a) (a_syn a) (d_portal d) drs.

(* forwarding a message that prepares nothing: a statement it names is touched and on the backend
   (or its Parse is in the batch) *)
Lemma LS_snoc K gd sv fwd M known b tl rest m :
  LS K gd sv fwd M known b tl rest ->
  match m with
  | BBind g _ | BDesc g => In g tl /\ (alookup g (btab sv) <> None \/ In g (pnames fwd))
  | BDescP _ | BExec _ | BCloseP _ | BCloseUnnamed => True
  | _ => False
  end -> LS K gd sv (fwd ++ [m]) M known b tl rest.
Proof.
  intros [Hsrv Hbud Htouch Hrefs Hfwd] Hm.
  destruct m; try contradiction; constructor; auto;
    rewrite ?pnames_app, ?refs_app; cbn [pnames refs flat_map pname mref app]; rewrite ?app_nil_r; auto;
    try (apply fwd_good_snoc; [exact Hfwd | tauto]);
    (intros x Hx; apply in_app_iff in Hx as [Hx|[<-|[]]]; [auto | tauto]).
Qed.

Lemma LR_snoc K gd fwd syn pt drs m pt' x :
  LR K gd fwd syn pt drs -> fexec_ok gd pt [m] -> fportal gd pt [m] = pt' -> fexp gd pt [m] = x -> pt_good K pt' ->
  LR K gd (fwd ++ [m]) syn pt' (drs ++ x).
Proof.
  intros [He <- Hp Hn] Hm <- <- Hp'. constructor.
  - apply fexec_ok_app; assumption.
  - apply fportal_app.
  - exact Hp'.
  - rewrite fexp_app, app_assoc. apply norm_app_congr. exact Hn.
Qed.

Lemma LR_syn K gd fwd syn pt drs r : LR K gd fwd syn pt drs -> is_data r = false -> LR K gd fwd (syn ++ [r]) pt (drs ++ [r]).
Proof.
  intros [He Hpt Hp Hn] Hr. constructor; auto.
  rewrite <- app_assoc. cbn [app]. rewrite norm_move by exact Hr. apply norm_app_congr. exact Hn.
Qed.

Section Loop.
Variable K : cfg.
Variable gd univ : list nat.
Variable Mf : cmapT.
Hypothesis Hgood : gd_good K univ gd.

Lemma li_step_parse a M d c n st os g st' its known b tl rest drs :
  LI K gd Mf a M d (Parse c n st :: os) (IParse g st' :: its) known b tl rest drs ->
  exists rest1,
    LI K gd Mf (sitem K a (IParse g st')) (ainsert n (g, st) M) (fst (dstep K d (Parse c n st))) os its (n :: known) (b - 1)
       (g :: remove_nat g tl) rest1 (drs ++ snd (dstep K d (Parse c n st))).
Proof.
  intros ([Hbrel Hok Hskip Hnj Hmap] & [Hsrv Hbud Htouch Hrefs Hfwd] & HR).
  cbn in Hbrel. destruct Hbrel as (-> & Hgd & Hbrel). cbn [batch_ok] in Hok.
  apply andb3 in Hok as (Hk & Hb & Hok).
  destruct (kind K st) eqn:Ek; try discriminate.
  apply Nat.ltb_lt in Hb.
  unfold dstep. rewrite Hskip, Ek. cbn [fst snd].
  assert (HN : LN K gd Mf (a_map a) (ainsert n (g, st) M) (mkD (ainsert n st (d_tab d)) (d_portal d) false) os its (n :: known) (b - 1))
    by (constructor; cbn; auto using NJ_parse).
  pose proof (remove_nat_length g tl) as Hl.
  assert (Htouch' : forall n0, In n0 (n :: known) ->
            exists g0 st0, alookup n0 (ainsert n (g, st) M) = Some (g0, st0) /\ In g0 (g :: remove_nat g tl)).
  { intros n0 Hn0. destruct (Nat.eq_dec n0 n) as [->|Hne]; [exists g, st; rewrite alookup_ainsert_eq; split; [reflexivity | left; reflexivity]|].
    destruct Hn0 as [X|Hn0]; [congruence|].
    rewrite alookup_ainsert_neq by assumption. destruct (Htouch n0 Hn0) as (g0 & st0 & A & B). exists g0, st0. auto using touched_incl. }
  unfold LI. cbn [sitem]. destruct (mem g (lru (a_sv a))) eqn:Em.
  - (* cached on this server: ParseComplete is synthesised *)
    apply mem_In in Em. rewrite (si_lru _ _ _ _ _ _ Hsrv) in Em.
    exists (remove_nat g rest). cbn [a_map a_sv a_fwd a_syn d_portal].
    split; [exact HN|]. split; [|apply LR_syn; auto].
    constructor; cbn [btab length] in *; auto using touched_incl, touch_good; lia.
  - (* not cached: registered, the Parse goes out with the batch *)
    apply mem_false in Em. rewrite (si_lru _ _ _ _ _ _ Hsrv) in Em.
    destruct (register_good K gd univ (a_sv a) tl rest (pnames (a_fwd a)) g st false Hgood Hsrv ltac:(right; lia) Hgd (fun _ => Em))
      as (sv' & rest' & Hreg & HS' & Hframe).
    rewrite Hreg. exists rest'. cbn [a_map a_sv a_fwd a_syn d_portal].
    split; [exact HN|]. split; [|apply (LR_snoc K gd _ _ _ _ (BParse g st)) with (1 := HR); cbn; auto; apply HR].
    constructor; cbn [length] in *; auto; try lia.
    + rewrite pnames_app. exact HS'.
    + intros x Hx. rewrite refs_app in Hx. apply in_app_iff in Hx as [Hx|[<-|[]]]; [apply touched_incl | left]; auto.
    + apply fwd_good_snoc.
      * eapply fwd_good_ext; [|exact Hfwd]. intros x Hx. cbn. rewrite Hframe; [tauto | auto].
      * split; [|split; [|split]]; auto.
        -- rewrite (si_pend _ _ _ _ _ _ HS'); [congruence | apply in_app_iff; right; left; reflexivity].
        -- intros X. apply Em. apply in_app_iff. left. apply Hrefs. apply pnames_refs. exact X.
Qed.

(* Bind and Describe share everything up to the message appended: the statement is registered on
   the server (sent now if need be) and its name moves to the front of the touched names; that
   costs a unit of the budget unless the client name was mentioned before in the batch *)
Lemma ls_ensure a M n known b tl rest g st :
  LS K gd (a_sv a) (a_fwd a) M known b tl rest ->
  alookup n M = Some (g, st) -> nth_error gd g = Some st -> mem n known || (0 <? b) = true ->
  exists sv' rest1,
    ensure K a n g st = mkAcc (a_map a) sv' (ppromote (a_pl a) (hash K st)) (a_fwd a) (a_syn a) /\
    LS K gd sv' (a_fwd a) M (n :: known) (if mem n known then b else b - 1) (g :: remove_nat g tl) rest1 /\
    (alookup g (btab sv') <> None \/ In g (pnames (a_fwd a))).
Proof.
  intros [Hsrv Hbud Htouch Hrefs Hfwd] HM Hgd Hb.
  assert (Hb' : (mem n known = true /\ In g tl) \/ (mem n known = false /\ 0 < b)).
  { destruct (mem n known) eqn:Em.
    - left. split; auto. apply mem_In in Em. destruct (Htouch n Em) as (g0 & st1 & A & B). rewrite HM in A. inversion A; subst. exact B.
    - right. split; auto. apply Nat.ltb_lt. exact Hb. }
  assert (Hroom : In g (tl ++ rest) \/ length tl < cs K) by (rewrite in_app_iff; destruct Hb' as [[_ X]|[_ X]]; [auto | right; lia]).
  unfold ensure.
  destruct (register_good K gd univ (a_sv a) tl rest (pnames (a_fwd a)) g st true Hgood Hsrv Hroom Hgd ltac:(discriminate))
    as (sv' & rest' & Hreg & HS' & Hframe).
  rewrite Hreg. exists sv', rest'. split; [reflexivity|].
  split; [|apply (si_dom _ _ _ _ _ _ HS'); left; reflexivity].
  constructor; auto using touched_incl.
  - destruct Hb' as [[-> X]|[-> X]].
    + rewrite length_touched; [exact Hbud | eapply NoDup_app_l; exact (si_nd _ _ _ _ _ _ Hsrv) | exact X].
    + pose proof (remove_nat_length g tl). cbn [length]. lia.
  - intros n0 [<-|Hn0]; [exists g, st; split; [exact HM | left; reflexivity]|].
    destruct (Htouch n0 Hn0) as (g0 & st1 & A & B). exists g0, st1. auto using touched_incl.
  - eapply fwd_good_ext; [|exact Hfwd]. intros x Hx'. cbn. rewrite Hframe; [tauto | auto].
Qed.

Lemma li_step_bind a M d c p n os g st n' p' its known b tl rest drs :
  LI K gd Mf a M d (Bind c p n :: os) (IBind g st n' p' :: its) known b tl rest drs ->
  exists rest1,
    LI K gd Mf (sitem K a (IBind g st n' p')) M (fst (dstep K d (Bind c p n))) os its (n :: known) (if mem n known then b else b - 1)
       (g :: remove_nat g tl) rest1 (drs ++ snd (dstep K d (Bind c p n))).
Proof.
  intros ([Hbrel Hok Hskip Hnj Hmap] & HS & HR).
  cbn in Hbrel. destruct Hbrel as ((-> & ->) & HM & Hgd & Hbrel). cbn [batch_ok] in Hok.
  pose proof (NJ_lookup _ _ _ _ _ Hnj HM) as Hst. rewrite Hst in Hok.
  apply andb3 in Hok as (Hl & Hb & Hok).
  destruct (ls_ensure a M n known b tl rest g st HS HM Hgd Hb) as (sv' & rest1 & Ea & HS' & Hdef).
  exists rest1. unfold LI, dstep. rewrite Hskip, Hst. cbn [sitem]. rewrite Ea. cbn [fst snd a_map a_sv a_fwd a_syn d_portal].
  split; [constructor; auto|]. split; [apply LS_snoc; [exact HS' | split; [left; reflexivity | exact Hdef]]|].
  apply LR_snoc with (1 := HR); cbn; rewrite ?(nth_error_nth _ _ 0 Hgd); auto.
  apply pt_good_insert; [apply HR | eapply gd_good_kind; eauto].
Qed.

Lemma li_step_desc a M d c n os g st n' its known b tl rest drs :
  LI K gd Mf a M d (Describe c n :: os) (IDesc g st n' :: its) known b tl rest drs ->
  exists rest1,
    LI K gd Mf (sitem K a (IDesc g st n')) M (fst (dstep K d (Describe c n))) os its (n :: known) (if mem n known then b else b - 1)
       (g :: remove_nat g tl) rest1 (drs ++ snd (dstep K d (Describe c n))).
Proof.
  intros ([Hbrel Hok Hskip Hnj Hmap] & HS & HR).
  cbn in Hbrel. destruct Hbrel as (-> & HM & Hgd & Hbrel). cbn [batch_ok] in Hok.
  apply andb3 in Hok as (Hl & Hb & Hok).
  pose proof (NJ_lookup _ _ _ _ _ Hnj HM) as Hst.
  destruct (ls_ensure a M n known b tl rest g st HS HM Hgd Hb) as (sv' & rest1 & Ea & HS' & Hdef).
  exists rest1. unfold LI, dstep. rewrite Hskip, Hst. cbn [sitem]. rewrite Ea. cbn [fst snd a_map a_sv a_fwd a_syn d_portal].
  split; [constructor; auto|]. split; [apply LS_snoc; [exact HS' | split; [left; reflexivity | exact Hdef]]|].
  apply LR_snoc with (1 := HR); cbn; rewrite ?(nth_error_nth _ _ 0 Hgd); auto. apply HR.
Qed.

(* Describe('P'), Execute and Close('P') concern portals only: the item is forwarded as it is, neither
   the client map nor anything about statements changes, and the specification answers the op as the
   backend will answer the message *)
Inductive portal_op : op -> item -> bmsg -> Prop :=
| po_descp c p : portal_op (DescribeP c p) (IDescP p) (BDescP p)
| po_exec c p : portal_op (Execute c p) (IExec p) (BExec p)
| po_closep c p : portal_op (CloseP c p) (IClosePortal p) (BCloseP p).

Lemma li_step_portal a M d o os it its m known b tl rest drs :
  portal_op o it m ->
  LI K gd Mf a M d (o :: os) (it :: its) known b tl rest drs ->
  LI K gd Mf (sitem K a it) M (fst (dstep K d o)) os its known b tl rest (drs ++ snd (dstep K d o)).
Proof.
  intros Hm ([Hbrel Hok Hskip Hnj Hmap] & HS & HR). pose proof (lr_pgood _ _ _ _ _ _ HR) as Hpg.
  destruct d as [tab pt sk]. cbn [d_tab d_portal d_skip] in Hok, Hskip, Hpg. subst sk.
  assert (H : sitem K a it = mkAcc (a_map a) (a_sv a) (a_pl a) (a_fwd a ++ [m]) (a_syn a) /\
              dstep K (mkD tab pt false) o = (mkD tab (fportal gd pt [m]) false, fexp gd pt [m]) /\
              fexec_ok gd pt [m] /\ pt_good K (fportal gd pt [m]) /\
              brel gd M os its Mf /\ batch_ok K tab known (fportal gd pt [m]) b os = true).
  { destruct Hm; destruct Hbrel as (_ & Hbrel); cbn [batch_ok] in Hok;
      cbn [sitem dstep d_skip d_tab d_portal fportal fexp fexec_ok].
    - apply andb_prop in Hok as (Hpf & Hok). destruct (alookup p pt) as [st|] eqn:Ep; [|discriminate].
      repeat split; auto. discriminate.
    - apply andb_prop in Hok as (Hpf & Hok). destruct (alookup p pt) as [st|] eqn:Ep; [|discriminate].
      rewrite (Hpg p st Ep). repeat split; auto. discriminate.
    - repeat split; auto using pt_good_remove. }
  destruct H as (-> & -> & He & Hpg' & Hbrel' & Hok'). cbn [fst snd].
  split; [constructor; auto|]. split; [apply LS_snoc; [exact HS | destruct Hm; exact I]|].
  apply LR_snoc with (1 := HR); auto.
Qed.

Lemma li_step_close a M d c n os n' its known b tl rest drs :
  LI K gd Mf a M d (Close c n :: os) (IClose n' :: its) known b tl rest drs ->
  LI K gd Mf (sitem K a (IClose n')) (aremove n M) (fst (dstep K d (Close c n))) os its (remove_nat n known) b tl rest (drs ++ snd (dstep K d (Close c n))).
Proof.
  intros ([Hbrel Hok Hskip Hnj Hmap] & [Hsrv Hbud Htouch Hrefs Hfwd] & HR).
  cbn in Hbrel. destruct Hbrel as (-> & Hbrel). cbn [batch_ok] in Hok. apply andb_prop in Hok as (Hn0 & Hok).
  apply negb_true_iff in Hn0. rewrite Hn0 in Hbrel.
  unfold LI, dstep. cbn [sitem]. rewrite Hskip, Hn0. cbn [fst snd a_map a_sv a_fwd a_syn d_portal].
  split; [constructor; cbn; auto using NJ_close|]. split; [|apply LR_syn; auto].
  constructor; auto.
  intros n1 Hq. apply remove_nat_In in Hq as [Hq Hne]. rewrite alookup_aremove_neq by assumption. apply Htouch. exact Hq.
Qed.

Lemma li_step a M d o os it its known b tl rest drs :
  LI K gd Mf a M d (o :: os) (it :: its) known b tl rest drs ->
  exists M' known' b' tl' rest',
    LI K gd Mf (sitem K a it) M' (fst (dstep K d o)) os its known' b' tl' rest' (drs ++ snd (dstep K d o)).
Proof.
  intros H. pose proof (ln_brel _ _ _ _ _ _ _ _ _ _ (proj1 H)) as Hb.
  destruct o, it; try contradiction.
  - apply li_step_parse in H as (? & H). eauto 8.
  - apply li_step_bind in H as (? & H). eauto 8.
  - apply li_step_desc in H as (? & H). eauto 8.
  - destruct Hb as [-> _]. eapply li_step_portal in H; [eauto 8 | constructor].
  - destruct Hb as [-> _]. eapply li_step_portal in H; [eauto 8 | constructor].
  - apply li_step_close in H. eauto 8.
  - destruct Hb as [-> _]. eapply li_step_portal in H; [eauto 8 | constructor].
Qed.

Lemma sitems_sim : forall os its a M d known b tl rest drs,
  LI K gd Mf a M d os its known b tl rest drs ->
  exists known' b' tl' rest',
    LI K gd Mf (sitems K a its) Mf (fst (drun K d os)) [] [] known' b' tl' rest' (drs ++ snd (drun K d os)).
Proof.
  induction os as [|o os IH]; intros its a M d known b tl rest drs HLI;
    pose proof (ln_brel _ _ _ _ _ _ _ _ _ _ (proj1 HLI)) as Hb; destruct its as [|it its]; try (destruct o; contradiction); try contradiction.
  - cbn in Hb. subst. exists known, b, tl, rest. cbn. rewrite app_nil_r. exact HLI.
  - apply li_step in HLI as (M1 & known1 & b1 & tl1 & rest1 & H1).
    apply IH in H1 as (known' & b' & tl' & rest' & H2).
    cbn [drun]. unfold sitems in *. cbn [fold_left].
    destruct (dstep K d o) as [d1 o1]. cbn [fst snd] in H2. destruct (drun K d1 os) as [d2 o2]. cbn [fst snd] in *.
    rewrite <- app_assoc in H2. eauto 8.
Qed.

End Loop.


(** * Part B6 — the refinement invariant and the main induction *)

Definition SrvInv (K : cfg) (sv : server) : Prop :=
  NoDup (lru sv) /\ length (lru sv) <= cs K /\ (forall g, In g (lru sv) <-> alookup g (btab sv) <> None).

Lemma srvinv_empty K q log : SrvInv K (mkServer [] q [] log).
Proof. unfold SrvInv. cbn. csplits; [constructor | lia | intros g; split; [intros [] | intros X; congruence]]. Qed.

Definition crel (gd : list nat) (tab : list (nat * nat)) (buf : list op) (cm : cmapT) (cb : list item) : Prop :=
  exists M0, NJ M0 tab /\ brel gd M0 buf cb cm.

Definition GInv (K : cfg) (univ : list nat) (w : world) (S : spec_state) : Prop :=
  WInv K w /\ gd_good K univ (gdef w) /\ (forall s, SrvInv K (servers w s)) /\
  (forall c, alive (clients w c) = true /\ crel (gdef w) (s_tab (S c)) (s_buf (S c)) (cmap (clients w c)) (cbuf (clients w c))).

Lemma brun_app K x : forall b y, brun K b (x ++ y) =
  let '(b1, o1) := brun K b x in let '(b2, o2) := brun K b1 y in (b2, o1 ++ o2).
Proof.
  induction x as [|m x IH]; intros b y; cbn [app brun].
  - destruct (brun K b y); reflexivity.
  - destruct (bstep K b m) as [b1 o1]. rewrite IH. destruct (brun K b1 x) as [b2 o2]. destruct (brun K b2 y) as [b3 o3].
    rewrite app_assoc. reflexivity.
Qed.

Lemma final_exchange K gd univ sv tl rest fwd :
  gd_good K univ gd -> SInv K gd sv tl rest (pnames fwd) ->
  fwd_good K gd (fun g => alookup g (btab sv) <> None) fwd -> fexec_ok gd [] fwd ->
  exists sv', exchange K sv fwd = (sv', fexp gd [] fwd ++ [RZ]) /\ SrvInv K sv'.
Proof.
  intros Hg [H1 H2 H3 H4 H5 H6 H7] Hf He. unfold exchange.
  destruct (brun_good K gd univ fwd Hg (btab sv) [] H7 ltac:(intros ? ? X; discriminate) Hf He) as (t' & Hr & Hd & Hrows).
  rewrite brun_app, Hr. cbn [brun bstep b_tab app].
  assert (Hne : quiet K (fexp gd [] fwd ++ [RZ])).
  { split.
    - intros X. apply in_app_iff in X as [X|[X|[]]]; [|discriminate]. revert X. apply (fexp_noerr gd fwd []). exact He.
    - intros st X. apply in_app_iff in X as [X|[X|[]]]; [auto | discriminate]. }
  pose proof (recv_noerr K (lru sv) (queue sv) _ Hne) as Hq. destruct (recv K (lru sv) (queue sv) _) as [l q']. cbn in Hq. subst l.
  eexists. split; [reflexivity|]. unfold SrvInv. cbn [lru btab]. rewrite H1. split; [exact H2|]. split; [exact H3|].
  intros g. rewrite H4. symmetry. apply Hd.
Qed.

Lemma spec_step_other K S o c : op_client o <> Some c -> fst (spec_step K S o) c = S c.
Proof.
  intros H. destruct o; cbn in *; try (rewrite upd_other; [reflexivity | congruence]); try reflexivity.
  destruct (drun K _ _). cbn. rewrite upd_other; [reflexivity | congruence].
Qed.

Section Main.
Variable K : cfg.
Variable univ : list nat.
Hypothesis Hinj : forall a b, In a univ -> In b univ -> hash K a = hash K b -> a = b.

Lemma sync_step w S c s :
  GInv K univ w S -> batch_ok K (s_tab (S c)) [] [] (cs K) (s_buf (S c)) = true ->
  map norm_obs (snd (step K w (Sync c s))) = map norm_obs (snd (spec_step K S (Sync c s))) /\
  GInv K univ (fst (step K w (Sync c s))) (fst (spec_step K S (Sync c s))).
Proof.
  intros HG Hb. pose proof HG as (HW & Hgood & Hsrv & Hcl).
  pose proof (winv_step K w (Sync c s) HW) as HW'.
  destruct (Hcl c) as [Hal (M0 & HM0 & Hbrel)].
  pose proof HW as (_ & HWc & HWs).
  assert (HLI : LI K (gdef w) (cmap (clients w c)) (mkAcc (cmap (clients w c)) (servers w s) (plru w) [] []) M0
                   (mkD (s_tab (S c)) [] false) (s_buf (S c)) (cbuf (clients w c)) [] (cs K) [] (lru (servers w s)) []).
  { destruct (Hsrv s) as (Hnd & Hlen & Hdom).
    split; [constructor; auto|]. split; [|constructor; cbn; auto; intros ? ? X; discriminate].
    constructor; cbn; auto; try (intros ? []).
    constructor; cbn; auto; try (intros ? []). intros g. rewrite Hdom. tauto. }
  destruct (sitems_sim K (gdef w) univ (cmap (clients w c)) Hgood _ _ _ _ _ _ _ _ _ _ HLI)
    as (known' & b' & tl' & rest' & HLI').
  cbn [app] in HLI'.
  cbn [step spec_step] in *. rewrite Hal in *. cbn [negb] in *.
  set (a' := sitems K (mkAcc (cmap (clients w c)) (servers w s) (plru w) [] []) (cbuf (clients w c))) in *.
  destruct (drun K (mkD (s_tab (S c)) [] false) (s_buf (S c))) as [d' rs] eqn:Ed. cbn [fst snd] in HLI'.
  pose proof HLI' as ([Lbrel Lok Lskip Lnj Lmap] & [Lsrv Lbud Ltouch Lrefs Lfwd] & [Lexec Lport Lpg Lnorm]).
  assert (Hcrel : crel (gdef w) (d_tab d') [] (a_map a') []).
  { exists (a_map a'). split; [|reflexivity]. rewrite Lmap. exact Lnj. }
  assert (Hfin : forall sv' (w' : world),
             clients w' = upd (clients w) c (mkClient (a_map a') [] true) -> servers w' = upd (servers w) s sv' ->
             gdef w' = gdef w -> WInv K w' -> SrvInv K sv' ->
             GInv K univ w' (upd S c (mkS (d_tab d') [] true))).
  { intros sv' w' Ec Es Eg HWw HSv. unfold GInv. csplits; auto.
    - rewrite Eg. exact Hgood.
    - intros s0. rewrite Es. unfold upd. destruct (s0 =? s); auto.
    - intros c0. rewrite Ec, Eg. unfold upd. destruct (c0 =? c) eqn:E; cbn; auto. }
  destruct (a_fwd a') as [|m0 f0] eqn:Ef.
  - cbn [fst snd map norm_obs] in *. split.
    + f_equal. f_equal. cbn [fexp] in Lnorm. rewrite app_nil_r in Lnorm. apply norm_app_congr. exact Lnorm.
    + apply (Hfin (a_sv a')); auto.
      destruct Lsrv as [H1 H2 H3 H4 H5 H6 H7]. unfold SrvInv. rewrite H1. csplits; auto.
      intros g. rewrite H4. cbn. tauto.
  - destruct (final_exchange K (gdef w) univ (a_sv a') tl' rest' (m0 :: f0) Hgood Lsrv Lfwd Lexec) as (sv' & Hx & HSv).
    rewrite Hx in *. cbn [fst snd map norm_obs] in *. split.
    + f_equal. f_equal. rewrite app_assoc. apply norm_app_congr. exact Lnorm.
    + apply (Hfin sv'); auto.
Qed.

Lemma batch_ok_sync tab ment pf b buf c s :
  batch_ok K tab ment pf b (buf ++ [Sync c s]) = batch_ok K tab ment pf b buf.
Proof.
  revert tab ment pf b. induction buf as [|o r IH]; intros; cbn; [reflexivity|].
  destruct o; rewrite ?IH; try reflexivity. destruct (alookup n tab); [rewrite IH|]; reflexivity.
Qed.

Lemma crel_mono gd gd' tab buf cm cb : (forall g st, nth_error gd g = Some st -> nth_error gd' g = Some st) ->
  crel gd tab buf cm cb -> crel gd' tab buf cm cb.
Proof. intros Hm (M0 & H0 & Hb). exists M0. split; auto. eapply brel_mono; eauto. Qed.

Lemma ginv_buffer w S c o it cm' (w1 : world) :
  GInv K univ w S -> op_client o = Some c ->
  WInv K w1 -> gd_good K univ (gdef w1) -> servers w1 = servers w ->
  (forall g st, nth_error (gdef w) g = Some st -> nth_error (gdef w1) g = Some st) ->
  clients w1 = upd (clients w) c (mkClient cm' (cbuf (clients w c) ++ [it]) true) ->
  brel (gdef w1) (cmap (clients w c)) [o] [it] cm' ->
  GInv K univ w1 (fst (spec_step K S o)).
Proof.
  intros (HW & Hgood & Hsrv & Hcl) Hoc HW1 Hg1 Hs1 Hmono Hc1 Hsn.
  unfold GInv. csplits; auto.
  - intros s. rewrite Hs1. apply Hsrv.
  - intros c0. rewrite Hc1. unfold upd. destruct (c0 =? c) eqn:E.
    + apply Nat.eqb_eq in E. subst c0. cbn [alive cmap cbuf]. split; [reflexivity|].
      destruct (Hcl c) as [_ (M0 & H0 & Hb)].
      assert (Es : fst (spec_step K S o) c = mkS (s_tab (S c)) (s_buf (S c) ++ [o]) true).
      { destruct o; cbn in Hoc; inversion Hoc; subst; cbn; try rewrite upd_same; try reflexivity.
        contradiction. (* [brel] relates a Sync to no item *) }
      rewrite Es. cbn [s_tab s_buf]. exists M0. split; auto.
      eapply brel_app; [eapply brel_mono; eauto | exact Hsn].
    + apply Nat.eqb_neq in E. rewrite spec_step_other by congruence. destruct (Hcl c0) as [Ha Hr]. split; auto.
      eapply crel_mono; eauto.
Qed.

Lemma ginv_step w S o :
  GInv K univ w S ->
  (forall st, In st (stmts_of [o]) -> In st univ) ->
  (match op_client o with
   | Some c => batch_ok K (s_tab (S c)) [] [] (cs K) (s_buf (S c) ++ [o]) = true
   | None => True end) ->
  map norm_obs (snd (step K w o)) = map norm_obs (snd (spec_step K S o)) /\
  GInv K univ (fst (step K w o)) (fst (spec_step K S o)).
Proof.
  intros HG Hu Hb. pose proof HG as (HW & Hgood & Hsrv & Hcl).
  pose proof (winv_step K w o HW) as HW'.
  destruct o as [c n st|c p n|c n|c p|c p|c n|c p|c s|s]; cbn [op_client] in Hb.
  (* Describe('P'), Execute, Close, Close('P') only buffer an item *)
  4-7: destruct (Hcl c) as [Hal _]; cbn [step] in *; rewrite Hal in *; cbn [negb fst snd] in *;
    (split; [reflexivity|]); eapply ginv_buffer; eauto; split; reflexivity.
  (* Bind and Describe: the guard says that the name is in the client map *)
  2-3: destruct (Hcl c) as [Hal (M0 & H0 & Hbrel)];
    destruct (buffered_lookup K _ _ _ _ _ _ _ n _ Hbrel H0 Hb eq_refl) as (g & st & Hl);
    assert (Hgd : nth_error (gdef w) g = Some st) by (eapply (proj1 (proj1 (proj2 HW) c)), alookup_In, Hl);
    cbn [step] in *; rewrite Hal in *; cbn [negb] in *; rewrite Hl in *; cbn [fst snd] in *;
    (split; [reflexivity|]); eapply ginv_buffer; eauto; repeat split; assumption.
  - destruct (Hcl c) as [Hal (M0 & H0 & Hbrel)].
    pose proof (last_op_facts K _ _ _ _ _ _ _ _ Hbrel H0 Hb) as Hk. cbn in Hk.
    cbn [step] in *. rewrite Hal in *. cbn [negb] in *.
    destruct (pool_get_or_insert K w st) as [w1 [g st']] eqn:Ep.
    destruct (pool_get_or_insert_ok K w st w1 g st' HW Ep) as (_ & Hc1 & Hs1 & Hg & Hh & x & Eg & Hx).
    assert (Hst : In st univ) by (apply Hu; cbn; auto).
    assert (Hmono : forall g0 st0, nth_error (gdef w) g0 = Some st0 -> nth_error (gdef w1) g0 = Some st0)
      by (rewrite Eg; intros; apply nth_error_app_mono; assumption).
    assert (Hst' : st' = st /\ gd_good K univ (gdef w1)).
    { rewrite Eg. unfold gd_good in *. destruct Hx as [[-> Hgd]|[-> Est]].
      - rewrite app_nil_r. split; [|exact Hgood]. apply Hinj; auto.
        apply nth_error_In in Hgd. rewrite Forall_forall in Hgood. apply Hgood, Hgd.
      - split; [exact Est|]. apply Forall_app. split; [exact Hgood | repeat constructor; auto]. }
    destruct Hst' as [-> Hgood1].
    cbn [fst snd] in *. split; [reflexivity|].
    eapply (ginv_buffer w S c (Parse c n st) (IParse g st)); eauto; cbn; auto.
    rewrite Hc1. reflexivity.
  - rewrite batch_ok_sync in Hb. apply sync_step; auto.
  - cbn [step spec_step fst snd] in *. split; [reflexivity|].
    unfold GInv. csplits; auto.
    intros s0. cbn. unfold upd. destruct (s0 =? s); auto. apply srvinv_empty.
Qed.

Lemma stmts_of_cons o r : stmts_of (o :: r) = stmts_of [o] ++ stmts_of r.
Proof. unfold stmts_of. cbn. rewrite app_nil_r. reflexivity. Qed.

Lemma ginv_run : forall ops w S,
  GInv K univ w S -> (forall st, In st (stmts_of ops) -> In st univ) -> guard_from K S ops = true ->
  map norm_obs (snd (run K w ops)) = map norm_obs (snd (spec_run K S ops)) /\
  GInv K univ (fst (run K w ops)) (fst (spec_run K S ops)).
Proof.
  induction ops as [|o r IH]; intros w S HG Hu Hg; cbn [run spec_run].
  - cbn. auto.
  - cbn [guard_from] in Hg. apply andb_prop in Hg as [Hg1 Hg2].
    rewrite stmts_of_cons in Hu.
    destruct (ginv_step w S o HG) as [Ho HG1].
    + intros st Hs. apply Hu. apply in_app_iff. auto.
    + destruct (op_client o); auto.
    + destruct (step K w o) as [w1 o1]. destruct (spec_step K S o) as [S1 p1]. cbn [fst snd] in *.
      destruct (IH w1 S1 HG1) as [Hr HG2]; auto.
      * intros st Hs. apply Hu. apply in_app_iff. auto.
      * destruct (run K w1 r) as [w2 o2]. destruct (spec_run K S1 r) as [S2 p2]. cbn [fst snd] in *.
        split; [rewrite !map_app; congruence | exact HG2].
Qed.

End Main.

Lemma ginv0 K univ : GInv K univ world0 (fun _ => sclient0).
Proof.
  unfold GInv. csplits.
  - apply winv0.
  - constructor.
  - intros s. apply srvinv_empty.
  - intros c. cbn. split; [reflexivity|]. exists []. split; [intros n; reflexivity | reflexivity].
Qed.

Theorem refines_direct : forall K ops,
  hash_collision_free K ops -> guard K ops = true -> model_obs K ops = spec_obs K ops.
Proof.
  intros K ops Hh Hg. unfold guard in Hg. apply andb_prop in Hg as [_ Hg].
  unfold model_obs, spec_obs.
  destruct (ginv_run K (stmts_of ops) Hh ops world0 (fun _ => sclient0) (ginv0 K _)) as [H _]; auto.
Qed.

(** evicted statements are closed on the backend: after any guarded program every server's
    cache is exactly the set of names its backend holds, and it holds at most [cs] of them *)
Theorem evicted_closed : forall K ops w,
  hash_collision_free K ops -> guard K ops = true -> w = fst (run K world0 ops) ->
  forall s, NoDup (lru (servers w s)) /\ length (lru (servers w s)) <= cs K /\
            (forall g, In g (lru (servers w s)) <-> alookup g (btab (servers w s)) <> None) /\
            (forall g st, In (g, st) (btab (servers w s)) -> nth_error (gdef w) g = Some st).
Proof.
  intros K ops w Hh Hg -> s. unfold guard in Hg. apply andb_prop in Hg as [_ Hg].
  destruct (ginv_run K (stmts_of ops) Hh ops world0 (fun _ => sclient0) (ginv0 K _)) as [_ (HW & _ & Hs & _)]; auto.
  destruct (Hs s) as (A & B & C). destruct HW as (_ & _ & Ht).
  split; [exact A|]. split; [exact B|]. split; [exact C|]. intros g st Hi. apply (Ht s). exact Hi.
Qed.


Definition obs_client (o : nobs) : nat := match o with NReplies c _ | NKilled c => c end.
Definition of_client (c : nat) (o : op) : bool := match op_client o with Some c' => c' =? c | None => false end.
Definition proj (c : nat) (ops : list op) : list op := filter (of_client c) ops.

Lemma filter_all {A} (f : A -> bool) l : (forall x, In x l -> f x = true) -> filter f l = l.
Proof. induction l as [|y l IH]; cbn; auto. intros H. rewrite (H y (or_introl eq_refl)). f_equal. apply IH. auto. Qed.
Lemma filter_none {A} (f : A -> bool) l : (forall x, In x l -> f x = false) -> filter f l = [].
Proof. induction l as [|y l IH]; cbn; auto. intros H. rewrite (H y (or_introl eq_refl)). apply IH. auto. Qed.

Lemma spec_step_local K S S' o c : op_client o = Some c -> S c = S' c ->
  snd (spec_step K S o) = snd (spec_step K S' o) /\ fst (spec_step K S o) c = fst (spec_step K S' o) c.
Proof.
  intros Ho E. destruct o; cbn in Ho; inversion Ho; subst; cbn; rewrite ?E; try (rewrite !upd_same; auto).
  destruct (drun K _ _). cbn. rewrite !upd_same. auto.
Qed.

Lemma spec_step_obs_client K S o x : In x (map norm_obs (snd (spec_step K S o))) -> op_client o = Some (obs_client x).
Proof.
  destruct o; cbn; try tauto. destruct (drun K _ _). cbn. intros [<-|[]]. reflexivity.
Qed.

Lemma spec_proj K c : forall ops S S', S c = S' c ->
  filter (fun o => obs_client o =? c) (map norm_obs (snd (spec_run K S ops))) = map norm_obs (snd (spec_run K S' (proj c ops))).
Proof.
  induction ops as [|o r IH]; intros S S' E; [reflexivity|].
  cbn [spec_run proj filter]. unfold of_client at 1.
  destruct (op_client o) as [c'|] eqn:Ho.
  - destruct (c' =? c) eqn:Ec.
    + apply Nat.eqb_eq in Ec. subst c'. cbn [spec_run].
      destruct (spec_step_local K S S' o c Ho E) as [E1 E2].
      destruct (spec_step K S o) as [S1 o1]. destruct (spec_step K S' o) as [S1' o1'] eqn:Es'. cbn [fst snd] in *. subst o1'.
      specialize (IH S1 S1' E2). fold (proj c r).
      destruct (spec_run K S1 r) as [S2 o2]. destruct (spec_run K S1' (proj c r)) as [S2' o2']. cbn [fst snd] in *.
      rewrite !map_app, filter_app, IH. f_equal.
      apply filter_all. intros x Hx.
      assert (Hc : op_client o = Some (obs_client x)).
      { apply (spec_step_obs_client K S' o x). rewrite Es'. exact Hx. }
      rewrite Ho in Hc. inversion Hc. apply Nat.eqb_refl.
    + apply Nat.eqb_neq in Ec. fold (proj c r).
      pose proof (spec_step_other K S o c ltac:(congruence)) as Eo.
      destruct (spec_step K S o) as [S1 o1] eqn:Es. cbn [fst snd] in *.
      assert (E' : S1 c = S' c) by congruence.
      specialize (IH S1 S' E').
      destruct (spec_run K S1 r) as [S2 o2]. cbn [fst snd] in *.
      rewrite map_app, filter_app, IH.
      rewrite filter_none; [reflexivity|]. intros x Hx.
      assert (Hc : op_client o = Some (obs_client x)) by (apply (spec_step_obs_client K S o x); rewrite Es; exact Hx).
      rewrite Ho in Hc. inversion Hc. apply Nat.eqb_neq. congruence.
  - fold (proj c r). destruct o; cbn in Ho; try discriminate. cbn [spec_step fst snd app].
    specialize (IH S S' E). destruct (spec_run K S r) as [S2 o2]. cbn [snd app] in *. exact IH.
Qed.

Lemma stmts_of_proj c ops st : In st (stmts_of (proj c ops)) -> In st (stmts_of ops).
Proof.
  unfold stmts_of, proj. rewrite !in_flat_map. intros [o [H1 H2]]. apply filter_In in H1 as [H1 _]. eauto.
Qed.

(** what client [c] observes in a multi-client program is what it observes alone *)
Theorem clients_independent : forall K ops c,
  hash_collision_free K ops -> guard K ops = true -> guard K (proj c ops) = true ->
  filter (fun o => obs_client o =? c) (model_obs K ops) = model_obs K (proj c ops).
Proof.
  intros K ops c Hh Hg Hgc.
  rewrite (refines_direct K ops Hh Hg).
  rewrite (refines_direct K (proj c ops)); [| |exact Hgc].
  - unfold spec_obs. apply spec_proj. reflexivity.
  - intros a b Ha Hb. apply Hh; apply (stmts_of_proj c); assumption.
Qed.

Theorem portal_close_inert : forall K w c p a b,
  (forall c', cmap (clients (fst (step K w (CloseP c p))) c') = cmap (clients w c')) /\
  servers (fst (step K w (CloseP c p))) = servers w /\
  plru (fst (step K w (CloseP c p))) = plru w /\
  a_map (sitem K a (IClosePortal p)) = a_map a /\
  a_sv (sitem K a (IClosePortal p)) = a_sv a /\
  a_fwd (sitem K a (IClosePortal p)) = a_fwd a ++ [BCloseP p] /\
  a_syn (sitem K a (IClosePortal p)) = a_syn a /\
  b_tab (fst (bstep K b (BCloseP p))) = b_tab b /\
  b_portal (fst (bstep K b (BClose p))) = b_portal b /\
  d_tab (fst (dstep K (mkD (b_tab b) (b_portal b) (b_skip b)) (CloseP c p))) = b_tab b.
Proof.
  intros K w c p a b. repeat split; cbn [step sitem a_map a_sv a_fwd a_syn].
  - intros c'. destruct (alive (clients w c)); cbn; [|reflexivity].
    unfold upd. destruct (c' =? c) eqn:E; [apply Nat.eqb_eq in E; subst|]; reflexivity.
  - destruct (alive (clients w c)); reflexivity.
  - destruct (alive (clients w c)); reflexivity.
  - unfold bstep. destruct (b_skip b); reflexivity.
  - unfold bstep. destruct (b_skip b); reflexivity.
  - unfold dstep. cbn. destruct (b_skip b); reflexivity.
Qed.
